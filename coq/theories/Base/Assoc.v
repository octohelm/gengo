(* Association lists: what a Go map is modelled by.  Every model file spells out its own lookup / insert next to the Go
   code it stands for (the key sought on the left of the test or on the right, the table before the key or after it,
   the first entry winning or the last, pairs or records with a name).  Whatever
   satisfies the unfolding equation of one of them is [get] / [set] / [find_by] below ([get_unfold], [set_unfold], ...),
   so a proof file states that once per copy and takes the rest from here; where the model's fixpoint has the very
   shape of [get] the two are convertible and nothing is stated.  The test [eqb] is a parameter that comes with its
   [reflect] lemma: a copy that tests [bytes_eqb k' k] is [get (fun a b => bytes_eqb b a)] and uses [bytes_eqbP']
   where the others use [bytes_eqbP].  At the end strings.HasPrefix / strings.CutPrefix ([has_prefix],
   [cut_prefix]) and what they decide. *)
Require Import Gengo.Base.Bytes Gengo.Base.Order.

Lemma bytes_eqbP' : forall a b, reflect (a = b) (bytes_eqb b a).
Proof. intros a b. rewrite bytes_eqb_sym. apply bytes_eqbP. Qed.

Section Assoc.
  Context {K V : Type} (eqb : K -> K -> bool).
  Implicit Types (k : K) (v : V) (m : list (K * V)).

  Fixpoint get k m : option V :=
    match m with
    | [] => None
    | (k', v) :: r => if eqb k k' then Some v else get k r
    end.

  (* Go's [m[k] = v] on a slice of pairs: in place if the key is there, else at the end *)
  Fixpoint set k v m : list (K * V) :=
    match m with
    | [] => [(k, v)]
    | (k', v') :: r => if eqb k k' then (k, v) :: r else (k', v') :: set k v r
    end.

  Definition sets {X} (kf : X -> K) (vf : X -> V) (l : list X) m := fold_left (fun m x => set (kf x) (vf x) m) l m.

  Lemma get_unfold (look : K -> list (K * V) -> option V) :
    (forall k m, look k m = match m with [] => None | (k', v) :: r => if eqb k k' then Some v else look k r end) ->
    forall k m, look k m = get k m.
  Proof. intros H k m. induction m as [|[k' v] r IH]; rewrite H; cbn; [|rewrite IH]; reflexivity. Qed.

  Lemma get_app : forall m1 m2 k, get k (m1 ++ m2) = match get k m1 with Some v => Some v | None => get k m2 end.
  Proof. induction m1 as [|[k0 v0] r IH]; intros m2 k; cbn; [reflexivity|]. destruct (eqb k k0); auto. Qed.

  (* the last entry wins: the model's loops that overwrite a result while they range *)
  Lemma get_last_unfold (look : K -> list (K * V) -> option V) :
    (forall k m, look k m = match m with
                            | [] => None
                            | (k', v) :: r => match look k r with Some x => Some x | None => if eqb k k' then Some v else None end
                            end) ->
    forall k m, look k m = get k (rev m).
  Proof.
    intros H k m. induction m as [|[k' v] r IH]; rewrite H; [reflexivity|]. cbn [rev]. rewrite get_app, IH. reflexivity.
  Qed.

  Hypothesis eqbP : forall a b, reflect (a = b) (eqb a b).

  Lemma eqb_refl : forall k, eqb k k = true.
  Proof. intros k. destruct (eqbP k k); congruence. Qed.

  Lemma eqb_neq : forall a b, a <> b -> eqb a b = false.
  Proof. intros a b N. destruct (eqbP a b); congruence. Qed.

  Lemma set_unfold (put : K -> V -> list (K * V) -> list (K * V)) (new : K -> K -> K) :
    (forall k, new k k = k) ->
    (forall k v m, put k v m = match m with
                               | [] => [(k, v)]
                               | (k', v') :: r => if eqb k k' then (new k k', v) :: r else (k', v') :: put k v r
                               end) ->
    forall k v m, put k v m = set k v m.
  Proof.
    intros Hn H k v m. induction m as [|[k' v'] r IH]; rewrite H; cbn; [reflexivity|].
    destruct (eqbP k k') as [<-|_]; [rewrite Hn|rewrite IH]; reflexivity.
  Qed.

  Lemma get_Some_In : forall m k v, get k m = Some v -> In (k, v) m.
  Proof.
    induction m as [|[k0 v0] r IH]; intros k v; cbn; [discriminate|].
    destruct (eqbP k k0) as [->|_]; [intros [= ->]; now left|auto].
  Qed.

  Lemma get_keys : forall m k, In k (map fst m) <-> get k m <> None.
  Proof.
    induction m as [|[k0 v0] r IH]; intros k; cbn; [split; [intros []|intros H; now contradiction H]|].
    destruct (eqbP k k0) as [->|N]; [split; [discriminate|now left]|]. rewrite <- IH.
    split; [intros [E|H]; [now contradiction N|exact H]|now right].
  Qed.

  Lemma get_None : forall m k, get k m = None <-> ~ In k (map fst m).
  Proof. intros m k. rewrite get_keys. destruct (get k m); split; intros H; try congruence. elim H. discriminate. Qed.

  Lemma get_Some_keys : forall m k, In k (map fst m) <-> exists v, get k m = Some v.
  Proof. intros m k. rewrite get_keys. destruct (get k m) as [v|]; split; try congruence; [eauto|intros [v [=]]]. Qed.

  Lemma get_In : forall m k v, NoDup (map fst m) -> In (k, v) m -> get k m = Some v.
  Proof.
    induction m as [|[k0 v0] r IH]; intros k v HN Hin; [contradiction|].
    cbn in *. apply NoDup_cons_iff in HN. destruct HN as [Hn Hr]. destruct Hin as [[= -> ->]|Hin]; [now rewrite eqb_refl|].
    destruct (eqbP k k0) as [->|_]; [|now apply IH]. contradiction Hn. apply (in_map fst _ _ Hin).
  Qed.

  (* with distinct keys [get] is membership, which a permutation keeps *)
  Lemma get_perm : forall m1 m2 k, NoDup (map fst m1) -> Permutation m1 m2 -> get k m1 = get k m2.
  Proof.
    intros m1 m2 k HN HP. pose proof (Permutation_NoDup (Permutation_map fst HP) HN) as HN2.
    destruct (get k m1) as [v|] eqn:E1.
    - symmetry. apply get_In; [exact HN2|]. apply (Permutation_in _ HP), get_Some_In, E1.
    - destruct (get k m2) as [v|] eqn:E2; [|reflexivity].
      apply get_Some_In, (Permutation_in _ (Permutation_sym HP)), (get_In m1 k v HN) in E2. congruence.
  Qed.

  Lemma get_rev : forall m k, NoDup (map fst m) -> get k (rev m) = get k m.
  Proof. intros m k HN. symmetry. apply get_perm; [exact HN|apply Permutation_rev]. Qed.

  Lemma get_set : forall m k k' v, get k (set k' v m) = if eqb k k' then Some v else get k m.
  Proof.
    induction m as [|[k0 v0] r IH]; intros k k' v; cbn; [reflexivity|].
    destruct (eqbP k' k0) as [->|N]; cbn; [now destruct (eqb k k0)|].
    rewrite IH. destruct (eqbP k k0) as [->|_]; [|reflexivity]. now rewrite (eqb_neq k0 k') by congruence.
  Qed.

  Lemma set_keys : forall m k v, map fst (set k v m) = map fst m ++ match get k m with Some _ => [] | None => [k] end.
  Proof.
    induction m as [|[k0 v0] r IH]; intros k v; cbn; [reflexivity|].
    destruct (eqbP k k0) as [->|_]; cbn; [now rewrite app_nil_r|now rewrite IH].
  Qed.

  Lemma set_keys_in : forall m k k' v, In k (map fst (set k' v m)) <-> k = k' \/ In k (map fst m).
  Proof.
    intros m k k' v. rewrite set_keys, in_app_iff. destruct (get k' m) eqn:E; cbn.
    - assert (In k' (map fst m)) by (apply get_keys; congruence). split; [tauto|intros [->|?]; auto].
    - split; [intros [?|[->|[]]]; auto|intros [->|?]; auto].
  Qed.

  Lemma set_NoDup : forall m k v, NoDup (map fst m) -> NoDup (map fst (set k v m)).
  Proof.
    intros m k v HN. rewrite set_keys. destruct (get k m) eqn:E; [now rewrite app_nil_r|].
    apply NoDup_app_one; [exact HN|now apply get_None].
  Qed.

  Lemma set_notin : forall m k v, ~ In k (map fst m) -> set k v m = m ++ [(k, v)].
  Proof.
    induction m as [|[k0 v0] r IH]; intros k v H; cbn in *; [reflexivity|].
    destruct (eqbP k k0) as [->|_]; [exfalso; apply H; now left|]. now rewrite IH by (intros Hr; apply H; now right).
  Qed.

  Lemma In_set : forall m k v e, In e (set k v m) -> e = (k, v) \/ In e m.
  Proof.
    induction m as [|[k0 v0] r IH]; intros k v e; cbn; [intros [<-|[]]; now left|].
    destruct (eqb k k0); cbn; (intros [H|H]; [auto|]); [auto|]. apply IH in H. destruct H; auto.
  Qed.

  Section Folds.
    Context {X : Type} (kf : X -> K) (vf : X -> V).

    (* read back by [get]: the last insert of the key wins *)
    Lemma get_sets : forall l m k,
        get k (sets kf vf l m) = match get k (rev (map (fun x => (kf x, vf x)) l)) with Some v => Some v | None => get k m end.
    Proof.
      unfold sets. induction l as [|x r IH]; intros m k; cbn; [reflexivity|].
      rewrite IH, get_app, get_set. cbn.
      destruct (get k (rev (map (fun x0 => (kf x0, vf x0)) r))); [reflexivity|]. destruct (eqb k (kf x)); reflexivity.
    Qed.

    Lemma In_sets : forall l m k v, In (k, v) (sets kf vf l m) -> (exists x, In x l /\ k = kf x /\ v = vf x) \/ In (k, v) m.
    Proof.
      unfold sets. induction l as [|x r IH]; intros m k v H; cbn in H; [now right|]. apply IH in H.
      destruct H as [[y [Hy E]]|H]; [left; exists y; split; [now right|exact E]|].
      apply In_set in H. destruct H as [[= -> ->]|H]; [left; exists x; split; [now left|split; reflexivity]|now right].
    Qed.

    Lemma sets_keys_in : forall l m k, In k (map fst (sets kf vf l m)) <-> In k (map kf l) \/ In k (map fst m).
    Proof.
      unfold sets. induction l as [|x r IH]; intros m k; cbn; [split; [intros H; right; exact H|intros [[]|H]; exact H]|].
      rewrite IH, set_keys_in. split.
      - intros [H|[E|H]]; [left; right; exact H|left; left; now symmetry|right; exact H].
      - intros [[E|H]|H]; [right; left; now symmetry|left; exact H|right; right; exact H].
    Qed.

    Lemma sets_NoDup : forall l m, NoDup (map fst m) -> NoDup (map fst (sets kf vf l m)).
    Proof. unfold sets. induction l as [|x r IH]; intros m H; cbn; [exact H|]. apply IH. now apply set_NoDup. Qed.

    Lemma sets_fresh : forall l m, NoDup (map fst m ++ map kf l) -> sets kf vf l m = m ++ map (fun x => (kf x, vf x)) l.
    Proof.
      unfold sets. induction l as [|x r IH]; intros m H; cbn in *; [now rewrite app_nil_r|].
      rewrite set_notin by (apply NoDup_remove_2 in H; intros Hx; apply H, in_or_app; now left).
      rewrite IH, <- app_assoc; [reflexivity|]. now rewrite map_app, <- app_assoc.
    Qed.

  End Folds.

  (* Go's [for k, v := range t { m[k] = v }] *)
  Definition merge m t : list (K * V) := sets fst snd t m.

  Lemma get_merge : forall t m k, NoDup (map fst t) -> get k (merge m t) = match get k t with Some v => Some v | None => get k m end.
  Proof.
    intros t m k HN. unfold merge. rewrite get_sets, (map_ext _ (fun e => e)), map_id by (now intros []). now rewrite get_rev.
  Qed.

  Lemma merge_keys_in : forall t m k, In k (map fst (merge m t)) <-> In k (map fst m) \/ In k (map fst t).
  Proof. intros t m k. unfold merge. rewrite sets_keys_in. apply or_comm. Qed.

  Lemma merge_NoDup : forall t m, NoDup (map fst m) -> NoDup (map fst (merge m t)).
  Proof. intros t m. apply sets_NoDup. Qed.
End Assoc.


Lemma get_map {K V W} (eqb : K -> K -> bool) (f : V -> W) : forall k (m : list (K * V)),
    get eqb k (map (fun e => (fst e, f (snd e))) m) = option_map f (get eqb k m).
Proof. intros k m. induction m as [|[k' v] r IH]; cbn; [reflexivity|]. destruct (eqb k k'); [reflexivity|exact IH]. Qed.

Lemma set_map {K V W} (eqb : K -> K -> bool) (f : V -> W) : forall k v (m : list (K * V)),
    set eqb k (f v) (map (fun e => (fst e, f (snd e))) m) = map (fun e => (fst e, f (snd e))) (set eqb k v m).
Proof. intros k v m. induction m as [|[k' v'] r IH]; cbn; [reflexivity|]. destruct (eqb k k'); cbn; [|rewrite IH]; reflexivity. Qed.

Lemma get_ext {K V} (eqb eqb' : K -> K -> bool) : (forall a b, eqb a b = eqb' a b) ->
  forall k (m : list (K * V)), get eqb k m = get eqb' k m.
Proof. intros H k m. induction m as [|[k' v] r IH]; cbn; [reflexivity|]. now rewrite H, IH. Qed.

Lemma set_ext {K V} (eqb eqb' : K -> K -> bool) : (forall a b, eqb a b = eqb' a b) ->
  forall k v (m : list (K * V)), set eqb k v m = set eqb' k v m.
Proof. intros H k v m. induction m as [|[k' v'] r IH]; cbn; [reflexivity|]. now rewrite H, IH. Qed.

Lemma get_swap_unfold {K V} (eqb : K -> K -> bool) (look : K -> list (V * K) -> option V) :
  (forall k m, look k m = match m with [] => None | (v, k') :: r => if eqb k k' then Some v else look k r end) ->
  forall k m, look k m = get eqb k (map (fun e => (snd e, fst e)) m).
Proof. intros H k m. induction m as [|[v k'] r IH]; rewrite H; cbn; [|rewrite IH]; reflexivity. Qed.

Section FindBy.
  Context {K A : Type} (eqb : K -> K -> bool) (key : A -> K).

  Definition find_by (k : K) (l : list A) : option A := find (fun x => eqb k (key x)) l.

  Lemma find_by_unfold (look : K -> list A -> option A) :
    (forall k l, look k l = match l with [] => None | y :: r => if eqb k (key y) then Some y else look k r end) ->
    forall k l, look k l = find_by k l.
  Proof. intros H k l. unfold find_by. induction l as [|y r IH]; rewrite H; cbn; [|rewrite IH]; reflexivity. Qed.

  Lemma find_by_get : forall k l, find_by k l = get eqb k (map (fun x => (key x, x)) l).
  Proof. intros k l. unfold find_by. induction l as [|y r IH]; cbn; [reflexivity|]. now rewrite IH. Qed.

  Hypothesis eqbP : forall a b, reflect (a = b) (eqb a b).

  Lemma find_by_Some : forall k l x, find_by k l = Some x -> In x l /\ key x = k.
  Proof. intros k l x H. apply find_some in H. destruct H as [H E]. destruct (eqbP k (key x)); [auto|discriminate]. Qed.

  Lemma find_by_In : forall l x, NoDup (map key l) -> In x l -> find_by (key x) l = Some x.
  Proof.
    intros l x HN Hx. rewrite find_by_get. apply (get_In _ eqbP); [rewrite map_map; exact HN|].
    apply (in_map (fun x => (key x, x))), Hx.
  Qed.
  Lemma find_unfold (look : K -> list A -> option A) :
    (forall k l, look k l = match l with [] => None | y :: r => if eqb k (key y) then Some y else look k r end) ->
    forall l x, NoDup (map key l) -> In x l -> look (key x) l = Some x.
  Proof. intros H l x. rewrite (find_by_unfold look H). apply find_by_In. Qed.
End FindBy.


Fixpoint has_prefix (p s : bytes) : bool :=
  match p, s with
  | [], _ => true
  | a :: p', c :: s' => Ascii.eqb a c && has_prefix p' s'
  | _ :: _, [] => false
  end.

Fixpoint cut_prefix (p s : bytes) : option bytes :=
  match p with
  | [] => Some s
  | a :: p' => match s with
               | [] => None
               | b :: s' => if Ascii.eqb a b then cut_prefix p' s' else None
               end
  end.

Lemma cut_prefix_iff : forall p s r, cut_prefix p s = Some r <-> s = p ++ r.
Proof.
  induction p as [|a p IH]; intros s r; cbn; [split; congruence|]. destruct s as [|b s]; [split; discriminate|].
  destruct (Ascii.eqb_spec a b) as [->|N]; [rewrite IH; split; congruence|split; [discriminate|congruence]].
Qed.

Lemma has_prefix_cut : forall p s, has_prefix p s = match cut_prefix p s with Some _ => true | None => false end.
Proof.
  induction p as [|a p IH]; intros [|b s]; cbn; try reflexivity. destruct (Ascii.eqb a b); [apply IH|reflexivity].
Qed.

Lemma has_prefix_iff : forall p s, has_prefix p s = true <-> exists r, s = p ++ r.
Proof.
  intros p s. rewrite has_prefix_cut. destruct (cut_prefix p s) as [r|] eqn:E.
  - apply cut_prefix_iff in E. split; eauto.
  - split; [discriminate|]. intros [r Hr]. apply cut_prefix_iff in Hr. congruence.
Qed.

Lemma has_prefix_app_inv : forall p q s, has_prefix (p ++ q) (p ++ s) = has_prefix q s.
Proof. induction p as [|a p IH]; intros q s; cbn; [reflexivity|]. rewrite Ascii.eqb_refl. apply IH. Qed.

Lemma has_prefix_app : forall p s, has_prefix p (p ++ s) = true.
Proof. intros p s. apply has_prefix_iff. now exists s. Qed.
