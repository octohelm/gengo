(* Facts that speak of nothing but lists and byte strings, kept in one place: what Base/Bytes.v leaves unsaid about its
   own definitions ([bind], [is_nil], [to_lower], equality of byte strings), a few list facts the standard library lacks, the bytewise (Go string)
   order, and insertion sort by a key.  A model file that sorts spells out its own copy of [bytes_leb] and of the
   insertion sort next to the Go loop it stands for; the copies are convertible with, or pointwise equal to, the
   ones below, so a proof file states that once ([sort_paths l = sort_by (fun p => p) bytes_leb l], lemma
   [sort_paths_eq] of Proofs/GenFile.v, by [sort_by_unfold]) and takes the rest from here. *)
Require Import Gengo.Base.Bytes.
From Coq Require Export Permutation Sorted.

Lemma bind_ok : forall {A B} (m : res A) (f : A -> res B) y, bind m f = Ok y -> exists x, m = Ok x /\ f x = Ok y.
Proof. intros A B [x| |] f y H; [eauto|discriminate..]. Qed.

Lemma bind_not_oof : forall {A B} (m : res A) (f : A -> res B),
    m <> OutOfFuel -> (forall x, m = Ok x -> f x <> OutOfFuel) -> bind m f <> OutOfFuel.
Proof. intros A B [x| |] f Hm Hf; cbn; [auto|discriminate|now elim Hm]. Qed.

Lemma is_nil_false : forall (A : Type) (l : list A), l <> [] -> is_nil l = false.
Proof. intros A [|x l] H; [congruence|reflexivity]. Qed.

Lemma is_nil_app {A} (x y : list A) : is_nil (x ++ y) = is_nil x && is_nil y.
Proof. destruct x; reflexivity. Qed.

Lemma to_lower_upper : forall c, is_upper c = true -> is_lower (to_lower c) = true.
Proof.
  intros c H. unfold to_lower. rewrite H. unfold is_upper, is_lower in *.
  apply andb_true_iff in H. destruct H as [H1 H2]. apply N.leb_le in H1. apply N.leb_le in H2.
  rewrite N_ascii_embedding by lia. apply andb_true_iff. split; apply N.leb_le; lia.
Qed.

Lemma to_lower_other : forall c, is_upper c = false -> to_lower c = c.
Proof. intros c H. unfold to_lower. rewrite H. reflexivity. Qed.

Lemma lower_not_upper : forall c, is_lower c = true -> is_upper c = false.
Proof.
  intros c H. unfold is_upper, is_lower in *.
  apply andb_true_iff in H. destruct H as [H _]. apply N.leb_le in H.
  apply andb_false_iff. right. apply N.leb_gt. lia.
Qed.

Lemma is_upper_to_lower : forall c, is_upper (to_lower c) = false.
Proof.
  intros c. destruct (is_upper c) eqn:E; [apply lower_not_upper, to_lower_upper, E|]. rewrite to_lower_other; exact E.
Qed.

Lemma bytes_eqbP : forall a b, reflect (a = b) (bytes_eqb a b).
Proof. intros a b. apply iff_reflect. symmetry. apply bytes_eqb_spec. Qed.

Lemma bytes_dec : forall a b : bytes, {a = b} + {a <> b}.
Proof. intros a b. destruct (bytes_eqbP a b); [left|right]; assumption. Qed.

Lemma bytes_eqb_neq : forall a b, bytes_eqb a b = false <-> a <> b.
Proof. intros a b. destruct (bytes_eqbP a b); split; congruence. Qed.

Lemma bytes_eqb_sym : forall a b, bytes_eqb a b = bytes_eqb b a.
Proof. intros a b. destruct (bytes_eqbP a b), (bytes_eqbP b a); congruence. Qed.

Lemma existsb_bytes_in : forall ks k, existsb (fun x => bytes_eqb x k) ks = true <-> In k ks.
Proof.
  intros ks k. rewrite existsb_exists. split.
  - intros [x [Hx E]]. apply bytes_eqb_spec in E. subst. exact Hx.
  - intros Hin. exists k. split; [exact Hin|apply bytes_eqb_refl].
Qed.

Lemma existsb_bytes_eqb_in : forall k ks, existsb (bytes_eqb k) ks = true <-> In k ks.
Proof.
  intros k ks. rewrite <- (existsb_bytes_in ks k), !existsb_exists.
  split; intros [x [Hx E]]; exists x; rewrite bytes_eqb_sym in E; auto.
Qed.

(* [NoDup] of byte strings, decided.  The files that need it spell out this very fixpoint, so theirs is convertible
   with this one. *)
Fixpoint nodup_bytes (l : list bytes) : bool :=
  match l with
  | [] => true
  | x :: r => negb (existsb (bytes_eqb x) r) && nodup_bytes r
  end.

Lemma nodup_bytes_NoDup : forall l, nodup_bytes l = true <-> NoDup l.
Proof.
  induction l as [|x r IH]; [split; [constructor|reflexivity]|].
  cbn [nodup_bytes]. rewrite andb_true_iff, negb_true_iff, IH, <- not_true_iff_false, existsb_bytes_eqb_in. split.
  - intros [H1 H2]. constructor; assumption.
  - intros H. inversion H. split; assumption.
Qed.

Lemma N_of_ascii_inj : forall a b, N_of_ascii a = N_of_ascii b -> a = b.
Proof. intros a b H. rewrite <- (ascii_N_embedding a), <- (ascii_N_embedding b), H. reflexivity. Qed.

(* Go's [<=] on strings: bytewise, a proper prefix first. *)
Fixpoint bytes_leb (a b : bytes) : bool :=
  match a, b with
  | [], _ => true
  | _ :: _, [] => false
  | x :: a', y :: b' =>
      if N.ltb (N_of_ascii x) (N_of_ascii y) then true
      else if N.ltb (N_of_ascii y) (N_of_ascii x) then false
      else bytes_leb a' b'
  end.

Lemma bytes_leb_total : forall a b, bytes_leb a b = true \/ bytes_leb b a = true.
Proof.
  induction a as [|x a IH]; destruct b as [|y b]; cbn; auto.
  destruct (N.ltb_spec (N_of_ascii x) (N_of_ascii y)), (N.ltb_spec (N_of_ascii y) (N_of_ascii x)); auto.
Qed.

Lemma bytes_leb_refl : forall a, bytes_leb a a = true.
Proof. intros a. destruct (bytes_leb_total a a); assumption. Qed.

Lemma bytes_leb_antisym : forall a b, bytes_leb a b = true -> bytes_leb b a = true -> a = b.
Proof.
  induction a as [|x a IH]; destruct b as [|y b]; cbn; try easy.
  destruct (N.ltb_spec (N_of_ascii x) (N_of_ascii y)), (N.ltb_spec (N_of_ascii y) (N_of_ascii x));
    try easy; try lia.
  intros H1 H2. f_equal; [apply N_of_ascii_inj; lia | now apply IH].
Qed.

Lemma bytes_leb_trans : forall a b c, bytes_leb a b = true -> bytes_leb b c = true -> bytes_leb a c = true.
Proof.
  induction a as [|x a IH]; destruct b as [|y b]; destruct c as [|z c]; cbn; try easy.
  destruct (N.ltb_spec (N_of_ascii x) (N_of_ascii y)), (N.ltb_spec (N_of_ascii y) (N_of_ascii x)),
           (N.ltb_spec (N_of_ascii y) (N_of_ascii z)), (N.ltb_spec (N_of_ascii z) (N_of_ascii y)),
           (N.ltb_spec (N_of_ascii x) (N_of_ascii z)), (N.ltb_spec (N_of_ascii z) (N_of_ascii x));
    try easy; try lia.
  apply IH.
Qed.

Lemma N_leb_total : forall a b, N.leb a b = true \/ N.leb b a = true.
Proof. intros a b. rewrite !N.leb_le. lia. Qed.

Lemma N_leb_trans : forall a b c, N.leb a b = true -> N.leb b c = true -> N.leb a c = true.
Proof. intros a b c. rewrite !N.leb_le. lia. Qed.

Lemma existsb_ext_in {A} (f : A -> bool) : forall l1 l2, (forall x, In x l1 <-> In x l2) -> existsb f l1 = existsb f l2.
Proof.
  intros l1 l2 H. apply eq_true_iff_eq. rewrite !existsb_exists. now setoid_rewrite H.
Qed.

Lemma Forall2_map : forall {A B C} (R : B -> C -> Prop) (f : A -> B) (g : A -> C) l,
  Forall (fun x => R (f x) (g x)) l -> Forall2 R (map f l) (map g l).
Proof. intros A B C R f g l H. induction H; constructor; assumption. Qed.

Lemma filter_filter : forall {A} (f g : A -> bool) l, filter g (filter f l) = filter (fun x => f x && g x) l.
Proof.
  intros A f g l. induction l as [|x r IH]; cbn; [reflexivity|].
  destruct (f x); cbn; [destruct (g x); cbn; rewrite IH; reflexivity|exact IH].
Qed.

Lemma find_filter {A} (p q : A -> bool) : forall l, find (fun x => p x && q x) l = find q (filter p l).
Proof. induction l as [|x r IH]; cbn; [reflexivity|]. destruct (p x); cbn; [destruct (q x)|]; auto. Qed.

Lemma filter_map_comm {A B} (f : B -> bool) (g : A -> B) : forall l,
  filter f (map g l) = map g (filter (fun x => f (g x)) l).
Proof. induction l as [|x r IH]; cbn; [reflexivity|]. rewrite IH. destruct (f (g x)); reflexivity. Qed.

Lemma fold_left_filter {S X} (c : X -> bool) (f g : S -> X -> S) :
  (forall s x, f s x = if c x then g s x else s) -> forall l s, fold_left f l s = fold_left g (filter c l) s.
Proof. intros H. induction l as [|x r IH]; intros s; cbn; [reflexivity|]. rewrite H. destruct (c x); apply IH. Qed.

Lemma fold_left_sim {S T X Y} (h : S -> T) (u : X -> Y) (f : S -> X -> S) (g : T -> Y -> T) :
  (forall s x, h (f s x) = g (h s) (u x)) -> forall l s, h (fold_left f l s) = fold_left g (map u l) (h s).
Proof. intros H. induction l as [|x r IH]; intros s; cbn; [reflexivity|]. now rewrite IH, H. Qed.

Lemma firstn_In {A} : forall (l : list A) n x, In x (firstn n l) -> In x l.
Proof.
  induction l as [|y r IH]; intros n x H; destruct n; cbn in *; try contradiction.
  destruct H as [H|H]; [left; exact H | right; eapply IH; exact H].
Qed.

Lemma skipn_app_exact {A} : forall (a b : list A), skipn (length a) (a ++ b) = b.
Proof. induction a as [|x a IH]; intros b; [reflexivity|]. cbn. apply IH. Qed.

Lemma Permutation_filter : forall {A} (f : A -> bool) l l', Permutation l l' -> Permutation (filter f l) (filter f l').
Proof.
  intros A f l l' Hp. induction Hp as [|x l l' _ IH|x y l|l l' l'' _ IH1 _ IH2]; cbn.
  - constructor.
  - destruct (f x); auto.
  - destruct (f x), (f y); auto using perm_swap.
  - etransitivity; eassumption.
Qed.

Lemma NoDup_app_intro : forall {A} (l1 l2 : list A),
  NoDup l1 -> NoDup l2 -> (forall x, In x l1 -> ~ In x l2) -> NoDup (l1 ++ l2).
Proof.
  intros A. induction l1 as [|x l1 IH]; intros l2 H1 H2 Hd; [exact H2|]. cbn. inversion H1; subst. constructor.
  - intros Hin. apply in_app_or in Hin. destruct Hin as [Hin|Hin]; [contradiction|]. apply (Hd x); [left; reflexivity|exact Hin].
  - apply IH; [assumption|assumption|]. intros y Hy. apply Hd. right. exact Hy.
Qed.

Lemma NoDup_app_one : forall (A : Type) (l : list A) x, NoDup l -> ~ In x l -> NoDup (l ++ [x]).
Proof.
  intros A l x Hnd Hx. apply NoDup_app_intro; [exact Hnd | constructor; [intros [] | constructor] |].
  intros y Hy [<-|[]]. exact (Hx Hy).
Qed.

Lemma NoDup_map_inj_in {A B} (f : A -> B) : forall l x y, NoDup (map f l) -> In x l -> In y l -> f x = f y -> x = y.
Proof.
  induction l as [|a l IH]; intros x y HN Hx Hy Hf; [contradiction|].
  cbn in HN. inversion HN as [|? ? Hnot HN']; subst.
  destruct Hx as [Hx|Hx], Hy as [Hy|Hy]; subst; auto; exfalso; apply Hnot;
    [rewrite Hf | rewrite <- Hf]; now apply in_map.
Qed.

Lemma NoDup_map_filter {A B} (g : A -> B) (f : A -> bool) : forall l, NoDup (map g l) -> NoDup (map g (filter f l)).
Proof.
  induction l as [|x l IH]; cbn; intros HN; [constructor|]. inversion HN as [|? ? Hnot HN']; subst.
  destruct (f x); cbn; auto. constructor; auto.
  intros Hin. apply Hnot. apply in_map_iff in Hin. destruct Hin as [y [Hy Hin]].
  apply filter_In in Hin. rewrite <- Hy. apply in_map. tauto.
Qed.

(* Insertion sort by a key: what sort.Strings / slices.Sorted compute when the keys are distinct. *)

Section Sort.
  Context {A K : Type} (key : A -> K) (leb : K -> K -> bool).

  Fixpoint insert_by (x : A) (l : list A) : list A :=
    match l with
    | [] => [x]
    | y :: r => if leb (key x) (key y) then x :: y :: r else y :: insert_by x r
    end.

  Definition sort_by (l : list A) : list A := fold_right insert_by [] l.

  Definition ordR (x y : A) : Prop := leb (key x) (key y) = true.

  (* Every model file spells out its own insertion sort (the key fixed or not, [fold_right] or a fixpoint); whatever
     satisfies the two unfolding equations is [sort_by]. *)
  Lemma sort_by_unfold (ins : A -> list A -> list A) (srt : list A -> list A) :
    (forall x l, ins x l = match l with
                           | [] => [x]
                           | y :: r => if leb (key x) (key y) then x :: y :: r else y :: ins x r
                           end) ->
    (forall l, srt l = match l with [] => [] | x :: r => ins x (srt r) end) ->
    forall l, srt l = sort_by l.
  Proof.
    intros Hins Hsrt. unfold sort_by. induction l as [|x r IH]; rewrite Hsrt; [reflexivity|]. rewrite IH. clear IH.
    cbn [fold_right]. induction (fold_right insert_by [] r) as [|y m IHm]; rewrite Hins; cbn; [|rewrite IHm]; reflexivity.
  Qed.

  Lemma insert_by_perm : forall x l, Permutation (x :: l) (insert_by x l).
  Proof.
    intros x l. induction l as [|y r IH]; cbn; [reflexivity|].
    destruct (leb (key x) (key y)); [reflexivity|]. rewrite perm_swap. now apply perm_skip.
  Qed.

  Lemma sort_by_perm : forall l, Permutation l (sort_by l).
  Proof. induction l as [|x r IH]; cbn; [constructor|]. rewrite <- insert_by_perm. now apply perm_skip. Qed.

  Lemma sort_by_In : forall l x, In x (sort_by l) <-> In x l.
  Proof. intros l x. split; apply Permutation_in; [symmetry|]; apply sort_by_perm. Qed.

  Lemma sort_by_NoDup_map {B} (f : A -> B) : forall l, NoDup (map f l) -> NoDup (map f (sort_by l)).
  Proof. intros l. apply Permutation_NoDup, Permutation_map, sort_by_perm. Qed.

  Hypothesis leb_total : forall a b, leb a b = true \/ leb b a = true.
  Hypothesis leb_trans : forall a b c, leb a b = true -> leb b c = true -> leb a c = true.

  Lemma insert_by_sorted : forall x l, StronglySorted ordR l -> StronglySorted ordR (insert_by x l).
  Proof.
    intros x l. induction l as [|y r IH]; cbn; intros HS; [repeat constructor|].
    inversion HS as [|? ? HSr HF]; subst. destruct (leb (key x) (key y)) eqn:E.
    - constructor; [exact HS|]. constructor; [exact E|].
      eapply Forall_impl; [|exact HF]. intros z Hz. eapply leb_trans; eassumption.
    - constructor; [apply IH; exact HSr|]. rewrite <- insert_by_perm.
      constructor; [|exact HF]. unfold ordR. destruct (leb_total (key x) (key y)); congruence.
  Qed.

  Lemma sort_by_sorted : forall l, StronglySorted ordR (sort_by l).
  Proof. induction l as [|x r IH]; cbn; [constructor|]. apply insert_by_sorted, IH. Qed.

  (* A sorted list is determined by its elements as soon as the order is antisymmetric on them: this is why a
     sort erases the order in which a Go map was ranged over. *)
  Lemma sorted_perm_eq : forall l1 l2,
      StronglySorted ordR l1 -> StronglySorted ordR l2 -> Permutation l1 l2 ->
      (forall x y, In x l1 -> In y l1 -> ordR x y -> ordR y x -> x = y) ->
      l1 = l2.
  Proof.
    induction l1 as [|x l1 IH]; intros l2 S1 S2 HP Hinj.
    - apply Permutation_nil in HP. now subst.
    - destruct l2 as [|y l2]; [apply Permutation_sym, Permutation_nil in HP; discriminate|].
      inversion S1 as [|? ? S1' F1]; subst. inversion S2 as [|? ? S2' F2]; subst.
      assert (Hxy : x = y).
      { assert (Hx : In x (y :: l2)) by (eapply Permutation_in; [exact HP|now left]).
        assert (Hy : In y (x :: l1)) by (eapply Permutation_in; [symmetry; exact HP|now left]).
        destruct Hx as [Hx|Hx]; [now subst|]. destruct Hy as [Hy|Hy]; [now subst|].
        rewrite Forall_forall in F1, F2. apply Hinj; [now left|now right|now apply F1|now apply F2]. }
      subst y. f_equal. apply IH; try assumption.
      + eapply Permutation_cons_inv; exact HP.
      + intros a b Ha Hb. apply Hinj; now right.
  Qed.

  Lemma sort_by_perm_eq : forall l1 l2,
      Permutation l1 l2 ->
      (forall x y, In x l1 -> In y l1 -> ordR x y -> ordR y x -> x = y) ->
      sort_by l1 = sort_by l2.
  Proof.
    intros l1 l2 HP Hinj. apply sorted_perm_eq; try apply sort_by_sorted.
    - now rewrite <- !sort_by_perm.
    - intros x y Hx Hy. apply Hinj; now apply sort_by_In.
  Qed.
End Sort.

Lemma insert_by_map {A B K} (keyA : A -> K) (keyB : B -> K) (leb : K -> K -> bool) (f : A -> B) :
  (forall x, keyB (f x) = keyA x) ->
  forall x l, insert_by keyB leb (f x) (map f l) = map f (insert_by keyA leb x l).
Proof.
  intros Hk x l. induction l as [|y m IH]; cbn; [reflexivity|].
  rewrite !Hk. destruct (leb (keyA x) (keyA y)); cbn; [|rewrite IH]; reflexivity.
Qed.

Lemma sort_by_map {A B K} (keyA : A -> K) (keyB : B -> K) (leb : K -> K -> bool) (f : A -> B) :
  (forall x, keyB (f x) = keyA x) ->
  forall l, sort_by keyB leb (map f l) = map f (sort_by keyA leb l).
Proof.
  intros Hk l. unfold sort_by. induction l as [|x r IH]; cbn [map fold_right]; [reflexivity|]. rewrite IH.
  apply insert_by_map, Hk.
Qed.

(* a table read off key by key in the order of its sorted keys is the table sorted by key *)
Lemma sort_by_entries {K V} (leb : K -> K -> bool) (get : K -> V) : forall m : list (K * V),
  (forall k v, In (k, v) m -> get k = v) ->
  map (fun k => (k, get k)) (sort_by (fun k => k) leb (map fst m)) = sort_by fst leb m.
Proof.
  intros m H. rewrite (sort_by_map fst (fun k => k) leb fst), map_map by reflexivity.
  transitivity (map (fun e => e) (sort_by fst leb m)); [|apply map_id].
  apply map_ext_in. intros [k v] Hin. apply sort_by_In in Hin. cbn [fst]. now rewrite (H k v Hin).
Qed.

Lemma sort_by_bytes_perm_eq {A} (key : A -> bytes) : forall l1 l2,
    Permutation l1 l2 -> NoDup (map key l1) -> sort_by key bytes_leb l1 = sort_by key bytes_leb l2.
Proof.
  intros l1 l2 HP HN. apply sort_by_perm_eq; auto using bytes_leb_total; try exact bytes_leb_trans.
  intros x y Hx Hy H1 H2. eapply NoDup_map_inj_in; eauto using bytes_leb_antisym.
Qed.

Lemma sort_by_N_perm_eq {A} (key : A -> N) : forall l1 l2,
    Permutation l1 l2 -> NoDup (map key l1) -> sort_by key N.leb l1 = sort_by key N.leb l2.
Proof.
  intros l1 l2 HP HN. apply sort_by_perm_eq; auto using N_leb_total; try exact N_leb_trans.
  intros x y Hx Hy H1 H2. eapply NoDup_map_inj_in; eauto.
  unfold ordR in *. apply N.leb_le in H1, H2. lia.
Qed.

Lemma sort_bytes_perm_eq : forall l1 l2 : list bytes,
    Permutation l1 l2 -> sort_by (fun s => s) bytes_leb l1 = sort_by (fun s => s) bytes_leb l2.
Proof.
  intros l1 l2 HP. apply sort_by_perm_eq; auto using bytes_leb_total; try exact bytes_leb_trans.
  intros x y _ _. apply bytes_leb_antisym.
Qed.
