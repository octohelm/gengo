(* C17 — deepcopy output compiles and copies without sharing containers.

   Statements; the proofs are in Proofs/DeepCopy.v (generator), Proofs/DeepCopySem.v (heap semantics of the
   generated statements) and Proofs/DeepCopyTop.v (composition; the witnesses, which are evaluated here).
   Five proofs open with [intros ... _]: the lemma quoted is stated without the hypothesis in that place ([dom G]; for
   C17_copy_theorems_cover_partialstruct the repair switch), so the statement holds without it.
   [all_fixed] is the generator with fixes/C17-*.diff applied, [no_fix] the generator before them.

   Vocabulary: [dom G] = the type graph is one a Go type checker accepts and lies in the property's domain
   (field names distinct, named field types declared, hand-written methods and foreign named types carry no
   DeepCopy/DeepCopyInto with a non-pointer shape); [ranked G r] = struct-by-value nesting is well founded (Go
   rejects `invalid recursive type`); [vis] = the methods a later run sees in the file an earlier run wrote;
   [wt G h t v] = value v in heap h has type t; [snapshot h v] = v with every slice/map read out of the heap
   (deep equality = equal snapshots); [locs v] = the slice/map cells reachable from v; [write h a c] = any
   mutation of cell a (append within capacity, index assignment, map insert/delete). *)
Require Import Gengo.Base.Bytes Gengo.Model.DeepCopy.
Require Import Gengo.Proofs.DeepCopy Gengo.Proofs.DeepCopySem Gengo.Proofs.DeepCopyTop.

(* ---- "is the same on the first and on later runs" ---- *)

(* whatever an earlier run left behind, the generator writes what it writes into an empty package *)
Theorem C17_independent_of_previous_output : forall G vis fuel order,
  vis_ok G vis -> gen_deepcopy fuel all_fixed G order vis = gen_deepcopy fuel all_fixed G order [].
Proof. exact gen_deepcopy_vis. Qed.
Print Assumptions C17_independent_of_previous_output.

(* run k+1 reads the file of run k; every run reproduces the first one *)
Theorem C17_same_on_rerun : forall fuel G order ms,
  run fuel all_fixed G order 0 = Ok ms -> forall k, run fuel all_fixed G order k = Ok ms.
Proof. exact run_same. Qed.
Print Assumptions C17_same_on_rerun.

(* ---- the generator returns: no nil dereference, no aborted dependency chain, bounded nesting ---- *)

Theorem C17_field_stmt_total : forall G vis f t,
  exists s dep, field_stmt all_fixed G vis f t = Ok (s, dep).
Proof. exact field_stmt_fixed_ok. Qed.
Print Assumptions C17_field_stmt_total.

Theorem C17_generator_total : forall G r, ranked G r ->
  forall order, exists n, forall fuel, n <= fuel -> forall vis,
    exists ms, gen_deepcopy fuel all_fixed G order vis = Ok ms.
Proof. exact gen_deepcopy_total. Qed.
Print Assumptions C17_generator_total.

(* ---- "compiles", at the level of the model: every call in a generated body resolves to a generated method
        of the right receiver kind, every enabled type has its methods, no method is declared twice,
        DeepCopyObject has the receiver its DeepCopy returns ----
   (The hypothesis [dom G] of C17_well_formed, C17_every_run_well_formed and C17_nil_generated is not used by their
   proofs.) *)

Theorem C17_well_formed : forall G fuel order vis ms,
  dom G -> vis_ok G vis -> gen_deepcopy fuel all_fixed G order vis = Ok ms -> well_formed G order ms.
Proof. intros G fuel order vis ms _. apply gen_well_formed. Qed.
Print Assumptions C17_well_formed.

Theorem C17_every_run_well_formed : forall G fuel order k ms,
  dom G -> run fuel all_fixed G order k = Ok ms -> well_formed G order ms.
Proof. intros G fuel order k ms _. apply every_run_well_formed. Qed.
Print Assumptions C17_every_run_well_formed.

(* ---- DeepCopy of nil is nil (pointer receivers and map types) ----
   Stated on the METHOD BODY: [deep_copy] / [deep_copy_map] (Model/DeepCopy.v) look the declared DeepCopy method of the
   type up in the generated file [ms] and execute its statements ([copy_body]: nil guard; out := new(T) / make(T);
   in.DeepCopyInto(out); return out — the fixed text of the templates deepcopy.go:80-88, 91-99, 131-140) on a receiver
   that may be nil.  What ties [copy_body] to the code: the harness abstracts a generated function to MPtrCopy /
   MMapCopy only if its text is exactly this statement list (parse.go rePtrCopy / reMapCopy), on every run. *)

Theorem C17_nil : forall fuel G ms n h,
  (has_ptr_copy ms n = true -> deep_copy fuel G ms n None h = Ok (None, h)) /\
  (has_map_methods ms n = true -> deep_copy_map ms n (VMap None) h = Ok (VMap None, h)).
Proof. intros. split; [apply deep_copy_nil|apply deep_copy_map_nil_guard]. Qed.
Print Assumptions C17_nil.

(* ... for every enabled struct, scalar and map type of a generated file *)
Theorem C17_nil_generated : forall G order fuel vis ms,
  dom G -> vis_ok G vis -> gen_deepcopy fuel all_fixed G order vis = Ok ms ->
  forall n d h fuel',
    In n order -> lookup G n = Some d -> enabled G d = true ->
    ((d_kind d = DScalar \/ exists tp fs, d_kind d = DStruct tp fs) -> deep_copy fuel' G ms n None h = Ok (None, h)) /\
    (forall k e, d_kind d = DMap k e -> deep_copy_map ms n (VMap None) h = Ok (VMap None, h)).
Proof. intros G order fuel vis ms _. apply nil_copy_generated. Qed.
Print Assumptions C17_nil_generated.

(* it is the guard statement that gives nil: the same bodies without it do not (nil dereference inside DeepCopyInto, a
   non-nil pointer, a non-nil empty map), and a type without a declared DeepCopy has no result *)
Theorem C17_nil_needs_the_guard : forall into h r,
  (run_ptr_copy into None [CNew; CCallInto; CReturnOut] OUndeclared h <> Ok r /\
   run_ptr_copy into None [CNew; CReturnOut] OUndeclared h <> Ok (None, h)) /\
  run_map_copy true None [CMake; CCallInto; CReturnOut] None h = Ok (VMap (Some (List.length h)), h ++ [CMap []]) /\
  (forall fuel G ms n p, has_ptr_copy ms n = false -> deep_copy fuel G ms n p h = Panic).
Proof.
  exact (fun into h r => conj (nil_guard_needed into h r) (conj (map_nil_guard_needed h)
           (fun fuel G ms n p => deep_copy_undeclared fuel G ms n p h))).
Qed.
Print Assumptions C17_nil_needs_the_guard.

(* on a non-nil receiver the executed body is [exec_copy] / [exec_copy_map], which the copy theorems below are about *)
Theorem C17_deep_copy_is_method_body : forall fuel G ms n,
  (forall v h, deep_copy fuel G ms n (Some v) h = let! (v', h') := exec_copy fuel G ms n v h in Ok (Some v', h')) /\
  (forall l h, has_map_methods ms n = true -> cell_is_map h l ->
               deep_copy_map ms n (VMap l) h = exec_copy_map ms n (VMap l) h).
Proof. exact (fun fuel G ms n => conj (deep_copy_some fuel G ms n) (deep_copy_map_is_exec_copy_map ms n)). Qed.
Print Assumptions C17_deep_copy_is_method_body.

(* ---- a copy is deeply equal to its original, all its containers are fresh, and therefore no write through
        any slice or map of the copy, at any struct nesting depth, changes the original ---- *)

Theorem C17_copy_equal_fresh_unshared : forall G order fuel vis ms,
  dom G -> vis_ok G vis -> gen_deepcopy fuel all_fixed G order vis = Ok ms ->
  forall n d args v h,
    In n order -> lookup G n = Some d -> enabled G d = true ->
    (d_kind d = DScalar \/ exists tp fs, d_kind d = DStruct tp fs) ->
    wt G h (FNamed n args) v ->
    forall fuel', vdepth v < fuel' ->
    exists v' t,
      exec_copy fuel' G ms n v h = Ok (v', h ++ t) /\
      snapshot (h ++ t) v' = snapshot h v /\
      (forall a, In a (locs v') -> List.length h <= a < List.length (h ++ t)) /\
      (forall a c, In a (locs v') -> snapshot (write (h ++ t) a c) v = snapshot h v).
Proof. exact copy_correct. Qed.
Print Assumptions C17_copy_equal_fresh_unshared.

Theorem C17_map_copy_equal_fresh_unshared : forall G order fuel vis ms,
  dom G -> vis_ok G vis -> gen_deepcopy fuel all_fixed G order vis = Ok ms ->
  forall n d k e args v h,
    In n order -> lookup G n = Some d -> enabled G d = true -> d_kind d = DMap k e ->
    wt G h (FNamed n args) v ->
    exists v' t,
      exec_copy_map ms n v h = Ok (v', h ++ t) /\
      snapshot (h ++ t) v' = snapshot h v /\
      (forall a, In a (locs v') -> List.length h <= a < List.length (h ++ t)) /\
      (forall a c, In a (locs v') -> snapshot (write (h ++ t) a c) v = snapshot h v).
Proof. intros G order fuel vis ms _. exact (copy_map_correct G order fuel vis ms). Qed.
Print Assumptions C17_map_copy_equal_fresh_unshared.

(* ---- the hypotheses are decidable, and are evaluated on every generated case (Corr/C17.v) ---- *)

Theorem C17_dom_checker_sound : forall G, dom_b G = true -> dom G.
Proof. exact dom_b_sound. Qed.
Print Assumptions C17_dom_checker_sound.

Theorem C17_rank_checker_sound : forall G r, ranked_b G r = true -> ranked G r.
Proof. exact ranked_b_sound. Qed.
Print Assumptions C17_rank_checker_sound.

(* ---- before the repairs (the witnesses the check found on the unrepaired code) ---- *)

Theorem C17_error_field_refuted_before_fix : forall G vis f,
  field_stmt no_fix G vis f FError = Panic.
Proof. exact field_stmt_unfixed_error_panics. Qed.
Print Assumptions C17_error_field_refuted_before_fix.

Theorem C17_total_refuted_before_fix : gen_deepcopy 8 no_fix w_error [bs "S"] [] = Panic.
Proof. vm_compute. reflexivity. Qed.
Print Assumptions C17_total_refuted_before_fix.

Theorem C17_same_on_rerun_refuted_before_fix :
  run 8 no_fix w_map [bs "M"; bs "S"] 0 <> run 8 no_fix w_map [bs "M"; bs "S"] 1.
Proof. intros H. vm_compute in H. discriminate. Qed.
Print Assumptions C17_same_on_rerun_refuted_before_fix.

Theorem C17_well_formed_refuted_before_fix_untagged_dependency :
  exists ms, gen_deepcopy 8 no_fix w_dep [bs "Dep"; bs "Root"] [] = Ok ms /\
             find_into ms (bs "Root") = Some [SCallInto (bs "D")] /\ find_into ms (bs "Dep") = None.
Proof. eexists. vm_compute. repeat split. Qed.
Print Assumptions C17_well_formed_refuted_before_fix_untagged_dependency.

Theorem C17_well_formed_refuted_before_fix_generic_twice :
  exists ms, gen_deepcopy 8 no_fix w_generic [bs "Box"; bs "Root"] [] = Ok ms /\ ~ NoDup (map method_id ms).
Proof.
  eexists. split; [vm_compute; reflexivity|]. intros H. rewrite NoDup_nth_error in H.
  specialize (H 0 4). cbn in H. assert (0 = 4) by (apply H; [lia|reflexivity]). discriminate.
Qed.
Print Assumptions C17_well_formed_refuted_before_fix_generic_twice.

Theorem C17_well_formed_refuted_before_fix_interface_field :
  exists ms, gen_deepcopy 8 no_fix w_iface [bs "NI"; bs "Root"] [] = Ok ms /\
             find_into ms (bs "Root") = Some [SCallInto (bs "I"); SCopySlice (bs "S") (bs "[]string")] /\
             find_into ms (bs "NI") = None.
Proof. eexists. vm_compute. repeat split. Qed.
Print Assumptions C17_well_formed_refuted_before_fix_interface_field.

Theorem C17_well_formed_refuted_before_fix_map_object :
  exists ms, gen_deepcopy 8 no_fix w_mapobj [bs "M"; bs "Object"] [] = Ok ms /\
             In (MObject (bs "M") [] (bs "Object") true) ms.
Proof. eexists. split; [vm_compute; reflexivity|]. left. reflexivity. Qed.
Print Assumptions C17_well_formed_refuted_before_fix_map_object.

(* A blank field (`_ int`).  The model's Frag has no clause for the blank identifier: like the Go loop before
   fixes/C17-blank-field.diff it emits a statement for every field it is given, `out._ = in._` for a blank one - a
   selector Go does not accept.  The repaired loop skips exactly that name; the correspondence harness presents a struct
   to the model WITHOUT its blank fields (they hold no value: always zero, ignored by ==), so that the model of the
   repaired code on `S{A []int; _ int}` is the model on `S{A []int}`, and the observed `out._ = in._` of the unrepaired
   code equals no model statement. *)
Theorem C17_blank_field_statement_before_fix : forall fx G vis,
  fields_copy fx G vis [(bs "A", FSlice (EBasic (bs "int"))); (bs "_", FBasic (bs "int"))]
  = Ok ([SCopySlice (bs "A") (bs "[]int"); SAssign (bs "_")], []).
Proof. intros. reflexivity. Qed.
Print Assumptions C17_blank_field_statement_before_fix.

(* ---- known finding type_argument_with_containers: C17_copy_equal_fresh_unshared is PARTIAL through its hypothesis
        [wt] - the value of a bare type-parameter field is a scalar, i.e. no type argument of an instantiation is, or
        by value contains, a slice or map.  Outside that guard the sentence is false for the repaired generator:
        Page[T]{Item T}, Root{L Page[Labels]}, Labels a map type - the graph satisfies dom, Page's method assigns Item,
        the copy is deeply equal but reaches the original's cell, and a write through it changes the original ---- *)

Theorem C17_unshared_refuted_type_argument_with_containers :
  dom_b w_tparg = true /\
  exists ms v',
    gen_deepcopy 8 all_fixed w_tparg [bs "Labels"; bs "Page"; bs "Root"] [] = Ok ms /\
    find_into ms (bs "Page") = Some [SAssign (bs "Item")] /\
    exec_copy 4 w_tparg ms (bs "Root") w_tparg_value w_tparg_heap = Ok (v', w_tparg_heap) /\
    snapshot w_tparg_heap v' = snapshot w_tparg_heap w_tparg_value /\
    locs v' = [0] /\
    snapshot (write w_tparg_heap 0 (CMap [])) w_tparg_value <> snapshot w_tparg_heap w_tparg_value.
Proof.
  split; [vm_compute; reflexivity|]. do 2 eexists. repeat (split; [vm_compute; reflexivity|]).
  intros H. vm_compute in H. discriminate.
Qed.
Print Assumptions C17_unshared_refuted_type_argument_with_containers.

(* ---- non-vacuity: a type graph with an untagged dependency, a generic struct and a field of its
        instantiation, a named map, a named scalar, a named interface, an error field and the interfaces tag
        satisfies every hypothesis; the theorems' conclusions, computed ---- *)

Example C17_ex_hypotheses :
  dom_b w_all = true /\ ranked_b w_all w_all_rank = true /\
  (exists ms, gen_deepcopy 8 all_fixed w_all w_all_order [] = Ok ms /\ List.length ms = 11).
Proof. split; [vm_compute; reflexivity|]. split; [vm_compute; reflexivity|]. eexists. split; vm_compute; reflexivity. Qed.

Example C17_ex_rerun :
  run 8 all_fixed w_all w_all_order 2 = run 8 all_fixed w_all w_all_order 0 /\
  run 8 all_fixed w_map [bs "M"; bs "S"] 1 = run 8 all_fixed w_map [bs "M"; bs "S"] 0.
Proof. split; vm_compute; reflexivity. Qed.

Example C17_ex_value_typed : wt w_all w_heap (FNamed (bs "Root") []) w_value.
Proof. vm_compute. repeat split; eauto. Qed.

Example C17_ex_nil :
  match gen_deepcopy 8 all_fixed w_all w_all_order [] with
  | Ok ms =>
      find_ptr_copy ms (bs "Root") = Some [CNilGuard; CNew; CCallInto; CReturnOut] /\
      deep_copy 4 w_all ms (bs "Root") None w_heap = Ok (None, w_heap) /\
      (exists v' h', deep_copy 4 w_all ms (bs "Root") (Some w_value) w_heap = Ok (Some v', h') /\
                     snapshot h' v' = snapshot w_heap w_value)
  | _ => False
  end.
Proof. vm_compute. split; [reflexivity|]. split; [reflexivity|]. eexists. eexists. split; reflexivity. Qed.

Example C17_ex_copy :
  match gen_deepcopy 8 all_fixed w_all w_all_order [] with
  | Ok ms =>
      match exec_copy 4 w_all ms (bs "Root") w_value w_heap with
      | Ok (v', h') =>
          snapshot h' v' = snapshot w_heap w_value /\ locs v' = [4; 5; 6; 7] /\ List.length h' = 8 /\
          snapshot (write h' 5 (CMap [])) w_value = snapshot w_heap w_value
      | _ => False
      end
  | _ => False
  end.
Proof. vm_compute. repeat split. Qed.

(* ================================================================================================================
   The copy-field helper (copy_fields.go) is also modelled by C18 (Model/GenPartialStruct.v: partialstruct passes its
   own method names and the Skip / FieldContext callbacks).  Through the adapter of Model/Generators.v the two models
   select the same statement on their common domain, so the heap-level theorems above are theorems about the
   DeepCopyAs / DeepCopyIntoAs bodies that partialstruct generates (full statements and side conditions: Props/C18.v,
   Copy_c17_is_c18_field_stmt ... C18_copy_unshared_plain).
   ================================================================================================================ *)
Require Gengo.Model.GenPartialStruct Gengo.Model.Generators Gengo.Proofs.Generators.
Module GN := Gengo.Model.Generators.
Module PS := Gengo.Model.GenPartialStruct.

Theorem C17_field_stmt_is_c18 : forall L target c, PS.fx_errnil c = true ->
  forall G f ft,
    GN.fty17 L target c (PS.f_ty f) = Some ft ->
    GN.agrees target G (PS.f_ty f) ->
    exists s18 i s17 dep,
      PS.field_stmt L target c false f = PS.GOk s18 i /\
      field_stmt all_fixed G [] (PS.f_name f) ft = Ok (s17, dep) /\
      GN.stmt17 s18 = s17.
Proof. exact Gengo.Proofs.Generators.field_stmt_agree. Qed.
Print Assumptions C17_field_stmt_is_c18.

(* copy equal / fresh / unshared for the body generated by the OTHER user of the helper *)
Theorem C17_copy_theorems_cover_partialstruct : forall L target c, PS.fx_errnil c = true ->
  forall ti g i fs G ms rec bound cfs d tp,
    PS.generate_type L target c ti = PS.TGen g i ->
    PS.ti_under ti = Some fs ->
    GN.fields17 L target c (PS.replace_map (PS.ti_replace ti) []) (filter (GN.keep (PS.ti_omit ti)) fs) = Some cfs ->
    (forall f, In f fs -> GN.keep (PS.ti_omit ti) f = true ->
               GN.agrees_field target G (PS.replace_map (PS.ti_replace ti) []) f) ->
    dom G ->
    lookup G (PS.g_name g) = Some d -> d_kind d = DStruct tp cfs ->
    rec_spec G ms rec bound ->
    Gengo.Proofs.Generators.callees_as_ok G ms cfs ->
    forall h,
      GN.deep_copy_as_heap rec G ms g None h = Ok (None, h) /\
      forall fin, wt_fields G h cfs fin -> depth_fields fin < bound ->
        exists fout t,
          GN.deep_copy_as_heap rec G ms g (Some fin) h = Ok (Some (VStruct fout), h ++ t) /\
          snapshot (h ++ t) (VStruct fout) = snapshot h (VStruct fin) /\
          (forall a, In a (locs (VStruct fout)) -> List.length h <= a < List.length (h ++ t)) /\
          (forall a cell, In a (locs (VStruct fout)) ->
             snapshot (write (h ++ t) a cell) (VStruct fin) = snapshot h (VStruct fin)).
Proof. intros L target c _. exact (Gengo.Proofs.Generators.copy_as_transfer L target c). Qed.
Print Assumptions C17_copy_theorems_cover_partialstruct.

(* ---- deepcopy as an instance of the pipeline's abstract generator (Model/Generators.v): gengo.Execute's per-package
   loop over the sorted, dispatched types with the state g.processed kept between the calls is [gen_deepcopy] of this
   file on that package alone, from the empty processed set, printed ([print_method]: the text of the templates, a
   parameter).  A panic / unbounded recursion of the model is a call that never returns.  Consequences: Props/C05.v
   (C05_deepcopy_fresh_per_package), Props/C04.v (C04_fixed_point_with_deepcopy). ---- *)
Require Gengo.Model.Pipeline Gengo.Proofs.GeneratorsPipe.

Theorem C17_is_pipeline_generator :
  forall fx graph vis print_method fuel (E : Gengo.Model.Pipeline.env) p,
    let g := GN.deepcopy_gen fx graph vis print_method fuel in
    let called := Gengo.Proofs.GeneratorsPipe.called fx graph vis print_method fuel E p in
    (forall t, In t called ->
       exists d, lookup (graph p) (Gengo.Model.Pipeline.ty_name t) = Some d /\ enabled (graph p) d = true) ->
    match gen_deepcopy fuel fx (graph p) (map Gengo.Model.Pipeline.ty_name called) (vis p) with
    | Ok ms => Gengo.Model.Pipeline.go_out (Gengo.Model.Pipeline.gen_run E g p) = Gengo.Model.Pipeline.Done /\
               Gengo.Model.Pipeline.go_body (Gengo.Model.Pipeline.gen_run E g p) = GN.print_methods print_method ms /\
               Gengo.Model.Pipeline.go_ignore (Gengo.Model.Pipeline.gen_run E g p) = false
    | _ => Gengo.Model.Pipeline.go_out (Gengo.Model.Pipeline.gen_run E g p) = Gengo.Model.Pipeline.Died
    end.
Proof. exact Gengo.Proofs.GeneratorsPipe.deepcopy_gen_run. Qed.
Print Assumptions C17_is_pipeline_generator.
