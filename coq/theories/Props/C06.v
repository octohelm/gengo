(* C06 — GenerateType is called exactly for the enabled package-level named types.
   Statements only; every proof is [exact <lemma>] or a line that specialises one; the two Examples are evaluated.
   C06_run_independent_of_defs_order opens with [intros ... _]: the lemma quoted is stated without the hypothesis in
   that place, so the statement holds without it.

   Model: Model/Dispatch.v (IsGeneratorEnabled, merge / Context.Doc, package tags, the type table of
   newPkg, doGenerate, the defer loop, the per-package and per-run loops).  Go maps are association lists
   given in ARBITRARY order; the hypotheses [NoDup (keys _)] say "this is a map" and [Permutation]
   quantifies over iteration orders.  [fixed_all] is the repaired code: the scope test in
   pkg/types/package.go (prerequisite fix owned by C13) and the index loop over the defers
   (fixes/C06-nested-defer.diff); the three theorems named ..._before_fix are about the code as it was found. *)
Require Import Gengo.Base.Bytes Gengo.Model.Dispatch Gengo.Proofs.Dispatch.
Require Import Permutation.

(* The loop computes: an entry gengo:<g> decides by itself (disabled iff the concatenation of its values
   is "false"), otherwise any key gengo:<g>:… enables, otherwise not enabled. *)
Theorem C06_enabled_spec :
  forall g t,
    is_generator_enabled g t =
    match lookup (bs "gengo:" ++ g) t with
    | Some vs => negb (bytes_eqb (concat vs) (bs "false"))
    | None => existsb (fun kv => has_prefix ((bs "gengo:" ++ g) ++ bs ":") (fst kv)) t
    end.
Proof. exact enabled_is_spec. Qed.
Print Assumptions C06_enabled_spec.

(* … whatever order Go's map iteration presents the tags in *)
Theorem C06_enabled_order_independent :
  forall g t t', NoDup (keys t) -> Permutation t t' -> is_generator_enabled g t = is_generator_enabled g t'.
Proof. exact enabled_order_independent. Qed.
Print Assumptions C06_enabled_order_independent.

(* only the generator's own tags matter … *)
Theorem C06_enabled_only_own_tags :
  forall g t,
    is_generator_enabled g t =
    is_generator_enabled g (filter (fun kv => bytes_eqb (fst kv) (bs "gengo:" ++ g)
                                             || has_prefix ((bs "gengo:" ++ g) ++ bs ":") (fst kv)) t).
Proof. exact enabled_only_own_tags. Qed.
Print Assumptions C06_enabled_only_own_tags.

(* … so tags of a generator whose name merely starts with g (deepcopy vs deep) never enable g *)
Theorem C06_enabled_ignores_longer_names :
  forall g c rest t,
    c <> ":"%char ->
    (forall k, In k (keys t) -> exists tail, k = (bs "gengo:" ++ (g ++ c :: rest)) ++ tail) ->
    is_generator_enabled g t = false.
Proof. exact enabled_ignores_longer_names. Qed.
Print Assumptions C06_enabled_ignores_longer_names.

(* ---- effective tags: declaration over package over global ---- *)

Theorem C06_precedence :
  forall G P d k,
    NoDup (keys G) -> NoDup (keys P) -> NoDup (keys (td_tags d)) ->
    lookup k (doc_tags G P d) =
    match lookup k (td_tags d) with
    | Some v => Some v
    | None => match lookup k P with Some v => Some v | None => lookup k G end
    end.
Proof. exact doc_tags_lookup. Qed.
Print Assumptions C06_precedence.

(* package doc comments in several files: the later file wins, key by key *)
Theorem C06_package_tags_later_file_wins :
  forall files t k, NoDup (keys t) ->
    lookup k (pkg_tags (files ++ [t])) =
    match lookup k t with Some v => Some v | None => lookup k (pkg_tags files) end.
Proof. exact pkg_tags_lookup_snoc. Qed.
Print Assumptions C06_package_tags_later_file_wins.

(* the rule on the three levels, for every iteration order t' of the merged map *)
Theorem C06_enabled_effective :
  forall g G P d t',
    NoDup (keys G) -> NoDup (keys P) -> NoDup (keys (td_tags d)) ->
    Permutation t' (doc_tags G P d) ->
    is_generator_enabled g t' = enabled_eff_spec g G P (td_tags d).
Proof. exact enabled_effective. Qed.
Print Assumptions C06_enabled_effective.

(* For EVERY order pi in which TypesInfo.Defs is ranged over and EVERY order ns in which the table's keys
   are ranged over, doGenerate makes exactly the expected calls, in name order; a generator error ends
   the loop after the failing call. *)
Theorem C06_dispatch :
  forall g G P defs pi ns,
    NoDup (keys G) -> NoDup (keys P) ->
    (forall d, In d defs -> NoDup (keys (td_tags d))) ->
    NoDup (map td_name (filter td_pkgscope defs)) ->          (* go/types: package-scope names are unique *)
    Permutation pi defs ->
    Permutation ns (keys (type_table true pi)) ->
    do_generate g G P (type_table true pi) ns = Ok (cut_err (expected_calls g G P defs)).
Proof. exact do_generate_spec. Qed.
Print Assumptions C06_dispatch.

(* exactly once: no call twice; GenerateType for d iff d is a package-scope defined type of this package
   whose effective tags enable g; GenerateAliasType iff d is a package-scope alias, enabled, and g is an
   AliasGenerator; nothing for local types, type parameters, disabled types *)
Theorem C06_exactly_once :
  forall g G P defs pi ns,
    NoDup (keys G) -> NoDup (keys P) ->
    (forall d, In d defs -> NoDup (keys (td_tags d))) ->
    NoDup (map td_name (filter td_pkgscope defs)) ->
    Permutation pi defs ->
    Permutation ns (keys (type_table true pi)) ->
    (forall d, In d defs -> td_action d <> AErr) ->
    exists cs,
      do_generate g G P (type_table true pi) ns = Ok (cs, false)
      /\ NoDup cs
      /\ forall k d, In (k, d) cs <->
           In d defs /\ td_pkgscope d = true /\ enabled_eff_spec (g_name g) G P (td_tags d) = true /\
           ((k = CT /\ td_kind d = KNamed) \/ (k = CA /\ td_kind d = KAlias /\ g_alias g = true)).
Proof. exact exactly_once. Qed.
Print Assumptions C06_exactly_once.

(* types of other packages never: in a whole run (any switches) every GenerateType / GenerateAliasType
   event belongs to a processed package and is for a declaration of that very package *)
(* (holds BY CONSTRUCTION of the model: [execute] hands each package's session only that package's own [pk_defs],
   so an event for another package's declaration cannot be formed; the theorem records this structural fact, it is
   tied to the code — doGenerate ranging over p.Types() of the package at hand — by the C06 harness only) *)
Theorem C06_other_packages_never :
  forall fx all pkgs gens G evs o,
    execute fx all pkgs gens G = Ok (evs, o) ->
    forall e i, In e evs -> ev_decl e = Some i ->
      exists p, In p pkgs /\ (all || pk_direct p = true) /\ ev_pkg e = pk_id p /\
                exists d, In d (pk_defs p) /\ td_id d = i.
Proof. exact execute_calls_own_package. Qed.
Print Assumptions C06_other_packages_never.

(* a whole run (trace and outcome) is the same for every order in which each package's TypesInfo.Defs is met *)
Theorem C06_run_independent_of_defs_order :
  forall all pkgs pkgs' gens G,
    NoDup (keys G) -> Forall pkg_wf pkgs -> Forall2 pkg_perm pkgs pkgs' ->
    execute fixed_all all pkgs gens G = execute fixed_all all pkgs' gens G.
Proof. intros all pkgs pkgs' gens G _. apply execute_perm. Qed.
Print Assumptions C06_run_independent_of_defs_order.

(* the queue loop terminates (enough fuel exists) … *)
Theorem C06_defer_queue_terminates :
  forall fuel q, qsize q <= fuel -> exists r, run_defers_queue fuel q = Ok r.
Proof. exact run_defers_queue_total. Qed.
Print Assumptions C06_defer_queue_terminates.

(* … and runs every registered callback (also those registered by callbacks) exactly once, the
   directly registered ones first and in registration order *)
Theorem C06_defers_exactly_once :
  forall fuel q, qsize q <= fuel -> forallb no_err_tree q = true ->
    exists l, run_defers_queue fuel q = Ok (l, false)
              /\ Permutation l (ids_all q) /\ firstn (length q) l = map root_id q.
Proof. exact run_defers_queue_ok. Qed.
Print Assumptions C06_defers_exactly_once.

(* one generator on one package: the trace is the expected calls followed by the callbacks *)
Theorem C06_session :
  forall p g G P defs pi ns,
    NoDup (keys G) -> NoDup (keys P) ->
    (forall d, In d defs -> NoDup (keys (td_tags d))) ->
    NoDup (map td_name (filter td_pkgscope defs)) ->
    Permutation pi defs ->
    Permutation ns (keys (type_table true pi)) ->
    let cs := expected_calls g G P defs in
    forallb (fun c => negb (is_err (td_action (snd c)))) cs = true ->
    forallb no_err_tree (registered cs) = true ->
    exists ds,
      session fixed_all p g G P pi ns
        = Ok (map (event_of_call p g G P) cs ++ map (EDefer p (g_idx g)) ds, Done, rendered cs || negb (is_nil ds))
      /\ Permutation ds (ids_all (registered cs))
      /\ firstn (length (registered cs)) ds = map root_id (registered cs).
Proof. exact session_fixed_spec. Qed.
Print Assumptions C06_session.

(* after the package's last GenerateType (any switches, also when a generator fails) *)
Theorem C06_defers_after_calls :
  forall fx p g G P defs ns evs o b,
    session fx p g G P defs ns = Ok (evs, o, b) ->
    exists cs ds, evs = map (event_of_call p g G P) cs ++ map (EDefer p (g_idx g)) ds.
Proof. intros fx p g G P defs ns evs o b H. destruct (session_calls _ _ _ _ _ _ _ _ _ _ H) as (cs & ds & E & _). eauto. Qed.
Print Assumptions C06_defers_after_calls.

(* before its file is written: the trace of a package is callbacks (calls and defers of that package,
   for its own declarations) followed by at most one write event *)
(* (the write event is SYNTHETIC: the model's [pkg_execute] appends one [EWrites] after the sessions of all generators,
   Model/Dispatch.v 261-266, so "after the callbacks" restates how the model is written; what ties it to real writes is
   C06_whole_writes_are_pipeline_writes below and, for the code, the harness) *)
Theorem C06_write_after_callbacks :
  forall fx p gens G evs o,
    pkg_execute fx p gens G = Ok (evs, o) ->
    exists cb w, evs = cb ++ w
      /\ (forall e, In e cb -> is_callback e = true /\ ev_pkg e = pk_id p /\
                    (forall i, ev_decl e = Some i -> exists d, In d (pk_defs p) /\ td_id d = i))
      /\ (w = [] \/ (o = Done /\ exists ws, w = [EWrites (pk_id p) ws])).
Proof. exact pkg_execute_shape. Qed.
Print Assumptions C06_write_after_callbacks.

(* ---- the code as it was found ---- *)

(* without the scope test the calls depend on the order of TypesInfo.Defs: type T struct{} with func F[T any] *)
Theorem C06_exactly_once_refuted_before_fix :
  exists defs pi1 pi2, Permutation pi1 defs /\ Permutation pi2 defs /\
    do_generate wit_gen wit_globals [] (type_table false pi1) (keys (type_table false pi1))
    <> do_generate wit_gen wit_globals [] (type_table false pi2) (keys (type_table false pi2)).
Proof. exact unfixed_table_order_dependent. Qed.
Print Assumptions C06_exactly_once_refuted_before_fix.

(* … and GenerateType is called for a function-local type *)
Theorem C06_local_type_called_before_fix :
  exists defs cs,
    do_generate wit_gen wit_globals [] (type_table false defs) (keys (type_table false defs)) = Ok (cs, false)
    /\ In (CT, wit_L) cs /\ td_pkgscope wit_L = false.
Proof. exact unfixed_local_type_called. Qed.
Print Assumptions C06_local_type_called_before_fix.

(* `range` over the slice as it was: a callback registered by a callback is never run *)
Theorem C06_nested_defer_dropped_before_fix :
  exists q, forallb no_err_tree q = true /\ In 502%N (ids_all q) /\ ~ In 502%N (fst (run_defers_snapshot q)).
Proof. exact snapshot_defer_loop_drops_nested. Qed.
Print Assumptions C06_nested_defer_dropped_before_fix.

(* ---- non-vacuity ---- *)

(* package p0: `type T struct{}` (one Defer callback that registers another), `type Al = int`,
   `// +gengo:deep=false` on `type Off struct{}`, `func F[T any]() { type L struct{} }`;
   global tag gengo:deep; generators deep (AliasGenerator) and deepcopy *)
Definition ex_defs : list tdef :=
  [ mk_tdef 1 (bs "T") KNamed true [] ANil [DS 501 false [DS 502 false []]];
    mk_tdef 2 (bs "Al") KAlias true [] ANil [];
    mk_tdef 3 (bs "Off") KNamed true [(bs "gengo:deep", [bs "false"])] ANil [];
    mk_tdef 4 (bs "T") KOther false [] ANil [];
    mk_tdef 5 (bs "L") KNamed false [] ANil [] ].
Definition ex_globals : tags := [(bs "gengo:deep", [[]])].

Example C06_example :
  execute fixed_all false [mk_pkg 0 true [] ex_defs]
          [mk_gen 0 (bs "deep") true; mk_gen 1 (bs "deepcopy") false] ex_globals
  = Ok ([EAlias 0 0 2 ex_globals; EType 0 0 1 ex_globals; EDefer 0 0 501; EDefer 0 0 502; EWrites 0 [0%N]], Done).
Proof. vm_compute. reflexivity. Qed.

(* the hypotheses of C06_exactly_once hold of it *)
Example C06_example_hyps :
  NoDup (keys ex_globals) /\ NoDup (map td_name (filter td_pkgscope ex_defs))
  /\ (forall d, In d ex_defs -> NoDup (keys (td_tags d))) /\ (forall d, In d ex_defs -> td_action d <> AErr).
Proof.
  assert (HN : forall l, Order.nodup_bytes l = true -> NoDup l) by (intros l; apply Order.nodup_bytes_NoDup).
  split; [apply HN; reflexivity|]. split; [apply HN; reflexivity|].
  split; apply Forall_forall; repeat (apply Forall_cons || apply Forall_nil); try (apply HN; reflexivity); discriminate.
Qed.

(* ---- the composed system (Model/Whole.v, Props/Whole.v): C06 holds OF the pipeline model's call log ----
   [Whole.to_world] / [Whole.disp_pkgs] derive the pipeline's world and Dispatch's packages from ONE description
   [wps]; [Whole.disp_gen] is this file's recording generator as a state machine of the pipeline; [Whole.whole_env]
   is the pipeline with the enabling rule of this file's model (is_generator_enabled on merge [G; package; declaration])
   and the byte-level gengo.sum of C08. *)
Require Gengo.Model.Pipeline Gengo.Model.Whole Gengo.Proofs.Pipeline Gengo.Proofs.WholeDispatch Gengo.Props.Whole.

(* Agreement of the two models of doGenerate / the Defer loop / pkgExecute / Execute: execute lists, position by
   position, the GenerateType / GenerateAliasType / callback events of Pipeline.exec_trace, and both end alike
   (no package skipped through gengo.sum, everything rendered parses: outside Dispatch's scope). *)
Theorem C06_whole_dispatch_is_pipeline :
  forall fmt order rank G wps fuel gens a modroot s,
    NoDup (map Whole.wp_path wps) ->
    (forall src, fmt src <> None) ->
    let E := Whole.whole_env fmt order rank G in
    let w := Whole.to_world modroot wps in
    (forall wp, In wp wps ->
       Pipeline.pkg_changed a w (Pipeline.load_prev E a w s) (Whole.to_pkginfo wp) = true) ->
    (forall wp g, In wp wps -> In g gens -> WholeDispatch.fuel_ok G fuel wp g) ->
    exists devs o,
      execute fixed_all (Pipeline.a_all a) (Whole.disp_pkgs wps) gens G = Ok (devs, o)
      /\ Forall2 (WholeDispatch.ev_match G wps gens)
                 (Pipeline.exec_trace E a w (map (Whole.disp_gen wps fuel) gens) s) (filter is_callback devs)
      /\ WholeDispatch.out_match (Pipeline.exec_outcome E a w (map (Whole.disp_gen wps fuel) gens) s) o.
Proof. exact Gengo.Props.Whole.Whole_dispatch_is_pipeline. Qed.
Print Assumptions C06_whole_dispatch_is_pipeline.

(* C06_exactly_once and C06_defers_exactly_once as statements about the log of a successful run of the pipeline *)
Theorem C06_whole_exactly_once_of_pipeline_trace :
  forall fmt order rank G wps fuel gens a modroot s wp g,
    NoDup (map Whole.wp_path wps) -> In wp wps -> In g gens ->
    NoDup (keys G) -> NoDup (keys (WholeDispatch.P_of wp)) ->
    (forall d, In d (pk_defs (Whole.wp_d wp)) -> NoDup (keys (td_tags d))) ->
    NoDup (map td_name (filter td_pkgscope (pk_defs (Whole.wp_d wp)))) ->
    (forall d, In d (pk_defs (Whole.wp_d wp)) -> td_action d <> AErr) ->
    (forall d, In d (pk_defs (Whole.wp_d wp)) -> forallb no_err_tree (td_defers d) = true) ->
    WholeDispatch.fuel_ok G fuel wp g ->
    let E := Whole.whole_env fmt order rank G in
    let w := Whole.to_world modroot wps in
    let gs := map (Whole.disp_gen wps fuel) gens in
    Pipeline.exec_outcome E a w gs s = Pipeline.Done ->
    Gengo.Proofs.Pipeline.processed E a w s (Whole.to_pkginfo wp) = true ->
    exists cs ran pre post,
      NoDup cs
      /\ (forall k d, In (k, d) cs <->
            In d (pk_defs (Whole.wp_d wp)) /\ td_pkgscope d = true
            /\ enabled_eff_spec (g_name g) G (WholeDispatch.P_of wp) (td_tags d) = true
            /\ ((k = CT /\ td_kind d = KNamed) \/ (k = CA /\ td_kind d = KAlias /\ g_alias g = true)))
      /\ Permutation (map root_id ran) (ids_all (registered cs))
      /\ Pipeline.exec_trace E a w gs s
         = pre ++ (map (WholeDispatch.tr_call wp g) cs
                   ++ map (WholeDispatch.tr_defer wp g) (combine (seq 0 (List.length ran)) ran)) ++ post.
Proof. exact Gengo.Props.Whole.Whole_exactly_once_of_pipeline_trace. Qed.
Print Assumptions C06_whole_exactly_once_of_pipeline_trace.

(* C06_write_after_callbacks, tied to the pipeline's file effects: the one write event of a package names exactly the
   generators whose destinations Pipeline.pkg_effects opens *)
Theorem C06_whole_writes_are_pipeline_writes :
  forall fmt order rank G wps fuel gens a wp,
    NoDup (map Whole.wp_path wps) -> (forall src, fmt src <> None) -> (forall p l, Permutation (order p l) l) ->
    In wp wps -> (forall g, In g gens -> WholeDispatch.fuel_ok G fuel wp g) ->
    let E := Whole.whole_env fmt order rank G in
    let gs := map (Whole.disp_gen wps fuel) gens in
    snd (Pipeline.pkg_effects E a gs (Whole.to_pkginfo wp)) = Pipeline.Done ->
    exists devs ws,
      pkg_execute fixed_all (Whole.wp_d wp) gens G
      = Ok (devs ++ (if is_nil ws then [] else [EWrites (pk_id (Whole.wp_d wp)) ws]), Done)
      /\ ws = map g_idx (filter (WholeDispatch.renders_on fmt order rank G wps fuel wp) gens)
      /\ Permutation (WholeDispatch.truncated (fst (fst (Pipeline.pkg_effects E a gs (Whole.to_pkginfo wp)))))
                     (map (fun g => Pipeline.gen_file a (Whole.to_pkginfo wp) (g_name g))
                          (filter (WholeDispatch.renders_on fmt order rank G wps fuel wp) gens)).
Proof. exact Gengo.Props.Whole.Whole_dispatch_writes_are_pipeline_writes. Qed.
Print Assumptions C06_whole_writes_are_pipeline_writes.

(* for ANY generators: what one generator is called for on one processed package is a contiguous segment of the call log
   of a successful run of the pipeline *)
Theorem C06_whole_session_is_a_segment_of_the_trace :
  forall (E : Pipeline.env) a w gens s p g,
    Pipeline.exec_outcome E a w gens s = Pipeline.Done ->
    In p (Pipeline.w_pkgs w) -> Gengo.Proofs.Pipeline.processed E a w s p = true -> In g gens ->
    exists pre post, Pipeline.exec_trace E a w gens s = pre ++ Pipeline.go_trace (Pipeline.gen_run E g p) ++ post.
Proof. exact Gengo.Props.Whole.Whole_session_is_a_segment_of_the_trace. Qed.
Print Assumptions C06_whole_session_is_a_segment_of_the_trace.

(* ---- one system, loader / tags side (Model/Tables.v, Props/Tables.v, notes/Tables.md) ----
   (a) the type table of this file's model is the type table of C13's model (Model/Universe.v), so "package-scope
       declaration" in C06_exactly_once is "entry of Types()" as C13 characterises it;
   (b) the tag maps this file takes as DATA are what C12's model of ExtractCommentTags / Package.Doc
       (Model/Comments.v) produces from the comment lines: the enabling rule stated on SOURCE COMMENT LINES. *)
Require Gengo.Model.Universe Gengo.Proofs.Universe Gengo.Model.Comments Gengo.Spec.Comments
        Gengo.Model.Tables Gengo.Props.Tables.
From Coq Require ZArith.
Module T := Gengo.Model.Tables.
Module Uni := Gengo.Model.Universe.
Module Cmt := Gengo.Model.Comments.
Module CSp := Gengo.Spec.Comments.

(* every Defs list of this model, every Defs list of C13's model (objects of all kinds) describing the same type
   names, any two orders: same set of names, same lookup *)
Theorem C06_table_is_C13_table :
  forall os ds,
    Permutation (T.types_of os) (map T.u_of_disp ds) ->
    (forall n, In n (map fst (Uni.t_types (Uni.fill_tables Uni.all_fixed os))) <-> In n (keys (type_table true ds)))
    /\ (forall n, Gengo.Proofs.Universe.unique_at os Uni.KType n ->
          Uni.lookup Uni.KType n (Uni.fill_tables Uni.all_fixed os) = option_map td_id (lookup n (type_table true ds))).
Proof. exact Gengo.Props.Tables.Tables_universe_is_dispatch. Qed.
Print Assumptions C06_table_is_C13_table.

(* C06_exactly_once speaks about exactly the types C13's Types() theorems characterise: every call is for an entry
   of C13's table (that very object), and every entry of C13's table — package scope, hence neither blank nor
   local nor a type parameter (C13_tables_only_package_scope) — is called exactly as the rule says *)
Theorem C06_exactly_once_on_C13_types :
  forall g G P defs pi ns os,
    NoDup (keys G) -> NoDup (keys P) ->
    (forall d, In d defs -> NoDup (keys (td_tags d))) ->
    NoDup (map td_name (filter td_pkgscope defs)) ->
    Permutation pi defs ->
    Permutation ns (keys (type_table true pi)) ->
    (forall d, In d defs -> td_action d <> AErr) ->
    Permutation (T.types_of os) (map T.u_of_disp defs) ->
    let Tb := Uni.fill_tables Uni.all_fixed os in
    exists cs,
      do_generate g G P (type_table true pi) ns = Ok (cs, false)
      /\ NoDup cs
      /\ (forall k d, In (k, d) cs -> In d defs /\ Uni.lookup Uni.KType (td_name d) Tb = Some (td_id d))
      /\ (forall n x, Uni.lookup Uni.KType n Tb = Some x ->
            exists d, In d defs /\ td_name d = n /\ td_id d = x
                      /\ forall k, In (k, d) cs <->
                           enabled_eff_spec (g_name g) G P (td_tags d) = true
                           /\ ((k = CT /\ td_kind d = KNamed) \/ (k = CA /\ td_kind d = KAlias /\ g_alias g = true))).
Proof. exact Gengo.Props.Tables.Tables_exactly_once_on_universe_types. Qed.
Print Assumptions C06_exactly_once_on_C13_types.

(* the rule on comment lines, for all global tags, package doc line lists and declaration doc line lists:
   [T.source_rule]: `+gengo:g[=v]` on the closest level that has it decides (off iff the values, concatenated, are
   "false"), declaration over package (later file over earlier) over global; otherwise any `+gengo:g:sub` enables *)
Theorem C06_enabled_lines_rule :
  forall g G pkgdocs lines,
    NoDup (keys G) ->
    T.enabled_from_lines g G (pkg_tags (map Gengo.Proofs.TablesB.tags_of_lines pkgdocs)) lines
    = T.source_rule g G pkgdocs lines.
Proof. exact Gengo.Props.Tables.Tables_enabled_lines_rule. Qed.
Print Assumptions C06_enabled_lines_rule.

(* end to end, all layouts satisfying C12's well-formedness: IsGeneratorEnabled(g, Context.Doc(typ)) at the line of
   declaration d = the rule on the lines of the stand-alone comment group that ends on the line above d *)
Theorem C06_enabled_from_source :
  forall g G docs evs leads d,
    NoDup (keys G) -> CSp.wf evs leads -> In d (CSp.decls_of evs) ->
    T.enabled_from_source g G docs evs (Cmt.p_file (Cmt.d_pos d)) (Cmt.p_line (Cmt.d_pos d))
    = T.source_rule g G (map Cmt.split_nl docs)
                    (CSp.doc_lines_above leads (Cmt.p_file (Cmt.d_pos d)) (Cmt.p_line (Cmt.d_pos d))).
Proof. exact Gengo.Props.Tables.Tables_enabled_from_source. Qed.
Print Assumptions C06_enabled_from_source.

(* Context.Doc asks at the NAME's position: same for every name of d when no name is on a continuation line (C12's
   known finding; a TypeSpec starts with its name, so type declarations always satisfy it) ... *)
Theorem C06_enabled_from_source_names :
  forall g G docs evs leads d l,
    NoDup (keys G) -> CSp.wf evs leads -> CSp.name_on_continuation_line evs = false ->
    In d (CSp.decls_of evs) -> In l (Cmt.d_names d) ->
    T.enabled_from_source g G docs evs (Cmt.p_file (Cmt.d_pos d)) l
    = T.source_rule g G (map Cmt.split_nl docs)
                    (CSp.doc_lines_above leads (Cmt.p_file (Cmt.d_pos d)) (Cmt.p_line (Cmt.d_pos d))).
Proof. exact Gengo.Props.Tables.Tables_enabled_from_source_names. Qed.
Print Assumptions C06_enabled_from_source_names.

(* ... and not otherwise *)
Theorem C06_enabled_from_source_names_refuted :
  exists g G docs evs leads d l,
    NoDup (keys G) /\ CSp.wf evs leads /\ In d (CSp.decls_of evs) /\ In l (Cmt.d_names d)
    /\ T.enabled_from_source g G docs evs (Cmt.p_file (Cmt.d_pos d)) l = false
    /\ T.source_rule g G (map Cmt.split_nl docs)
                     (CSp.doc_lines_above leads (Cmt.p_file (Cmt.d_pos d)) (Cmt.p_line (Cmt.d_pos d))) = true.
Proof. exact Gengo.Props.Tables.Tables_enabled_from_source_names_refuted. Qed.
Print Assumptions C06_enabled_from_source_names_refuted.

(* C06_exactly_once with the tags read from the source (what Corr/C06.v evaluates on every module case):
   [T.tdef_from_source dtext] takes a declaration's tags from Text() of the comment group above it,
   [T.pkg_tags_from_source] the package tags from Text() of the package docs; the "tag maps are maps" hypotheses are
   discharged and "enabled" is the rule on comment lines *)
Theorem C06_exactly_once_from_source :
  forall g G ftexts dtext defs pi ns,
    NoDup (keys G) ->
    NoDup (map td_name (filter td_pkgscope defs)) ->
    let sdefs := map (T.tdef_from_source dtext) defs in
    let P := T.pkg_tags_from_source ftexts in
    Permutation pi sdefs ->
    Permutation ns (keys (type_table true pi)) ->
    (forall d, In d defs -> td_action d <> AErr) ->
    exists cs,
      do_generate g G P (type_table true pi) ns = Ok (cs, false)
      /\ NoDup cs
      /\ forall k d', In (k, d') cs <->
           exists d, In d defs /\ d' = T.tdef_from_source dtext d /\ td_pkgscope d = true
             /\ T.source_rule (g_name g) G (map Cmt.split_nl ftexts) (CSp.spec_lines (dtext (td_id d))) = true
             /\ ((k = CT /\ td_kind d = KNamed) \/ (k = CA /\ td_kind d = KAlias /\ g_alias g = true)).
Proof. exact Gengo.Props.Tables.Tables_exactly_once_from_source. Qed.
Print Assumptions C06_exactly_once_from_source.
