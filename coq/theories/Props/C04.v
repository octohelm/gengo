(* C04 — generation is deterministic and a second run is a fixed point.
   Statements; a proof is [exact <lemma>]: lemmas of Proofs/Determinism.v in the first part, theorems of Props/Whole.v
   (the run on the pipeline model), lemmas of Proofs/GeneratorsPipe.v (the deepcopy generator) and theorems of
   Props/Tables.v (the tables against C13's) in the later parts, each named where it is quoted.  Two proofs are a line
   more, C04_fixed_point and C04_fixed_point_any_number_of_runs: each drops a hypothesis [wf_world] of a re-loaded world
   ([_] in the [intros], [Forall_impl] in the second) before it quotes the lemma, which shows that the statement holds
   without that hypothesis.  The model (Model/Determinism.v) takes every
   range over a Go map / sync.Map from an order oracle; [shuffles o] is all that is known about it. *)
Require Import Gengo.Base.Bytes Gengo.Model.Determinism Gengo.Proofs.Determinism Gengo.Proofs.DeterminismWitness.
From Coq Require Import Permutation Sorted.

(* Same module, arguments and generators; ANY two behaviours of the runtime at every map range
   (Defs, name table, tags, merged tags, generator files, stale files, import map, sum map,
   registration order) and ANY two orders of the entrypoints: both runs fail, or both succeed with
   the same content at every path (generated files and gengo.sum) and the same sequence of
   GenerateType / GenerateAliasType calls.
   ([run true true]: the two switches of Model/Determinism.v select the repaired package.go — only package-scope
   objects enter the name tables; method lists are ordered by position.) *)
Theorem C04_order_independent :
  forall render parse_sum (o1 o2 : oracle) a e1 e2 w gens f,
    shuffles o1 -> shuffles o2 -> wf_args a -> wf_world w -> Permutation e1 e2 ->
    out_equiv (run true true render parse_sum o1 a e1 w gens f)
              (run true true render parse_sum o2 a e2 w gens f).
Proof. exact run_order_independent. Qed.
Print Assumptions C04_order_independent.

(* ... and independent of the order of the generators (GetRegisteredGenerators() ranges over the
   registry map): same outcome, same files, and every generator sees the same sequence of calls
   over the whole run ([log_equiv]: the log is a permutation, and its restriction to any one
   generator is equal) — only the interleaving of different generators changes. *)
Theorem C04_generator_order_independent :
  forall render parse_sum (o1 o2 : oracle) a e1 e2 w gens1 gens2 f,
    shuffles o1 -> shuffles o2 -> wf_args a -> wf_world w -> Permutation e1 e2 ->
    Permutation gens1 gens2 -> NoDup (map g_name gens1) ->
    out_equiv_log (run true true render parse_sum o1 a e1 w gens1 f)
                  (run true true render parse_sum o2 a e2 w gens2 f).
Proof. exact generator_order_independent. Qed.
Print Assumptions C04_generator_order_independent.

(* gengo.sum is a function of the map, not of its iteration order: one line per entry, ascending. *)
Theorem C04_sum_bytes_sorted :
  forall (o : oracle) m, shuffles o -> NoDup (map fst m) ->
    let es := sorted_entries o [bs "sum"] m in
    sum_bytes o m = concat (map sum_line es)
    /\ es = sorted_entries oid [bs "sum"] m
    /\ Permutation es m
    /\ map fst es = sort_strings (map fst m)
    /\ StronglySorted (fun a b => bytes_leb a b = true) (map fst es)
    /\ NoDup (map fst es).
Proof. exact sum_bytes_sorted. Qed.
Print Assumptions C04_sum_bytes_sorted.

(* sort.Strings of a permutation is the same list (the lemma the sites rest on) *)
Theorem C04_sort_perm_eq : forall l1 l2, Permutation l1 l2 -> sort_strings l1 = sort_strings l2.
Proof. exact sort_perm_eq. Qed.
Print Assumptions C04_sort_perm_eq.

(* Before the repairs (DESIGN section 4 #16, and the order of MethodsOf): two behaviours of the
   runtime on one module give different call sequences / different file contents. *)
Theorem C04_order_independent_refuted_before_scope_fix :
  log_of (run false true wit_render (fun _ => []) oid wit_args [bs "m/a"] wit_world wit_gens wit_fs)
  <> log_of (run false true wit_render (fun _ => []) rev_oracle wit_args [bs "m/a"] wit_world wit_gens wit_fs).
Proof. exact table_fold_refuted. Qed.
Print Assumptions C04_order_independent_refuted_before_scope_fix.

Theorem C04_order_independent_refuted_before_methods_fix :
  file_of (run true false wit_render (fun _ => []) oid wit_args [bs "m/a"] wit_world wit_gens wit_fs) (bs "a", bs "zz_generated.rec.go")
  <> file_of (run true false wit_render (fun _ => []) rev_oracle wit_args [bs "m/a"] wit_world wit_gens wit_fs) (bs "a", bs "zz_generated.rec.go").
Proof. exact methods_order_refuted. Qed.
Print Assumptions C04_order_independent_refuted_before_methods_fix.

(* Second run.  Hypothesis on the generators ([reads_sources_only]): what a generator renders for a
   package is the same for any two loads of the same sources — it does not depend on which generated
   files exist or on the directory hash, i.e. generators do not read generated files ([src_eq] keeps
   path, name, directory, package-doc tags, type names and methods; [reload] relates the two loads).
   First run: regenerates every selected package ([regen_all]: Force, or not All, or no gengo.sum yet)
   on a tree whose files named <base>.* are all listed by the loaded packages ([loaded]).  Then a
   second run — any behaviour of the runtime, any directory hashes, cached or not — succeeds and leaves
   every path except gengo.sum as it was: every generated file is rewritten with the same bytes or
   left alone, none is added or removed.  (gengo.sum itself changes between run 1 and run 2: the
   hashes of run 2 cover the generated files; DESIGN C08.) *)
Theorem C04_fixed_point :
  forall render parse_sum (o1 o2 : oracle) a e gens w w' f f1 log1,
    shuffles o1 -> shuffles o2 -> wf_args a -> wf_world w -> wf_world w' ->
    NoDup (map pk_dir (w_pkgs w)) -> is_gen_name a sum_name = false ->
    Forall reads_sources_only gens -> reload w w' ->
    loaded a w f -> regen_all a w f ->
    run true true render parse_sum o1 a e w gens f = Some (f1, log1) ->
    exists f2 log2,
      run true true render parse_sum o2 a e w' gens f1 = Some (f2, log2)
      /\ forall q, q <> (w_moddir w', sum_name) -> f2 q = f1 q.
Proof. intros render parse_sum o1 o2 a e gens w w' f f1 log1 Hs1 Hs2 Ha Hw _. now apply second_run_fixed_point. Qed.
Print Assumptions C04_fixed_point.

(* what the first run establishes: every selected package's generated files are exactly what its
   generators produce ([settled]) ... *)
Theorem C04_first_run_settles :
  forall render parse_sum (o : oracle), shuffles o ->
  forall a e gens w f f1 log,
    wf_world w -> NoDup (map pk_dir (w_pkgs w)) -> is_gen_name a sum_name = false ->
    loaded a w f -> regen_all a w f ->
    run true true render parse_sum o a e w gens f = Some (f1, log) ->
    settled render o a e gens w f1.
Proof. exact first_run_settles. Qed.
Print Assumptions C04_first_run_settles.

(* ... and from a settled tree ANY number of consecutive runs (each on a fresh load of the same
   sources, each with its own map orders, hashes and cache state) change no generated file. *)
Theorem C04_fixed_point_any_number_of_runs :
  forall render parse_sum a e gens w,
    wf_args a -> wf_world w -> is_gen_name a sum_name = false -> Forall reads_sources_only gens ->
    forall (ws : list (world * oracle)),
      Forall (fun wo => reload w (fst wo) /\ wf_world (fst wo) /\ shuffles (snd wo)) ws ->
      forall f, (exists o, shuffles o /\ settled render o a e gens w f) ->
      exists f', runs_to render parse_sum a e gens f ws f' /\ forall q, generated a q = true -> f' q = f q.
Proof.
  intros render parse_sum a e gens w Ha Hw Hsum HF ws HA. apply (settled_forever render parse_sum a e gens w Ha Hw Hsum HF ws).
  revert HA. apply Forall_impl. intros wo [Hr [_ Hs]]. exact (conj Hr Hs).
Qed.
Print Assumptions C04_fixed_point_any_number_of_runs.

(* non-vacuity: the witness module is well formed, both oracles are legal, the run does something,
   the scripted generators satisfy the hypothesis of the fixed-point theorems, and so do the rest
   (here [loaded] holds because the tree [wit_fs] is EMPTY; on a tree with previous outputs and a previous gengo.sum:
   C04_hypotheses_satisfiable_on_a_used_tree below) *)
Example C04_hypotheses_satisfiable :
  wf_world wit_world /\ wf_args wit_args /\ shuffles oid /\ shuffles rev_oracle
  /\ log_of (run true true wit_render (fun _ => []) rev_oracle wit_args [bs "m/a"] wit_world wit_gens wit_fs)
     = Some [(bs "m/a", bs "rec", [mk_call CType (bs "T") 306])]
  /\ Forall reads_sources_only wit_gens
  /\ reload wit_world wit_world /\ loaded wit_args wit_world wit_fs /\ regen_all wit_args wit_world wit_fs
  /\ NoDup (map pk_dir (w_pkgs wit_world)) /\ is_gen_name wit_args sum_name = false.
Proof.
  split; [exact wit_world_wf|]. split; [constructor|]. split; [exact oid_shuffles|]. split; [exact rev_oracle_shuffles|].
  split; [exact (proj1 wit_run_nontrivial)|].
  split; [repeat constructor; apply scripted_reads_sources_only|].
  split; [split; [reflexivity|repeat constructor]|].
  split; [intros p k _ _ H; exfalso; now apply H|].
  split; [right; right; reflexivity|].
  split; [repeat constructor; intros []|reflexivity].
Qed.

(* the FIRST (and only) run of that small witness under the reversing oracle, computed: the file and its bytes.
   (On the EMPTY tree [wit_fs] with [reload wit_world wit_world]; a genuine second run is C04_second_run_computed below.) *)
Example C04_fixed_point_witness :
  file_of (run true true wit_render (fun _ => []) rev_oracle wit_args [bs "m/a"] wit_world wit_gens wit_fs) (bs "a", bs "zz_generated.rec.go")
  = Some (bs "G;Gm(M0,M1,);").
Proof. exact (proj2 wit_run_nontrivial). Qed.

(* ---- non-vacuity on a module that is NOT empty (Proofs/DeterminismWitness.v): packages m/a and m/b, generators "rec" and
   "other" (an AliasGenerator), a tree that already holds a stale zz_generated.old.go, a previous zz_generated.rec.go,
   a look-alike zz_generatedx.go, user files and a previous gengo.sum with two lines (read by the byte-level parser
   of Model/SumFile.v); All and Force.  [d_world0] is the load before run 1, [d_world1] the load before run 2 (the
   generated files are among the packages' files, the directory hashes differ). ---- *)
Example C04_hypotheses_satisfiable_on_a_used_tree :
  wf_world d_world0 /\ wf_world d_world1 /\ wf_args d_args /\ shuffles oid /\ shuffles rev_oracle
  /\ NoDup (map pk_dir (w_pkgs d_world0)) /\ is_gen_name d_args sum_name = false
  /\ Forall reads_sources_only d_gens /\ reload d_world0 d_world1
  /\ loaded d_args d_world0 d_fs0 /\ regen_all d_args d_world0 d_fs0
  /\ d_fs0 (bs "a", bs "zz_generated.old.go") = Some (bs "stale")
  /\ d_fs0 (w_moddir d_world0, sum_name) = Some d_prev_sum
  /\ d_parse_sum d_prev_sum = [(bs "m/a", bs "h1:old"); (bs "m/b", bs "h1:b0")].
Proof. exact d_hypotheses. Qed.

(* the FIRST run on that tree, computed: the calls; the stale file removed, the previous output replaced, look-alike
   and user files untouched; gengo.sum rewritten with the hashes of the first load *)
Example C04_first_run_on_a_used_tree :
  log_of d_run1
  = Some [(bs "m/a", bs "rec", [mk_call CType (bs "T") 306; mk_call CType (bs "U") 406]);
          (bs "m/a", bs "other", [mk_call CAlias (bs "A") 506; mk_call CType (bs "U") 406]);
          (bs "m/b", bs "rec", []);
          (bs "m/b", bs "other", [mk_call CType (bs "V") 706])]
  /\ map (file_of d_run1) d_paths
     = [Some (bs "package a"); None;
        Some (bs "package a;import bytes;import fmt;import sort;G;Gm(M0,M1,);H;D;");
        Some (bs "package a;O;"); Some (bs "look-alike");
        Some (bs "package b"); Some (bs "package b;V1;V2;"); None; Some (bs "R")]
  /\ file_of d_run1 d_sum = Some (bs "m/a h1:a0" ++ [nl10] ++ bs "m/b h1:b0" ++ [nl10]).
Proof. exact d_first_run. Qed.

(* THE SECOND RUN, computed: [d_run2] runs on [d_fs1], the tree run 1 left, with the re-loaded packages and the other
   behaviour of the runtime at every map range.  Same calls; every path of the module except gengo.sum holds what it
   held (nothing rewritten differently, added or removed); gengo.sum now records the hashes of the second load —
   which is why C04_fixed_point excludes that one path. *)
Example C04_second_run_computed :
  log_of d_run2 = log_of d_run1
  /\ map (file_of d_run2) d_paths = map (file_of d_run1) d_paths
  /\ map (file_of d_run2) d_paths = map d_fs1 d_paths
  /\ file_of d_run2 d_sum = Some (bs "m/a h1:a1" ++ [nl10] ++ bs "m/b h1:b1" ++ [nl10])
  /\ file_of d_run2 d_sum <> file_of d_run1 d_sum.
Proof. exact d_second_run. Qed.

(* C04_fixed_point APPLIED to that module (every hypothesis discharged): the statement for all paths at once *)
Example C04_fixed_point_instance :
  exists f2 log2, d_run2 = Some (f2, log2) /\ forall q, q <> (w_moddir d_world1, sum_name) -> f2 q = d_fs1 q.
Proof. exact d_fixed_point_instance. Qed.
Print Assumptions C04_fixed_point_instance.

(* ... and C04_fixed_point_any_number_of_runs: three further runs on alternating loads and behaviours *)
Example C04_any_number_of_runs_instance :
  exists f', runs_to d_render d_parse_sum d_args d_entry d_gens d_fs1 [(d_world1, rev_oracle); (d_world0, oid); (d_world1, oid)] f'
             /\ forall q, generated d_args q = true -> f' q = d_fs1 q.
Proof. exact d_any_number_instance. Qed.
Print Assumptions C04_any_number_of_runs_instance.

(* PERMUTED ENTRYPOINTS under the other behaviour of the runtime: same calls, same bytes at every path (computed),
   and C04_order_independent applied *)
Example C04_permuted_entrypoints :
  rev d_entry = [bs "m/a"; bs "m/b"]
  /\ log_of d_run1_perm = log_of d_run1
  /\ map (file_of d_run1_perm) (d_sum :: d_paths) = map (file_of d_run1) (d_sum :: d_paths)
  /\ out_equiv d_run1 d_run1_perm.
Proof. exact d_permuted_entrypoints. Qed.

(* without All only the entrypoints are generated and gengo.sum stays: two entrypoints in either order give the same
   tree and calls; with m/a alone m/b gets no file *)
Example C04_permuted_entrypoints_direct :
  let r e o := run true true d_render d_parse_sum o d_args_direct e d_world0 d_gens d_fs0 in
  map (file_of (r [bs "m/a"; bs "m/b"] oid)) (d_sum :: d_paths) = map (file_of (r [bs "m/b"; bs "m/a"] rev_oracle)) (d_sum :: d_paths)
  /\ log_of (r [bs "m/a"; bs "m/b"] oid) = log_of (r [bs "m/b"; bs "m/a"] rev_oracle)
  /\ file_of (r [bs "m/a"; bs "m/b"] oid) d_sum = Some d_prev_sum
  /\ file_of (r [bs "m/a"; bs "m/b"] oid) (bs "b", bs "zz_generated.other.go") = Some (bs "package b;V1;V2;")
  /\ file_of (r [bs "m/a"] oid) (bs "b", bs "zz_generated.other.go") = None
  /\ out_equiv (r [bs "m/a"; bs "m/b"] oid) (r [bs "m/b"; bs "m/a"] rev_oracle).
Proof. exact d_direct_entrypoints. Qed.

(* ---- the composed system (Model/Whole.v, Model/WholeDet.v, Props/Whole.v): this file's model and the pipeline model
   (C07 / C05 / C02; Model/Pipeline.v under Whole.whole_env) are models of one system ----
   [WholeDet.det_world] / [det_args] / [det_gen] derive this file's input from the pipeline's; [only_gfs o] takes the one
   order the pipeline leaves open (the sync.Map of retained genfiles) from the oracle and every other map as given —
   by C04_order_independent every shuffling oracle gives the same result; [natural o]: o rearranges positions. *)
Require Gengo.Model.Pipeline Gengo.Model.Whole Gengo.Model.WholeDet Gengo.Proofs.Pipeline Gengo.Proofs.WholeDet
  Gengo.Model.Dispatch Gengo.Props.Whole.

Theorem C04_whole_determinism_is_pipeline :
  forall fmt G (o : oracle) rank a w,
    Gengo.Proofs.WholeDet.world_wf w -> shuffles o -> WholeDet.natural o ->
    forall gens, NoDup (map Pipeline.g_name gens) -> forall s,
    let E := Whole.whole_env fmt (WholeDet.order_of o) rank G in
    match run true true (WholeDet.det_render fmt) WholeDet.det_parse_sum (WholeDet.only_gfs o) (WholeDet.det_args G a)
              (Pipeline.w_direct w) (WholeDet.det_world w) (map (WholeDet.det_gen w) gens) (WholeDet.det_fs s) with
    | None => Pipeline.exec_outcome E a w gens s <> Pipeline.Done
    | Some (f', log) =>
        Pipeline.exec_outcome E a w gens s = Pipeline.Done
        /\ (forall q, f' q = Pipeline.fs_lookup q (Pipeline.exec_fs E a w gens s))
        /\ WholeDet.flat_log log = WholeDet.flat_trace (Pipeline.exec_trace E a w gens s)
    end.
Proof. exact Gengo.Props.Whole.Whole_determinism_is_pipeline. Qed.
Print Assumptions C04_whole_determinism_is_pipeline.

(* C04_order_independent as a statement about Pipeline.exec: the files gengo leaves and the calls it makes do not
   depend on the iteration orders of the sync.Map of retained genfiles and of the map of stale files (the two orders the
   pipeline model leaves open) *)
Theorem C04_whole_pipeline_order_independent :
  forall fmt G (o1 o2 : oracle) rank1 rank2 a w gens s,
    Gengo.Proofs.WholeDet.world_wf w -> shuffles o1 -> shuffles o2 -> WholeDet.natural o1 -> WholeDet.natural o2 ->
    NoDup (Dispatch.keys G) -> NoDup (map Pipeline.g_name gens) ->
    let E1 := Whole.whole_env fmt (WholeDet.order_of o1) rank1 G in
    let E2 := Whole.whole_env fmt (WholeDet.order_of o2) rank2 G in
    (Pipeline.exec_outcome E1 a w gens s = Pipeline.Done <-> Pipeline.exec_outcome E2 a w gens s = Pipeline.Done)
    /\ (Pipeline.exec_outcome E1 a w gens s = Pipeline.Done ->
        (forall q, Pipeline.fs_lookup q (Pipeline.exec_fs E1 a w gens s) = Pipeline.fs_lookup q (Pipeline.exec_fs E2 a w gens s))
        /\ WholeDet.flat_trace (Pipeline.exec_trace E1 a w gens s) = WholeDet.flat_trace (Pipeline.exec_trace E2 a w gens s)).
Proof. exact Gengo.Props.Whole.Whole_pipeline_order_independent. Qed.
Print Assumptions C04_whole_pipeline_order_independent.

(* C02 / C07 read on this file's run: a failing run (None) is a pipeline run that did not return Done; a successful run
   leaves every path that is not gengo's own output as it was *)
Theorem C04_whole_run_fails_iff_pipeline_fails :
  forall fmt G (o : oracle) rank a w,
    Gengo.Proofs.WholeDet.world_wf w -> shuffles o -> WholeDet.natural o ->
    forall gens, NoDup (map Pipeline.g_name gens) -> forall s,
    run true true (WholeDet.det_render fmt) WholeDet.det_parse_sum (WholeDet.only_gfs o) (WholeDet.det_args G a)
        (Pipeline.w_direct w) (WholeDet.det_world w) (map (WholeDet.det_gen w) gens) (WholeDet.det_fs s) = None
    <-> Pipeline.exec_outcome (Whole.whole_env fmt (WholeDet.order_of o) rank G) a w gens s <> Pipeline.Done.
Proof. exact Gengo.Props.Whole.Whole_determinism_fails_iff_pipeline_fails. Qed.
Print Assumptions C04_whole_run_fails_iff_pipeline_fails.

Theorem C04_whole_run_frame :
  forall fmt G (o : oracle) rank a w,
    Gengo.Proofs.WholeDet.world_wf w -> shuffles o -> WholeDet.natural o ->
    forall gens, NoDup (map Pipeline.g_name gens) -> forall s f' log q,
    run true true (WholeDet.det_render fmt) WholeDet.det_parse_sum (WholeDet.only_gfs o) (WholeDet.det_args G a)
        (Pipeline.w_direct w) (WholeDet.det_world w) (map (WholeDet.det_gen w) gens) (WholeDet.det_fs s) = Some (f', log) ->
    ~ Gengo.Proofs.Pipeline.own_output (Whole.whole_env fmt (WholeDet.order_of o) rank G) a w s q ->
    f' q = WholeDet.det_fs s q.
Proof. exact Gengo.Props.Whole.Whole_determinism_frame. Qed.
Print Assumptions C04_whole_run_frame.

(* ---- the fixed-point hypothesis discharged for a REAL generator (Model/Generators.v, Proofs/GeneratorsPipe.v).
   deepcopy is not a generator that "does not read generated files": go/types shows it the methods of the file an
   earlier run left ([dvis]; copy_fields.go scans them).  [deepcopy_det_gen dgraph dvis …] renders (a printing of)
   Model/DeepCopy.v's gen_deepcopy on the declarations of the source files ([dgraph]) with those methods visible.
   By C17_independent_of_previous_output its rendering depends on the sources only, provided the source declarations
   are a function of the sources and what the earlier run left is shape-consistent (methods with map receivers belong
   to map types: true of every file the generator wrote, gen_deepcopy_vis_ok).  So C04_fixed_point holds with the
   deepcopy generator in the run and NO assumption on it. ---- *)
Require Gengo.Model.Generators Gengo.Proofs.GeneratorsPipe Gengo.Proofs.DeepCopy.
Module GN := Gengo.Model.Generators.

Theorem C04_deepcopy_reads_sources_only : forall dgraph dvis print_method imports_of fuel,
  (forall p p', src_eq p p' -> dgraph p = dgraph p') ->
  (forall p, Gengo.Proofs.DeepCopy.vis_ok (dgraph p) (dvis p)) ->
  reads_sources_only (GN.deepcopy_det_gen dgraph dvis print_method imports_of fuel).
Proof. exact Gengo.Proofs.GeneratorsPipe.deepcopy_reads_sources_only. Qed.
Print Assumptions C04_deepcopy_reads_sources_only.

Theorem C04_fixed_point_with_deepcopy :
  forall dgraph dvis print_method imports_of fuel,
    (forall p p', src_eq p p' -> dgraph p = dgraph p') ->
    (forall p, Gengo.Proofs.DeepCopy.vis_ok (dgraph p) (dvis p)) ->
  forall render parse_sum (o1 o2 : oracle) a e gens w w' f f1 log1,
    shuffles o1 -> shuffles o2 -> wf_args a -> wf_world w -> wf_world w' ->
    NoDup (map pk_dir (w_pkgs w)) -> is_gen_name a sum_name = false ->
    Forall reads_sources_only gens -> reload w w' ->
    loaded a w f -> regen_all a w f ->
    let gens' := GN.deepcopy_det_gen dgraph dvis print_method imports_of fuel :: gens in
    run true true render parse_sum o1 a e w gens' f = Some (f1, log1) ->
    exists f2 log2,
      run true true render parse_sum o2 a e w' gens' f1 = Some (f2, log2)
      /\ forall q, q <> (w_moddir w', sum_name) -> f2 q = f1 q.
Proof. exact Gengo.Proofs.GeneratorsPipe.fixed_point_with_deepcopy. Qed.
Print Assumptions C04_fixed_point_with_deepcopy.

(* non-vacuity: a type graph with every feature, and "what an earlier run left" = the generator's own output when the
   directory has files, nothing otherwise — different between the two loads, both shape-consistent *)
Example C04_deepcopy_hypotheses_satisfiable : forall pm io,
  reads_sources_only
    (GN.deepcopy_det_gen (fun _ => Gengo.Proofs.DeepCopyTop.w_all)
       (fun p => match GN.DC.gen_deepcopy 8 GN.DC.all_fixed Gengo.Proofs.DeepCopyTop.w_all Gengo.Proofs.DeepCopyTop.w_all_order [] with
                 | Ok ms => if is_nil (pk_files p) then [] else ms
                 | _ => [] end) pm io 8).
Proof. exact Gengo.Proofs.GeneratorsPipe.deepcopy_det_witness. Qed.

(* ---- one system, loader side (Model/Tables.v, Props/Tables.v, notes/Tables.md): the type table and the method
   lists of this file's model are those of C13's model (Model/Universe.v); their order-independence is an INSTANCE
   of C13's theorems (proved through the adapters [T.u_of_det] / [T.u_of_meth]) ---- *)
Require Gengo.Model.Universe Gengo.Proofs.Universe Gengo.Model.Tables Gengo.Props.Tables.
Module T := Gengo.Model.Tables.
Module Uni := Gengo.Model.Universe.

(* for every oracle and every Defs list of C13's model (objects of all kinds, any order) describing the same type
   names: same key set, same lookup function *)
Theorem C04_table_is_C13_table :
  forall (o : oracle) p os,
    shuffles o ->
    Permutation (T.types_of os) (map T.u_of_det (pk_defs p)) ->
    (forall n, In n (map fst (Uni.t_types (Uni.fill_tables Uni.all_fixed os))) <-> In n (keys (type_table true o p)))
    /\ (forall n, Gengo.Proofs.Universe.unique_at os Uni.KType n ->
          Uni.lookup Uni.KType n (Uni.fill_tables Uni.all_fixed os)
          = option_map td_uid (lookup n (type_table true o p))).
Proof. exact Gengo.Props.Tables.Tables_universe_is_determinism. Qed.
Print Assumptions C04_table_is_C13_table.

(* "the table does not depend on the order of Defs" from C13_tables_order_independent *)
Theorem C04_table_order_independent_from_C13 :
  forall (o1 o2 : oracle) p,
    shuffles o1 -> shuffles o2 ->
    NoDup (map td_name (filter td_pkgscope (pk_defs p))) ->
    forall n, option_map td_uid (lookup n (type_table true o1 p)) = option_map td_uid (lookup n (type_table true o2 p)).
Proof. exact Gengo.Props.Tables.Tables_determinism_table_order_independent. Qed.
Print Assumptions C04_table_order_independent_from_C13.

(* this file's MethodsOf (before and after the ordering repair) = C13's MethodsOf(n, true) up to C13_methods's
   permutation (on the tables of the loop alone); on the tables newPkg leaves behind ([Uni.new_pkg_tables]: loop, then
   the ordering of package.go:146-157) the two are equal *)
Theorem C04_methods_are_C13_methods :
  forall fm (o : oracle) p ptr os n,
    shuffles o ->
    Permutation (T.meths_of os) (map (T.u_of_meth ptr) (pk_meths p)) ->
    Permutation (map Uni.o_name (Uni.methods_of Uni.all_fixed (Uni.fill_tables Uni.all_fixed os) n true))
                (methods_of fm o p (Uni.n_origin n)).
Proof. exact Gengo.Props.Tables.Tables_methods_agree. Qed.
Print Assumptions C04_methods_are_C13_methods.

Theorem C04_methods_sorted_are_C13_methods :
  forall (o : oracle) p ptr os n,
    shuffles o ->
    NoDup (map m_pos (pk_meths p)) ->
    Permutation (T.meths_of os) (map (T.u_of_meth ptr) (pk_meths p)) ->
    map Uni.o_name (Uni.methods_of Uni.all_fixed (Uni.new_pkg_tables Uni.all_fixed Uni.o_id os) n true)
    = methods_of true o p (Uni.n_origin n).
Proof. exact Gengo.Props.Tables.Tables_methods_sorted_agree. Qed.
Print Assumptions C04_methods_sorted_are_C13_methods.

Theorem C04_methods_order_independent_from_C13 :
  forall (o1 o2 : oracle) p uid,
    shuffles o1 -> shuffles o2 ->
    NoDup (map m_pos (pk_meths p)) ->
    methods_of true o1 p uid = methods_of true o2 p uid.
Proof. exact Gengo.Props.Tables.Tables_determinism_methods_order_independent. Qed.
Print Assumptions C04_methods_order_independent_from_C13.
