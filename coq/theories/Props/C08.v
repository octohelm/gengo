(* C08 — the gengo.sum cache never skips a package whose directory changed.
   Statements only; every proof of a Theorem is [exact <lemma>]; the Examples are put together from lemmas or evaluated.
   C08_saved_order_independent opens with [intros ... _]: the lemma quoted is stated without the hypothesis in that
   place, so the statement holds without it.

   The model (Model/SumCache.v) is generic in the world: [tree] the file tree of the module, [content] what
   dirhash reads below one package directory, [H] the directory hash (None = cannot be hashed), [dirc] the
   (recursive) directory of a package, [gen] the effect of executing the generators for one package, [locals]
   the packages go/packages reports for the entrypoints (keys of a Go map: any order).  Every theorem
   quantifies over all of them, so "edit" is ANY change of the tree and a history is any list of
   edit / delete / corrupt / block gengo.sum / run {All, Force, entrypoints, failing package}.
   [fixes] selects the code before/after the two "fix:" patches; [fixed_all] is the code as it is now. *)
Require Import Gengo.Base.Bytes Gengo.Model.SumFile Gengo.Model.SumCache.
Require Import Gengo.Proofs.SumFile Gengo.Proofs.SumCache Gengo.Proofs.SumCacheExamples Gengo.Proofs.SumCacheWitness.
From Coq Require Import Permutation Sorted.

(* 1. Skipped as cached ONLY IF All is set, Force is off, gengo.sum is a readable file and the hash it records
      for the package equals the hash of the package directory taken at load time (and, repaired code, that
      hash exists).  Any state, any run — hence every run of every history. *)
Theorem C08_skip_only_if :
  forall (tree content : Type) (H : content -> option bytes) (dirc : tree -> option bytes -> bytes -> content)
         (gen : tree -> bytes -> tree) (locals : tree -> list bytes -> list (bytes * bool))
         (fx : fixes) (a : runargs) (st : state tree) (p : bytes),
    In p (skipped (fst (snd (run tree content H dirc gen locals fx a st)))) ->
    r_all a = true /\ r_force a = false /\
    exists b, st_sum st = SumFile b
      /\ sum_sum (sumfile_load b) p = hash_of tree content H dirc fx st p
      /\ (fx_empty fx = true -> hash_of tree content H dirc fx st p <> []).
Proof. exact run_skip_only_if. Qed.
Print Assumptions C08_skip_only_if.

(* 2. Force, no All, a missing or unreadable gengo.sum, a recorded hash different from the current one, or a
      directory that cannot be hashed: every package the run reaches is regenerated. *)
Theorem C08_regenerates :
  forall (tree content : Type) (H : content -> option bytes) (dirc : tree -> option bytes -> bytes -> content)
         (gen : tree -> bytes -> tree) (locals : tree -> list bytes -> list (bytes * bool))
         (fx : fixes) (a : runargs) (st : state tree) (p : bytes),
    In p (visited (fst (snd (run tree content H dirc gen locals fx a st)))) ->
    (r_force a = true \/ r_all a = false
     \/ (forall b, st_sum st <> SumFile b)
     \/ (exists b, st_sum st = SumFile b /\ sum_sum (sumfile_load b) p <> hash_of tree content H dirc fx st p)
     \/ (fx_empty fx = true /\ hash_of tree content H dirc fx st p = [])) ->
    In p (executed (fst (snd (run tree content H dirc gen locals fx a st)))).
Proof. exact run_regenerates. Qed.
Print Assumptions C08_regenerates.

(* ... and so is a package gengo.sum has no entry for. *)
Theorem C08_missing_entry_regenerates :
  forall (tree content : Type) (H : content -> option bytes) (dirc : tree -> option bytes -> bytes -> content)
         (gen : tree -> bytes -> tree) (locals : tree -> list bytes -> list (bytes * bool))
         (fx : fixes) (a : runargs) (st : state tree) (p b : bytes),
    fx_empty fx = true ->
    In p (visited (fst (snd (run tree content H dirc gen locals fx a st)))) ->
    st_sum st = SumFile b -> sum_get (sumfile_load b) p = None ->
    In p (executed (fst (snd (run tree content H dirc gen locals fx a st)))).
Proof. exact run_missing_entry. Qed.
Print Assumptions C08_missing_entry_regenerates.

(* The run reaches, in sorted order, every local package in scope (all of them with All, the direct ones
   otherwise) — a prefix of them only if a generator failed. *)
Theorem C08_visits_scope :
  forall (tree content : Type) (H : content -> option bytes) (dirc : tree -> option bytes -> bytes -> content)
         (gen : tree -> bytes -> tree) (locals : tree -> list bytes -> list (bytes * bool))
         (fx : fixes) (a : runargs) (st : state tree),
    exists rest,
      map fst (filter (in_scope a) (sort_by fst (locals (st_tree st) (r_entry a))))
      = visited (fst (snd (run tree content H dirc gen locals fx a st))) ++ rest
      /\ (snd (snd (run tree content H dirc gen locals fx a st)) <> EGen -> rest = []).
Proof. exact run_visited_scope. Qed.
Print Assumptions C08_visits_scope.

(* 3. NEVER SKIPS A PACKAGE WHOSE DIRECTORY CHANGED.  In every history that starts without gengo.sum and in
      which nobody forges the file (edits of the tree, deleting or blocking gengo.sum and runs of every kind
      are all allowed), a package skipped by a run was local to an EARLIER successful All run whose recorded
      hash is the hash of the directory that run started from, and the directory now is exactly that
      directory: no file in it was created, edited or deleted since.  Uses that the hash is injective
      (collision resistance of dirhash, trusted) and that paths and hashes contain no white space. *)
Theorem C08_skip_sound :
  forall (tree content : Type) (H : content -> option bytes) (dirc : tree -> option bytes -> bytes -> content)
         (gen : tree -> bytes -> tree) (locals : tree -> list bytes -> list (bytes * bool))
         (st0 : state tree) (pre : list (op tree)) (a : runargs) (p : bytes),
    H_tokens content H -> H_injective content H -> locals_ok tree locals ->
    st_sum st0 = SumMissing -> no_corrupt tree pre ->
    let ex := exec tree content H dirc gen locals fixed_all st0 in
    In p (skipped (fst (snd (run tree content H dirc gen locals fixed_all a (ex pre))))) ->
    r_all a = true /\ r_force a = false /\
    exists pre1 a1 mid,
      pre = pre1 ++ Run a1 :: mid
      /\ good_run tree content H dirc gen locals fixed_all a1 (ex pre1)
      /\ In p (map fst (locals (st_tree (ex pre1)) (r_entry a1)))
      /\ (exists h, H (dirc (st_tree (ex pre1)) None p) = Some h
                    /\ sum_file_bytes (st_sum (ex pre)) <> None
                    /\ (forall b, st_sum (ex pre) = SumFile b -> sum_sum (sumfile_load b) p = h))
      /\ dirc (st_tree (ex pre)) None p = dirc (st_tree (ex pre1)) None p.
Proof. exact skip_sound_history. Qed.
Print Assumptions C08_skip_sound.

(* The same fact read forwards, for any two states: if gengo.sum is what a successful All run that started
   from s1 wrote, and the directory of p now differs in any way from what it was in s1 (or p was not local
   then), a run that reaches p regenerates it. *)
Theorem C08_changed_directory_regenerates :
  forall (tree content : Type) (H : content -> option bytes) (dirc : tree -> option bytes -> bytes -> content)
         (gen : tree -> bytes -> tree) (locals : tree -> list bytes -> list (bytes * bool))
         (a1 : runargs) (s1 : state tree) (a2 : runargs) (s2 : state tree) (p : bytes),
    H_tokens content H -> H_injective content H -> locals_ok tree locals ->
    st_sum s2 = SumFile (sumfile_bytes (current_sum tree content H dirc fixed_all s1 (locals (st_tree s1) (r_entry a1)))) ->
    In p (visited (fst (snd (run tree content H dirc gen locals fixed_all a2 s2)))) ->
    dirc (st_tree s2) None p <> dirc (st_tree s1) None p ->
    In p (executed (fst (snd (run tree content H dirc gen locals fixed_all a2 s2)))).
Proof. exact run_changed_dir. Qed.
Print Assumptions C08_changed_directory_regenerates.

(* 4. After a successful All run gengo.sum holds exactly one "path hash\n" line per local package, in
      strictly ascending byte order of the paths, with the hashes taken at load time ... *)
Theorem C08_saved_exact :
  forall (tree content : Type) (H : content -> option bytes) (dirc : tree -> option bytes -> bytes -> content)
         (gen : tree -> bytes -> tree) (locals : tree -> list bytes -> list (bytes * bool))
         (fx : fixes) (a : runargs) (st : state tree),
    r_all a = true -> snd (snd (run tree content H dirc gen locals fx a st)) = ENone ->
    NoDup (map fst (locals (st_tree st) (r_entry a))) ->
    exists order,
      Permutation order (map fst (locals (st_tree st) (r_entry a)))
      /\ StronglySorted (fun x y => bytes_leb x y = true) order /\ NoDup order
      /\ st_sum (fst (run tree content H dirc gen locals fx a st))
         = SumFile (flat_map (fun p => p ++ sp :: hash_of tree content H dirc fx st p ++ [nl]) order).
Proof. exact run_saved_exact. Qed.
Print Assumptions C08_saved_exact.

(* ... whatever order Go iterates the package map in. *)
Theorem C08_saved_order_independent :
  forall (tree content : Type) (H : content -> option bytes) (dirc : tree -> option bytes -> bytes -> content)
         (fx : fixes) (st : state tree) (loc loc' : list (bytes * bool)),
    Permutation loc loc' -> NoDup (map fst loc) ->
    sumfile_bytes (current_sum tree content H dirc fx st loc) = sumfile_bytes (current_sum tree content H dirc fx st loc').
Proof. intros tree content H dirc fx st loc loc' HP _. exact (saved_bytes_perm tree content H dirc fx st loc loc' HP). Qed.
Print Assumptions C08_saved_order_independent.

(* 5. Reading the file back (bytes.Lines, bytes.Fields, map assignment — byte level) yields the same mapping:
      the same answer to every Sum query, and the very same entries when no hash is empty.  DESIGN.md's paths_ok is
      [kv_ok]: distinct keys; keys non-empty; keys and values ASCII without white space. *)
Theorem C08_load_save :
  forall (m : sum) (k : bytes), kv_ok m -> sum_sum (sumfile_load (sumfile_bytes m)) k = sum_sum m k.
Proof. exact load_bytes_sum. Qed.
Print Assumptions C08_load_save.

Theorem C08_load_save_entries :
  forall (m : sum), kv_ok m -> Forall (fun kv => snd kv <> []) m ->
    sumfile_load (sumfile_bytes m) = sort_by fst m /\ Permutation (sumfile_load (sumfile_bytes m)) m.
Proof. exact load_bytes_entries. Qed.
Print Assumptions C08_load_save_entries.

(* 6. A run that returns an error (a failing generator, gengo.sum not writable) and a run without All leave
      gengo.sum untouched. *)
Theorem C08_failed_run_keeps_sum :
  forall (tree content : Type) (H : content -> option bytes) (dirc : tree -> option bytes -> bytes -> content)
         (gen : tree -> bytes -> tree) (locals : tree -> list bytes -> list (bytes * bool))
         (fx : fixes) (a : runargs) (st : state tree),
    snd (snd (run tree content H dirc gen locals fx a st)) <> ENone ->
    st_sum (fst (run tree content H dirc gen locals fx a st)) = st_sum st.
Proof. exact run_err_keeps_sum. Qed.
Print Assumptions C08_failed_run_keeps_sum.

Theorem C08_direct_run_keeps_sum :
  forall (tree content : Type) (H : content -> option bytes) (dirc : tree -> option bytes -> bytes -> content)
         (gen : tree -> bytes -> tree) (locals : tree -> list bytes -> list (bytes * bool))
         (fx : fixes) (a : runargs) (st : state tree),
    r_all a = false -> st_sum (fst (run tree content H dirc gen locals fx a st)) = st_sum st.
Proof. exact run_not_all_keeps_sum. Qed.
Print Assumptions C08_direct_run_keeps_sum.

(* 6b. The caller's context.  Execute never asks its context whether the caller has given up (Model/SumCache.v,
       [run_ctx]): a run whose context is cancelled — before the call, while some package is generated, by a
       deadline — IS the ordinary run on the same arguments.  Every theorem of this file therefore speaks about
       cancelled runs too: such a run visits its whole scope, returns no error of its own, and saves the
       load-time hashes of packages it has all judged. *)
Theorem C08_cancelled_run_is_run :
  forall (tree content : Type) (H : content -> option bytes) (dirc : tree -> option bytes -> bytes -> content)
         (gen : tree -> bytes -> tree) (locals : tree -> list bytes -> list (bytes * bool))
         (fx : fixes) (c : ctxstate) (a : runargs) (st : state tree),
    run_ctx tree content H dirc gen locals fx c a st = run tree content H dirc gen locals fx a st.
Proof. exact run_ctx_is_run. Qed.
Print Assumptions C08_cancelled_run_is_run.

(* 7. Convergence.  If generated files are a function of their package's own sources (gen is idempotent and
      generators of different packages commute), generating touches only that package's directory (and the
      directories that contain it), generated files do not change which packages are loaded, and every
      directory can be hashed: from ANY state with a writable gengo.sum — missing, stale, damaged — after three
      plain All runs a fourth one executes nothing and leaves tree and gengo.sum exactly as they are.
      (Three are needed: the recorded hash is the one taken BEFORE generation, and an outer directory changes
      when a nested package is regenerated.) *)
Theorem C08_converges :
  forall (tree content : Type) (H : content -> option bytes) (dirc : tree -> option bytes -> bytes -> content)
         (gen : tree -> bytes -> tree) (locals : tree -> list bytes -> list (bytes * bool)),
    H_tokens content H -> H_injective content H -> locals_ok tree locals ->
    gen_idem tree gen -> gen_comm tree gen -> gen_local tree content dirc gen ->
    gen_keeps_locals tree gen locals -> all_hashable tree content H dirc ->
    forall (a : runargs), plain_run a ->
    forall (loc : list (bytes * bool)), existsb snd loc = true ->
    forall (s0 : state tree), locals (st_tree s0) (r_entry a) = loc -> st_sum s0 <> SumUnreadable ->
    let r := run tree content H dirc gen locals fixed_all a in
    let s3 := fst (r (fst (r (fst (r s0))))) in
    fst (r s3) = s3 /\ executed (fst (snd (r s3))) = [] /\ snd (snd (r s3)) = ENone.
Proof. exact converges. Qed.
Print Assumptions C08_converges.

(* ---- the code as it was before the two "fix:" patches ---- *)

(* fx_empty = false: a directory that cannot be hashed is recorded with the empty hash, the line is dropped on
   reading, "" = "" — the package is skipped although its sources were edited after the recorded run. *)
Theorem C08_skip_sound_refuted_before_fix :
  let fx := Bad.only_empty_unfixed in
  let s1 := Bad.dangling0 in
  let s2 := Bad.step fx (Edit Bad.edit) (fst (Bad.run fx Bad.all_run s1)) in
  good_run Bad.tree Bad.content Bad.H Bad.dirc Bad.gen Bad.locals fx Bad.all_run s1
  /\ st_sum s2 = st_sum (fst (Bad.run fx Bad.all_run s1))
  /\ In Bad.pm (skipped (fst (snd (Bad.run fx Bad.all_run s2))))
  /\ fst (st_tree s2) <> fst (st_tree s1).
Proof. exact skip_sound_refuted_unhashable. Qed.
Print Assumptions C08_skip_sound_refuted_before_fix.

(* fx_rootsum = false: gengo.sum is hashed as part of the directory of a package at the module root, so the
   fourth and the fifth run still regenerate it and rewrite gengo.sum. *)
Theorem C08_converges_refuted_before_fix :
  let fx := Bad.only_rootsum_unfixed in
  let s1 := fst (Bad.run fx Bad.all_run Bad.clean0) in
  let s2 := fst (Bad.run fx Bad.all_run s1) in
  let s3 := fst (Bad.run fx Bad.all_run s2) in
  let s4 := fst (Bad.run fx Bad.all_run s3) in
  executed (fst (snd (Bad.run fx Bad.all_run s3))) = [Bad.pm]
  /\ st_sum s4 <> st_sum s3
  /\ executed (fst (snd (Bad.run fx Bad.all_run s4))) = [Bad.pm].
Proof. exact converges_refuted_rootsum. Qed.
Print Assumptions C08_converges_refuted_before_fix.

(* ---- non-vacuity ---- *)

(* every hypothesis of C08_skip_sound and C08_converges holds in a concrete world with two packages *)
Example C08_hypotheses_satisfiable :
  H_tokens Good.content Good.H /\ H_injective Good.content Good.H /\ locals_ok Good.tree Good.locals
  /\ gen_idem Good.tree Good.gen /\ gen_comm Good.tree Good.gen /\ gen_local Good.tree Good.content Good.dirc Good.gen
  /\ gen_keeps_locals Good.tree Good.gen Good.locals /\ all_hashable Good.tree Good.content Good.H Good.dirc.
Proof.
  exact (conj Good.H_tokens_ok (conj Good.H_injective_ok (conj Good.locals_ok_ok (conj Good.gen_idem_ok
        (conj Good.gen_comm_ok (conj Good.gen_local_ok (conj Good.gen_keeps_locals_ok Good.all_hashable_ok))))))).
Qed.

(* in that world: run, run, run, (edit a), run, run, run execute a+b, a+b, nothing, | a, a, nothing
   (fourth entry: a fourth run without the edit also executes nothing) *)
Example C08_example_history :
  Good.demo = [[Good.pa; Good.pb]; [Good.pa; Good.pb]; []; []; [Good.pa]; [Good.pa]; []].
Proof. vm_compute. reflexivity. Qed.

(* ... and in a less degenerate one (Proofs/SumCacheWitness.v, [Deep]): four packages m/a, m/a/sub, m/c, m/d; the
   directory of m/a/sub is NESTED in the directory of m/a (dirhash of m/a is recursive and covers sub's files, so
   gen_local holds for p = m/a/sub, q = m/a only through [contains]); the import edge m/c -> m/a is stored in the
   tree (an edit adds it), m/a always imports m/a/sub; [locals] depends on the tree and on the entrypoints: the
   packages the entrypoints name (direct) plus what they reach through imports (non-direct), in an unsorted order *)
Example C08_hypotheses_satisfiable_deep :
  H_tokens Deep.content Deep.H /\ H_injective Deep.content Deep.H /\ locals_ok Deep.tree Deep.locals
  /\ gen_idem Deep.tree Deep.gen /\ gen_comm Deep.tree Deep.gen /\ gen_local Deep.tree Deep.content Deep.dirc Deep.gen
  /\ gen_keeps_locals Deep.tree Deep.gen Deep.locals /\ all_hashable Deep.tree Deep.content Deep.H Deep.dirc.
Proof.
  exact (conj Deep.H_tokens_ok (conj Deep.H_injective_ok (conj Deep.locals_ok_ok (conj Deep.gen_idem_ok
        (conj Deep.gen_comm_ok (conj Deep.gen_local_ok (conj Deep.gen_keeps_locals_ok Deep.all_hashable_ok))))))).
Qed.

(* in that world, entrypoints m/c and m/d: without the import edge m/c and m/d are loaded; with it m/a/sub and m/a come
   in as NON-direct packages; other entrypoints for comparison *)
Example C08_locals_deep :
  Deep.locals (st_tree Deep.st0) Deep.entry = [(Deep.pd, true); (Deep.pc, true)]
  /\ Deep.locals (st_tree Deep.s_imp) Deep.entry
     = [(Deep.pd, true); (Deep.pc, true); (Deep.ps, false); (Deep.pa, false)]
  /\ Deep.locals (st_tree Deep.s_imp) [Deep.ps] = [(Deep.ps, true)]
  /\ Deep.locals (st_tree Deep.s_imp) [Deep.pa; Deep.pd] = [(Deep.pd, true); (Deep.ps, false); (Deep.pa, true)].
Proof. vm_compute. repeat split; reflexivity. Qed.

(* C08_converges instantiated there with every hypothesis proved (the proof applies [converges], it does not
   compute): from a stale gengo.sum ("m/a h1x\ngarbage"), the import edge present — four local packages, two of them
   non-direct, one nested in another — after three plain All runs a fourth executes nothing and changes nothing *)
Example C08_converges_instance_deep :
  let r := Deep.run (Deep.all_run Deep.entry) in
  let s3 := fst (r (fst (r (fst (r Deep.s_imp))))) in
  fst (r s3) = s3 /\ executed (fst (snd (r s3))) = [] /\ snd (snd (r s3)) = ENone.
Proof. exact deep_converges_instance. Qed.
Print Assumptions C08_converges_instance_deep.

(* a history there, entrypoints m/c and m/d throughout; what each run executes:
     from the stale gengo.sum, no import edge (m/a not loaded): run, run, run, run   -> c+d, c+d, nothing, nothing
     edit: m/c now imports m/a (m/a, m/a/sub loaded, non-direct): run, run, run    -> a+sub+c, a+sub+c, nothing
     edit of the nested m/a/sub: run, run, run                                     -> a+sub, a+sub, nothing
       (the outer m/a is regenerated too: its directory covers sub's files)
     the generated files of m/a and m/a/sub are deleted and gengo.sum is overwritten by one that records m/a's
     current directory only: run, run, run, run                                    -> sub+c+d, a+sub, a, nothing
       (THREE runs execute something: m/a is first skipped, then its directory changes because the nested
        m/a/sub was regenerated, then it changes again because m/a itself was) *)
Example C08_example_history_deep :
  Deep.demo =
    [ [Deep.pc; Deep.pd]; [Deep.pc; Deep.pd]; []; [];
      [Deep.pa; Deep.ps; Deep.pc]; [Deep.pa; Deep.ps; Deep.pc]; [];
      [Deep.pa; Deep.ps]; [Deep.pa; Deep.ps]; [];
      [Deep.ps; Deep.pc; Deep.pd]; [Deep.pa; Deep.ps]; [Deep.pa]; [] ].
Proof. vm_compute. reflexivity. Qed.

(* the repaired code on the refutation's history *)
Example C08_unhashable_regenerated_after_fix :
  let s1 := Bad.dangling0 in
  let s2 := Bad.step fixed_all (Edit Bad.edit) (fst (Bad.run fixed_all Bad.all_run s1)) in
  executed (fst (snd (Bad.run fixed_all Bad.all_run s2))) = [Bad.pm].
Proof. vm_compute. reflexivity. Qed.

(* a gengo.sum with two lines, byte for byte, and its reading *)
Example C08_example_file :
  let m := [(bs "example.com/m/b", bs "h1:Yg="); (bs "example.com/m/a", bs "h1:Xw=")] in
  sumfile_bytes m = bs "example.com/m/a h1:Xw=" ++ [nl] ++ bs "example.com/m/b h1:Yg=" ++ [nl]
  /\ sumfile_load (sumfile_bytes m) = [(bs "example.com/m/a", bs "h1:Xw="); (bs "example.com/m/b", bs "h1:Yg=")].
Proof. vm_compute. split; reflexivity. Qed.

(* ---- the composed system (Model/Whole.v, Props/Whole.v): this file's model and the pipeline model are one ----
   Pipeline.exec (C07 / C05 / C02) is run with THIS file's byte-level sumfile_load / sumfile_bytes
   ([Whole.whole_env]); the theorem says that [run], with its abstract world instantiated by the pipeline's data, is
   Pipeline.exec: same packages executed in the same order, same success / failure, same gengo.sum afterwards (failed
   and non-All runs included), same tree (up to the files a failing package had already written: not modelled here). *)
Require Gengo.Model.Pipeline Gengo.Model.Whole Gengo.Proofs.Pipeline Gengo.Proofs.PipelinePkg Gengo.Proofs.WholeTorn
  Gengo.Props.Whole.

Theorem C08_whole_sumcache_is_pipeline :
  forall (E : Pipeline.env) (a : Pipeline.args) (w : Pipeline.world) (gens : list Pipeline.generator),
    Pipeline.e_sum_load E = sumfile_load -> Pipeline.e_sum_bytes E = sumfile_bytes ->
    forall (content : Type) (H : content -> option bytes)
           (dirc : Pipeline.fs -> option bytes -> bytes -> content)
           (locals : Pipeline.fs -> list bytes -> list (bytes * bool)) (entry : list bytes) (s : Pipeline.fs),
    locals s entry = Whole.world_locals w ->
    (forall p, In p (Pipeline.w_pkgs w) ->
       hash_of Pipeline.fs content H dirc fixed_all (Whole.abs_state w s) (Pipeline.pk_path p) = Pipeline.pk_hash p) ->
    NoDup (map Pipeline.pk_path (Pipeline.w_pkgs w)) -> Gengo.Proofs.PipelinePkg.files_ok w ->
    let r := run Pipeline.fs content H dirc (Whole.pkg_step E a w gens) locals fixed_all
                 (Whole.run_args E a w gens entry s) (Whole.abs_state w s) in
    Pipeline.exec_trace E a w gens s = flat_map (Whole.pkg_trace E a w gens) (executed (fst (snd r)))
    /\ snd (snd r) <> ESave
    /\ (snd (snd r) = ENone <-> Pipeline.exec_outcome E a w gens s = Pipeline.Done)
    /\ (Pipeline.exec_outcome E a w gens s = Pipeline.Done -> Whole.fail_effects E a w gens (fst (snd r)) = [])
    /\ st_sum (fst r) = Whole.sum_state w (Pipeline.exec_fs E a w gens s)
    /\ (forall q, q <> Pipeline.sum_path w ->
          Pipeline.fs_lookup q (Pipeline.exec_fs E a w gens s)
          = Pipeline.fs_lookup q (Pipeline.apply_all (Whole.fail_effects E a w gens (fst (snd r))) (st_tree (fst r)))).
Proof. exact Gengo.Props.Whole.Whole_sumcache_is_pipeline. Qed.
Print Assumptions C08_whole_sumcache_is_pipeline.

(* C08_skip_only_if as a statement about Pipeline.exec: a package the pipeline leaves alone as cached ... *)
Theorem C08_whole_skipped_by_pipeline_only_if_recorded_hash :
  forall (E : Pipeline.env) a w s p,
    Pipeline.e_sum_load E = sumfile_load ->
    NoDup (map Pipeline.pk_path (Pipeline.w_pkgs w)) -> Gengo.Proofs.PipelinePkg.files_ok w ->
    In p (Pipeline.w_pkgs w) -> Pipeline.selected a w p = true -> Gengo.Proofs.Pipeline.processed E a w s p = false ->
    Pipeline.a_all a = true /\ Pipeline.a_force a = false /\
    exists b, Pipeline.fs_lookup (Pipeline.sum_path w) s = Some b
              /\ sum_sum (sumfile_load b) (Pipeline.pk_path p) = Pipeline.pk_hash p
              /\ Pipeline.pk_hash p <> [].
Proof. exact Gengo.Props.Whole.Whole_skipped_by_pipeline_only_if_recorded_hash. Qed.
Print Assumptions C08_whole_skipped_by_pipeline_only_if_recorded_hash.

(* A TORN gengo.sum (sumfile.Save truncates, then writes; a killed process leaves a prefix): every answer of Sum on
   any prefix of Bytes(m) is a prefix of the answer on m, so every entry Load finds in it carries the recorded hash or
   a strictly shorter string — with hashes of one length, it can only cause regeneration
   (composed with the crash points of Execute in C02_whole_crash_then_skip_justified). *)
Theorem C08_whole_torn_sum_prefix :
  forall (m : sum) (n : nat) (key : bytes), kv_ok m ->
    WholeTorn.prefix_of (sum_sum (sumfile_load (firstn n (sumfile_bytes m))) key) (sum_sum m key).
Proof. exact Gengo.Props.Whole.Whole_torn_sum_prefix. Qed.
Print Assumptions C08_whole_torn_sum_prefix.

Theorem C08_whole_torn_sum_entries :
  forall (m : sum) (n : nat) (k v : bytes), kv_ok m ->
    In (k, v) (sumfile_load (firstn n (sumfile_bytes m))) ->
    v = sum_sum m k \/ (WholeTorn.prefix_of v (sum_sum m k) /\ List.length v < List.length (sum_sum m k)).
Proof. exact Gengo.Props.Whole.Whole_torn_sum_entries. Qed.
Print Assumptions C08_whole_torn_sum_entries.
