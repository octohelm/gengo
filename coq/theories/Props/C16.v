(* C16 — runtimedoc output returns the source documentation at run time.
   Statements only; every proof is [exact <lemma>], a line or two that instantiate a more general lemma of
   Proofs/GenRuntimeDoc.v (in the last two parts: of Proofs/GeneratorsPipe.v and Props/Tables.v), or the evaluation of
   a concrete witness.

   [gen true true p] is the IR of the file the (repaired) generator writes for the abstract package p;
   [run files ir v t names] is the semantics of that generated Go text: the result of
   x.RuntimeDoc(names...) for x a pointer to the value v of the type named t
   (Ok (Some doc) = (doc, true); Ok None = (nil, false); Panic = nil pointer dereference).
   Packages are arbitrary lists of type descriptions with pairwise distinct names (as in Go), in any
   order; receivers are arbitrary.  What is NOT proved here: that Go gives the generated text the
   meaning [run] — that is observed by compiling and running it on every generated package. *)
Require Import Gengo.Base.Bytes Gengo.Model.GenRuntimeDoc Gengo.Proofs.GenRuntimeDoc.

(* RuntimeDoc() of a covered type returns its doc lines (leading type name removed) and true — for every
   receiver, nil included.  ([[path]] lines in a struct's doc are the embed-file feature, excluded.) *)
Theorem C16_types : forall files p t v,
  NoDup (map t_name p) -> In t p -> covered t = true -> has_embed_ref p (t_name t) = false ->
  run files (gen true true p) v (t_name t) [] = Ok (Some (doc_of (t_name t) (t_doc t))).
Proof. exact run_types. Qed.
Print Assumptions C16_types.

(* RuntimeDoc(f, ...) for a listed field f (exported, named, not of anonymous or empty struct type)
   returns f's doc lines and true — for every receiver. *)
Theorem C16_fields : forall files p t fs f v rest,
  NoDup (map t_name p) -> In t p -> covered t = true -> t_kind t = TStruct fs ->
  NoDup (map f_name (filter listed fs)) -> In f fs -> listed f = true ->
  run files (gen true true p) v (t_name t) (f_name f :: rest) = Ok (Some (doc_of (f_name f) (f_doc f))).
Proof. exact run_fields_in. Qed.
Print Assumptions C16_fields.

(* Any other name on a struct is answered by delegation: the embedded fields the method delegates to
   are asked in field order, the first answer wins (prefixed with the embedding field's first doc
   line), a panic propagates. *)
Theorem C16_embedded : forall files p t fs kids n rest,
  NoDup (map t_name p) -> In t p -> covered t = true -> t_kind t = TStruct fs ->
  find_listed n fs = None ->
  run files (gen true true p) (RNode kids) (t_name t) (n :: rest) =
  deleg_fields p (fun f => run files (gen true true p) (kid kids (f_name f)) (f_name f) (n :: rest)) fs.
Proof.
  intros files p t fs kids n rest ND HI C K F. rewrite (run_struct files p t fs _ _ ND HI C K), F. reflexivity.
Qed.
Print Assumptions C16_embedded.

(* ... so a name that is no listed field and that no embedded field answers gives (nil, false) *)
Theorem C16_other_name : forall files p t fs kids n rest,
  NoDup (map t_name p) -> In t p -> covered t = true -> t_kind t = TStruct fs ->
  find_listed n fs = None ->
  (forall f, In f fs -> delegating p f = true ->
             run files (gen true true p) (kid kids (f_name f)) (f_name f) (n :: rest) = Ok None) ->
  run files (gen true true p) (RNode kids) (t_name t) (n :: rest) = Ok None.
Proof.
  intros files p t fs kids n rest ND HI C K F H. rewrite (run_struct files p t fs _ _ ND HI C K), F.
  exact (deleg_fields_none p _ fs H).
Qed.
Print Assumptions C16_other_name.

(* a covered non-struct type has no names: every name gives (nil, false) *)
Theorem C16_other_kind : forall files p t v n rest,
  NoDup (map t_name p) -> In t p -> covered t = true -> t_kind t = TOther ->
  run files (gen true true p) v (t_name t) (n :: rest) = Ok None.
Proof. exact (fun files p t v n rest => run_other files p t v (n :: rest)). Qed.
Print Assumptions C16_other_kind.

(* types that are not covered (interfaces, unexported or disabled types, structs without an exported
   field) and names that are no type at all get no method *)
Theorem C16_not_covered : forall fd fs p n,
  NoDup (map t_name p) ->
  (forall t, lookup_ty p n = Some t -> covered t = false) ->
  find_method (gen fd fs p) n = None.
Proof.
  intros fd fs p n ND H. rewrite find_method_gen by exact ND.
  destruct (lookup_ty p n) as [t|]; [|reflexivity]. rewrite (H t eq_refl). reflexivity.
Qed.
Print Assumptions C16_not_covered.

(* the helper func is emitted exactly once iff some method is emitted, and it is the last declaration *)
Theorem C16_helper_once : forall fd fs p,
  NoDup (map t_name p) ->
  count_helper (gen fd fs p) = (if Nat.eqb (count_methods (gen fd fs p)) 0 then 0 else 1)
  /\ (count_methods (gen fd fs p) = 0 <-> existsb covered p = false)
  /\ (forall a b, gen fd fs p = a ++ IHelper :: b -> b = []).
Proof. exact helper_once. Qed.
Print Assumptions C16_helper_once.

(* the doc lines reach the generated file as literals, verbatim and in field order *)
Theorem C16_ir_struct : forall p t fs,
  NoDup (map t_name p) -> In t p -> covered t = true -> t_kind t = TStruct fs ->
  find_method (gen true true p) (t_name t) =
  Some (StructDoc (parse_embed (doc_of (t_name t) (t_doc t)))
                  (map (fun f => (f_name f, doc_of (f_name f) (f_doc f))) (filter listed fs))
                  (map (fun f => mk_embed (f_name f)
                                   (match f_kind f with FEmbedded ptr _ => ptr | _ => false end)
                                   (first_line (doc_of (f_name f) (f_doc f))))
                       (filter (delegating p) fs))).
Proof. exact ir_shape_struct. Qed.
Print Assumptions C16_ir_struct.

Theorem C16_ir_other : forall p t,
  NoDup (map t_name p) -> In t p -> covered t = true -> t_kind t = TOther ->
  find_method (gen true true p) (t_name t) = Some (Simple true (doc_of (t_name t) (t_doc t))).
Proof. exact ir_shape_other. Qed.
Print Assumptions C16_ir_other.

Theorem C16_ir_literals : forall d, (forall l, In l d -> re_embed l = None) -> parse_embed d = map DLit d.
Proof. exact parse_embed_lit. Qed.
Print Assumptions C16_ir_literals.

(* what "leading name removed" means: every line after the first is untouched; the first line loses the
   declared name exactly when the name is the whole line or is followed by a blank; otherwise it is
   untouched too ("Apple pie" on type A stays "Apple pie") *)
Theorem C16_doc_tail : forall n l0 rest,
  doc_of n (l0 :: rest) = rest \/ exists l0', l0' <> [] /\ doc_of n (l0 :: rest) = l0' :: rest.
Proof. exact doc_of_tail. Qed.
Print Assumptions C16_doc_tail.

Theorem C16_doc_name_alone : forall n rest, doc_of n (n :: rest) = rest.
Proof.
  intros n rest. unfold doc_of, ctx_doc. pose proof (cut_prefix_app n []) as E. rewrite app_nil_r in E.
  rewrite E. reflexivity.
Qed.
Print Assumptions C16_doc_name_alone.

Theorem C16_doc_name_blank : forall n r rest,
  doc_of n ((n ++ sp :: r) :: rest) = match trim_space (sp :: r) with [] => rest | l => l :: rest end.
Proof.
  intros n r rest. unfold doc_of, ctx_doc. rewrite cut_prefix_app. unfold sp at 1. rewrite Ascii.eqb_refl.
  destruct (trim_space (sp :: r)); reflexivity.
Qed.
Print Assumptions C16_doc_name_blank.

Theorem C16_doc_verbatim : forall n l0 rest,
  l0 <> [] -> l0 <> n -> (forall r, l0 <> n ++ sp :: r) -> doc_of n (l0 :: rest) = l0 :: rest.
Proof. exact doc_of_verbatim. Qed.
Print Assumptions C16_doc_verbatim.

(* The whole sentence in closed form: on every package whose embedding is acyclic and every receiver
   that has no nil embedded pointer in front of a method with delegations (the negation of the
   known-finding class nil_embedded_pointer_chain), the generated code returns exactly rd_spec —
   the property's sentence as a function of the SOURCE package. *)
Theorem C16_answers_partial : forall files p rank,
  NoDup (map t_name p) -> ranked p rank ->
  forall k tn v names,
    rank tn < k -> nil_chain p tn v = false ->
    (names = [] -> has_embed_ref p tn = false) ->
    run files (gen true true p) v tn names = Ok (rd_spec k p tn names).
Proof. exact run_spec. Qed.
Print Assumptions C16_answers_partial.

(* on a nil receiver a method with delegations panics for every name that is not one of its own cases *)
Theorem C16_nil_receiver : forall files p t fs n rest,
  NoDup (map t_name p) -> In t p -> covered t = true -> t_kind t = TStruct fs ->
  find_listed n fs = None ->
  run files (gen true true p) RNil (t_name t) (n :: rest) =
  if existsb (delegating p) fs then Panic else Ok None.
Proof.
  intros files p t fs n rest ND HI C K F. rewrite (run_struct files p t fs _ _ ND HI C K), F. exact (deleg_fields_nil p fs).
Qed.
Print Assumptions C16_nil_receiver.

(* KNOWN FINDING: without the guard the sentence is false — A{ *B }, B{ C }, C{ X }: new(A).RuntimeDoc("X") panics *)
Theorem C16_answers_refuted_nil_chain :
  run [] (gen true true w_chain) (RNode [(bs "B", RNil)]) (bs "A") [bs "X"] = Panic
  /\ run [] (gen true true w_chain) (RNode [(bs "B", RNil)]) (bs "A") [bs "Nope"] = Panic
  /\ rd_spec 4 w_chain (bs "A") [bs "X"] = Some [bs "marks the spot"]
  /\ rd_spec 4 w_chain (bs "A") [bs "Nope"] = None
  /\ nil_chain w_chain (bs "A") (RNode [(bs "B", RNil)]) = true.
Proof. vm_compute. repeat split; reflexivity. Qed.
Print Assumptions C16_answers_refuted_nil_chain.

(* History: before the repairs.  (fd = false) Context.Doc cut the name off without a word boundary. *)
Theorem C16_doc_refuted_before_fix :
  run [] (gen false true w_apple) (RNode []) (bs "A") [] = Ok (Some [bs "pple pie"])
  /\ run [] (gen false true w_apple) (RNode []) (bs "A") [bs "X"] = Ok (Some [bs "ylophone"])
  /\ rd_spec 2 w_apple (bs "A") [] = Some [bs "Apple pie"]
  /\ rd_spec 2 w_apple (bs "A") [bs "X"] = Some [bs "Xylophone"].
Proof. vm_compute. repeat split; reflexivity. Qed.
Print Assumptions C16_doc_refuted_before_fix.

(* (fs = false) the method of a non-struct type answered every name with the type's doc *)
Theorem C16_other_refuted_before_fix :
  run [] (gen true false w_name) (RNode []) (bs "Name") [bs "Nope"] = Ok (Some [bs "is a name."])
  /\ run [] (gen true false w_name) (RNode [(bs "Name", RNode []); (bs "Other", RNode [])]) (bs "S") [bs "Y"]
     = Ok (Some [bs "is a name."])
  /\ rd_spec 4 w_name (bs "Name") [bs "Nope"] = None
  /\ rd_spec 4 w_name (bs "S") [bs "Y"] = Some [bs "is why"].
Proof. vm_compute. repeat split; reflexivity. Qed.
Print Assumptions C16_other_refuted_before_fix.

(* non-vacuity: the hypotheses of C16_answers_partial hold on a three-level embedding with the pointer
   allocated, and the answers are the documentation *)
Example C16_example :
  let v := RNode [(bs "B", RNode [(bs "C", RNode [])])] in
  NoDup (map t_name w_chain)
  /\ nil_chain w_chain (bs "A") v = false
  /\ run [] (gen true true w_chain) v (bs "A") [bs "X"] = Ok (Some [bs "marks the spot"])
  /\ run [] (gen true true w_chain) v (bs "A") [bs "Nope"] = Ok None
  /\ gen true true w_chain <> [].
Proof.
  cbn zeta. split.
  - repeat constructor; cbn; intros H; repeat (destruct H as [H|H]; [discriminate|]); exact H.
  - vm_compute. repeat split; try reflexivity. discriminate.
Qed.

Example C16_example_ranked : ranked w_chain chain_rank.
Proof. apply ranked_check. vm_compute. reflexivity. Qed.

Example C16_example_doc :
  doc_of (bs "Obj") [bs "Obj some object"; bs ""; bs "Objects are `quoted` 100% @name"]
  = [bs "some object"; bs ""; bs "Objects are `quoted` 100% @name"]
  /\ doc_of (bs "A") [bs "Apple pie"] = [bs "Apple pie"]
  /\ doc_of (bs "Y") [bs "Y"; bs ""; bs "second"] = [bs ""; bs "second"].
Proof. vm_compute. repeat split; reflexivity. Qed.

(* ---- runtimedoc as an instance of the pipeline's abstract generator (Model/Generators.v): what gengo.Execute's
   per-package loop (Model/Pipeline.v: sorted types, dispatch, GenerateType calls, then the deferred callbacks) makes
   of the generator — state (processed, helperWritten) created afresh, the helper emitted by the FIRST deferred
   callback only — is [gen] above on that package alone, printed.  [print_item] (the text of one method / of the
   helper) is a parameter.  Consequence for the pipeline theorems: Props/C05.v C05_runtimedoc_fresh_per_package. ---- *)
Require Gengo.Model.Pipeline Gengo.Model.Generators Gengo.Proofs.GeneratorsPipe.
Module GN := Gengo.Model.Generators.

Theorem C16_is_pipeline_generator :
  forall fd fs desc print_item fuel (E : Gengo.Model.Pipeline.env) p,
    let g := GN.runtimedoc_gen fd fs desc print_item fuel in
    (forall t, In t (Gengo.Model.Pipeline.pk_types p) ->
       Gengo.Model.Pipeline.should_call E g p t = t_enabled (desc p t)) ->
    List.length (Gengo.Model.Pipeline.pk_types p) <= fuel ->
    Gengo.Model.Pipeline.go_out (Gengo.Model.Pipeline.gen_run E g p) = Gengo.Model.Pipeline.Done /\
    Gengo.Model.Pipeline.go_body (Gengo.Model.Pipeline.gen_run E g p)
      = GN.print_items print_item (gen fd fs (GN.rd_view desc p)) /\
    Gengo.Model.Pipeline.go_ignore (Gengo.Model.Pipeline.gen_run E g p) = false.
Proof. exact Gengo.Proofs.GeneratorsPipe.runtimedoc_gen_run. Qed.
Print Assumptions C16_is_pipeline_generator.

(* ---- one system, docs (Model/Tables.v, Props/Tables.v, notes/Tables.md): the doc lines this file's model takes
   "as Package.Doc returns them" are what C12's model of Package.Doc (Model/Comments.v) returns on a layout, and
   "enabled" is C06's rule on what C12 extracts.  [T.package_from_source evs G docs tpos fpos p]: the package p with
   every type's / field's doc lines read off the layout [evs] at the position of its name ([tpos] / [fpos]) and
   t_enabled := IsGeneratorEnabled(runtimedoc, Context.Doc(type)) computed from the source. ---- *)
Require Gengo.Model.Dispatch Gengo.Model.Comments Gengo.Spec.Comments Gengo.Model.Tables Gengo.Props.Tables.
From Coq Require ZArith.
Module T := Gengo.Model.Tables.
Module Cmt := Gengo.Model.Comments.
Module CSp := Gengo.Spec.Comments.

(* RuntimeDoc() of a covered type returns exactly doc_of name (non-tag lines of the stand-alone comment group ending
   on the line above the declaration) — all layouts satisfying C12's well-formedness, all receivers *)
Theorem C16_docs_from_source :
  forall evs G docs tpos fpos files leads p t d v,
    CSp.wf evs leads -> NoDup (map t_name p) -> In t p ->
    In d (CSp.decls_of evs) -> tpos (t_name t) = (Cmt.p_file (Cmt.d_pos d), Cmt.p_line (Cmt.d_pos d)) ->
    covered (T.ty_from_source evs G docs tpos fpos t) = true ->
    has_embed_ref (T.package_from_source evs G docs tpos fpos p) (t_name t) = false ->
    run files (gen true true (T.package_from_source evs G docs tpos fpos p)) v (t_name t) []
    = Ok (Some (doc_of (t_name t) (T.source_doc leads (Cmt.p_file (Cmt.d_pos d)) (Cmt.p_line (Cmt.d_pos d))))).
Proof. exact Gengo.Props.Tables.Tables_docs_from_source. Qed.
Print Assumptions C16_docs_from_source.

(* RuntimeDoc(f) of a listed field: the comment group above the field's declaration; side condition: no name on a
   continuation line (C12's known finding: in `A,` newline `B int` the field B gets no documentation) *)
Theorem C16_field_docs_from_source :
  forall evs G docs tpos fpos files leads p t fs f d l v rest,
    CSp.wf evs leads -> CSp.name_on_continuation_line evs = false ->
    NoDup (map t_name p) -> In t p -> covered (T.ty_from_source evs G docs tpos fpos t) = true ->
    t_kind t = TStruct fs -> NoDup (map f_name (filter listed fs)) -> In f fs -> listed f = true ->
    In d (CSp.decls_of evs) -> In l (Cmt.d_names d) -> fpos (t_name t) (f_name f) = (Cmt.p_file (Cmt.d_pos d), l) ->
    run files (gen true true (T.package_from_source evs G docs tpos fpos p)) v (t_name t) (f_name f :: rest)
    = Ok (Some (doc_of (f_name f) (T.source_doc leads (Cmt.p_file (Cmt.d_pos d)) (Cmt.p_line (Cmt.d_pos d))))).
Proof. exact Gengo.Props.Tables.Tables_field_docs_from_source. Qed.
Print Assumptions C16_field_docs_from_source.

(* "covered" in source terms: the runtimedoc rule on the comment lines, exported, not an interface, a struct only
   with an exported field *)
Theorem C16_covered_from_source :
  forall evs G docs tpos fpos leads t d,
    NoDup (Dispatch.keys G) -> CSp.wf evs leads -> In d (CSp.decls_of evs) ->
    tpos (t_name t) = (Cmt.p_file (Cmt.d_pos d), Cmt.p_line (Cmt.d_pos d)) ->
    covered (T.ty_from_source evs G docs tpos fpos t)
    = T.source_rule (bs "runtimedoc") G (map Cmt.split_nl docs)
                    (CSp.doc_lines_above leads (Cmt.p_file (Cmt.d_pos d)) (Cmt.p_line (Cmt.d_pos d)))
      && t_exported t
      && match t_kind t with
         | TInterface => false
         | TStruct fs => has_expose fs
         | TOther => true
         end.
Proof. exact Gengo.Props.Tables.Tables_covered_from_source. Qed.
Print Assumptions C16_covered_from_source.
