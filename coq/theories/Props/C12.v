(* C12 — doc, trailing comments and tags are attributed to the right declaration.
   Statements only: the proofs are [exact <lemma>], the examples are evaluated in place.

   Model/Comments.v follows pkg/types/comments.go and the comment part of pkg/types/package.go
   (flags = true: the code after the three repairs fixes/C12-*.diff; false: as it was).
   Spec/Comments.v is the declarative reading of the property: tag lines, keys, values, the lines
   of a comment group, "the stand-alone comment group that ends on the line above".
   A layout is what go/parser and ast.Inspect hand to the code: the events of the walk
   (comment groups; declarations with their Doc and Comment groups) and the stand-alone groups
   of the files; [wf] states the facts about that data the theorems rely on, and [wf_b] re-checks
   them on every generated file (Corr/C12.v). *)
Require Import Gengo.Base.Bytes.
From Coq Require Import ZArith.
Require Import Gengo.Model.Comments Gengo.Spec.Comments Gengo.Proofs.Comments Gengo.Proofs.CommentLines.

(* ---- tag extraction: all byte strings, all marker sets, all line lists ---- *)

(* splitKV: the key is the text up to the first '=' or space, the value everything after it. *)
Theorem C12_split_kv :
  forall s, split_kv true s = (upto_sep s, after_sep s).
Proof. exact split_kv_spec. Qed.
Print Assumptions C12_split_kv.

(* ExtractCommentTags: the non-tag lines come back stripped and in order; for every key the values
   of the tag lines with that key, in order (repeated keys keep all values); a key is present iff
   some tag line has it; the map has no duplicate keys; every line is classified exactly once. *)
Theorem C12_tags_partition :
  forall markers lines,
    let ms := markers_or_default markers in
    let tags := fst (extract_tags true markers lines) in
    let others := snd (extract_tags true markers lines) in
    others = spec_others ms lines
    /\ (forall k, tag_values k tags = spec_values ms lines k)
    /\ (forall k, tag_lookup k tags = None <-> spec_values ms lines k = [])
    /\ NoDup (map fst tags)
    /\ length others + total tags = length lines.
Proof. exact extract_tags_spec. Qed.
Print Assumptions C12_tags_partition.

(* ---- attribution: all well-formed layouts ---- *)

(* Doc at the line of any declaration = the tags and lines of the stand-alone comment group that
   ends on the line directly above it, and of nothing if there is none. *)
Theorem C12_doc_own :
  forall evs leads, wf evs leads -> forall d, In d (decls_of evs) ->
    doc_of true true (build true evs) (p_file (d_pos d)) (p_line (d_pos d))
    = extract_tags true [] (doc_lines_above leads (p_file (d_pos d)) (p_line (d_pos d))).
Proof. exact doc_own. Qed.
Print Assumptions C12_doc_own.

(* Comment at the line of a declaration with a trailing comment = the lines of that comment. *)
Theorem C12_comment_own :
  forall evs leads, wf evs leads -> forall d c, In d (decls_of evs) -> d_cmt d = Some c ->
    comment_of true (build true evs) (p_file (d_pos d)) (p_line (d_pos d)) = spec_lines (g_text c).
Proof. exact comment_own. Qed.
Print Assumptions C12_comment_own.

(* ... and nothing when no declaration that starts on that line has one (in particular never a
   comment from the leading index: the fall-back of priorCommentLines is not reached). *)
Theorem C12_comment_none :
  forall evs leads, wf evs leads -> forall d, In d (decls_of evs) ->
    (forall d', In d' (decls_of evs) -> same_line (d_pos d') (d_pos d) -> d_cmt d' = None) ->
    comment_of true (build true evs) (p_file (d_pos d)) (p_line (d_pos d)) = [].
Proof. exact comment_none. Qed.
Print Assumptions C12_comment_none.

(* At ANY position, the group Doc reads is a stand-alone group that ends on the line above ... *)
Theorem C12_doc_group_standalone :
  forall evs leads, wf evs leads -> forall f l g,
    prior (build true evs) f l (-1) = Some g ->
    In g leads /\ p_file (g_pos g) = f /\ g_end g = (l - 1)%Z.
Proof. exact doc_group_sound. Qed.
Print Assumptions C12_doc_group_standalone.

(* ... so a trailing comment is never reported as the documentation of the next line. *)
Theorem C12_no_steal :
  forall evs leads, wf evs leads -> forall f l g,
    prior (build true evs) f l (-1) = Some g ->
    forall d, In d (decls_of evs) -> d_cmt d <> Some g.
Proof. exact doc_group_no_steal. Qed.
Print Assumptions C12_no_steal.

(* The lines the code reports for a group (commentLinesFrom, package.go:427-451: TrimSpace, Split at "\n", skip
   "go:") are exactly the lines the RELATION [lines_of_text] of Spec/Comments.v describes.  The relation uses no
   function of the model — white space is a list of 25 UTF-8 byte sequences, "trimmed" is a decomposition
   blank ++ core ++ blank with core neither starting nor ending with one of them, the pieces are newline-free
   strings that joined with one newline give core back, "go:" lines are left out in order — so this is a statement
   about the model's byte tests, its two trimming loops (fuel included), its splitter and its filter, not a copy of
   them.  <-> : the code computes lines satisfying the relation, and nothing else satisfies it. *)
Theorem C12_group_lines :
  forall text ls, lines_of_text text ls <-> group_lines true text = ls.
Proof. exact group_lines_meets_relation. Qed.
Print Assumptions C12_group_lines.

(* the relation is functional and total: it defines THE lines of a group *)
Theorem C12_lines_relation_functional :
  forall text l1 l2, lines_of_text text l1 -> lines_of_text text l2 -> l1 = l2.
Proof. exact lines_of_text_functional. Qed.
Print Assumptions C12_lines_relation_functional.

Theorem C12_lines_relation_total :
  forall text, exists ls, lines_of_text text ls.
Proof. exact lines_of_text_total. Qed.
Print Assumptions C12_lines_relation_total.

(* [spec_lines], the executable form that the attribution theorems above and Corr/C12.v use (it calls the model's
   trim_space), means the same relation — so "= spec_lines (g_text c)" in C12_comment_own etc. reads
   "are the lines of c in the sense of lines_of_text" *)
Theorem C12_spec_lines_is_relation :
  forall text ls, lines_of_text text ls <-> spec_lines text = ls.
Proof. exact spec_lines_meets_relation. Qed.
Print Assumptions C12_spec_lines_is_relation.

(* the model's strings.TrimSpace alone, relationally *)
Theorem C12_trim_space :
  forall text core,
    (exists pre suf, text = pre ++ core ++ suf /\ blank pre /\ blank suf /\ ~ starts_ws core /\ ~ ends_ws core)
    <-> trim_space text = core.
Proof. exact trim_space_spec. Qed.
Print Assumptions C12_trim_space.

(* the boolean check evaluated on every generated file implies the hypotheses above *)
Theorem C12_wf_checked :
  forall evs leads, wf_b evs leads = true -> wf evs leads.
Proof. exact wf_b_sound. Qed.
Print Assumptions C12_wf_checked.

(* ---- every name of a declaration; known finding [name_on_continuation_line] ---- *)

(* Full statement one would like: for EVERY name of a declaration, Doc / Comment at the name's
   position are the declaration's.  It holds when no name sits on a continuation line ... *)
Theorem C12_names_partial :
  forall evs leads, wf evs leads -> name_on_continuation_line evs = false ->
  forall d l, In d (decls_of evs) -> In l (d_names d) ->
    doc_of true true (build true evs) (p_file (d_pos d)) l
    = extract_tags true [] (doc_lines_above leads (p_file (d_pos d)) (p_line (d_pos d)))
    /\ (forall c, d_cmt d = Some c ->
          comment_of true (build true evs) (p_file (d_pos d)) l = spec_lines (g_text c)).
Proof. exact names_partial. Qed.
Print Assumptions C12_names_partial.

(* ... and fails otherwise: `// doc` / `F,` / `G int // trailing FG` gives G neither. *)
Theorem C12_names_refuted :
  exists evs leads d l c, wf evs leads /\ In d (decls_of evs) /\ In l (d_names d) /\ d_cmt d = Some c /\
    comment_of true (build true evs) (p_file (d_pos d)) l <> spec_lines (g_text c) /\
    doc_of true true (build true evs) (p_file (d_pos d)) l
    <> extract_tags true [] (doc_lines_above leads (p_file (d_pos d)) (p_line (d_pos d))).
Proof. exact names_refuted. Qed.
Print Assumptions C12_names_refuted.

(* ---- history: the code before the repairs ---- *)

(* `A int // trailing A` / `B int`: Doc(B) was the trailing comment of A. *)
Theorem C12_doc_own_refuted_before_fix :
  exists evs leads d, wf evs leads /\ In d (decls_of evs) /\
    doc_of true true (build false evs) (p_file (d_pos d)) (p_line (d_pos d))
    <> extract_tags true [] (doc_lines_above leads (p_file (d_pos d)) (p_line (d_pos d))).
Proof. exact doc_own_old_refuted. Qed.
Print Assumptions C12_doc_own_refuted_before_fix.

Theorem C12_no_steal_refuted_before_fix :
  exists evs leads f l g d, wf evs leads /\ prior (build false evs) f l (-1) = Some g /\
    In d (decls_of evs) /\ d_cmt d = Some g.
Proof. exact no_steal_old_refuted. Qed.
Print Assumptions C12_no_steal_refuted_before_fix.

(* a group whose Text() is empty gave one empty line *)
Theorem C12_group_lines_refuted_before_fix :
  exists text, group_lines false text <> spec_lines text.
Proof. exact empty_text_old_refuted. Qed.
Print Assumptions C12_group_lines_refuted_before_fix.

(* "k=\xff": bytes that are not UTF-8 were re-encoded as U+FFFD *)
Theorem C12_split_kv_refuted_before_fix :
  exists s, split_kv false s <> (upto_sep s, after_sep s).
Proof. exact split_kv_old_refuted. Qed.
Print Assumptions C12_split_kv_refuted_before_fix.

(* ---- non-vacuity ---- *)

(* the example of the Go doc comment, with a repeated key *)
Example C12_tags_example :
  extract_tags true [] [bs "+foo=value1"; bs "  text "; bs "+bar"; bs "@foo value2"; bs "+baz=""qux"""]
  = ([(bs "foo", [bs "value1"; bs "value2"]); (bs "bar", [bs ""]); (bs "baz", [bs """qux"""])], [bs "text"]).
Proof. vm_compute. reflexivity. Qed.

(* the relation on a text with tab / space / U+00A0 in front, a line that keeps its own inner spaces, a go: directive,
   a tag line and newlines + U+2028 behind: shown clause by clause from the definition of the relation (the two clauses
   "the core neither starts nor ends with white space" through the model's byte tests, space_head_0_iff / space_last_0_iff) *)
Example C12_lines_example :
  ex_text = map ascii_of_N [9; 32; 194; 160]%N ++ bs "first" ++ [nl] ++ bs "  second " ++ [nl] ++ bs "go:generate x"
            ++ [nl] ++ bs "+tag=1" ++ [nl; nl] ++ map ascii_of_N [226; 128; 168]%N
  /\ lines_of_text ex_text [bs "first"; bs "  second "; bs "+tag=1"].
Proof. exact (conj eq_refl ex_lines_of_text_direct). Qed.

(* a well-formed layout with a doc group, a trailing comment and an undocumented next line:
     3: // doc A          (stand-alone, also visited as A's Doc)
     4: A int // trailing A
     5: B int                                                                              *)
Definition ex_doc : group := mk_group (mk_pos 0 3 2) 3 (bs "doc A" ++ [c_nl] ++ bs "+gengo:x=1" ++ [c_nl]).
Definition ex_trail : group := mk_group (mk_pos 0 4 8) 4 (bs "trailing A" ++ [c_nl]).
Definition ex_a : decl := mk_decl (mk_pos 0 4 2) [4%Z] (Some ex_doc) (Some ex_trail).
Definition ex_b : decl := mk_decl (mk_pos 0 5 2) [5%Z] None None.
Definition ex_events : list event := [EDecl ex_a; EGroup ex_doc; EGroup ex_trail; EDecl ex_b].

Example C12_layout_example :
  wf ex_events [ex_doc]
  /\ doc_of true true (build true ex_events) 0 4 = ([(bs "gengo:x", [bs "1"])], [bs "doc A"])
  /\ comment_of true (build true ex_events) 0 4 = [bs "trailing A"]
  /\ doc_of true true (build true ex_events) 0 5 = ([], [])
  /\ comment_of true (build true ex_events) 0 5 = []
  /\ doc_of true true (build false ex_events) 0 5 = ([], [bs "trailing A"]).
Proof.
  split; [apply wf_b_sound; vm_compute; reflexivity|]. vm_compute. repeat split; reflexivity.
Qed.

(* ---- one system, tags and docs (Model/Tables.v, Props/Tables.v, notes/Tables.md): what this file's model produces
   is what C06's model (merge / IsGeneratorEnabled) and C16's model (Context.Doc / runtimedoc) take as data ---- *)
Require Gengo.Model.Dispatch Gengo.Model.Tables Gengo.Proofs.TablesB Gengo.Props.Tables.
Module T := Gengo.Model.Tables.

(* the tag map of a list of lines read with C06's map operations: lookup = the values of the tag lines with that key,
   keys = the keys of the tag lines, no key twice (so C06's hypotheses "tag maps are maps" hold of it) *)
Theorem C12_tags_feed_C06 :
  forall lines,
    (forall k, Dispatch.lookup k (Gengo.Proofs.TablesB.tags_of_lines lines) = T.line_value lines k)
    /\ (forall k, In k (Dispatch.keys (Gengo.Proofs.TablesB.tags_of_lines lines)) <-> In k (spec_keys T.ms0 lines))
    /\ NoDup (Dispatch.keys (Gengo.Proofs.TablesB.tags_of_lines lines)).
Proof. exact Gengo.Props.Tables.Tables_tags_of_lines. Qed.
Print Assumptions C12_tags_feed_C06.

(* extraction -> merge -> enabled, for all well-formed layouts: IsGeneratorEnabled on what Context.Doc returns at the
   line of declaration d is C06's rule evaluated on the lines of the stand-alone comment group ending on the line
   above d, the package doc lines and the global tags *)
Theorem C12_enabled_from_source :
  forall g G docs evs leads d,
    NoDup (Dispatch.keys G) -> wf evs leads -> In d (decls_of evs) ->
    T.enabled_from_source g G docs evs (p_file (d_pos d)) (p_line (d_pos d))
    = T.source_rule g G (map split_nl docs) (doc_lines_above leads (p_file (d_pos d)) (p_line (d_pos d))).
Proof. exact Gengo.Props.Tables.Tables_enabled_from_source. Qed.
Print Assumptions C12_enabled_from_source.

(* the known finding name_on_continuation_line, seen from C06: for every name under its negation, refuted otherwise *)
Theorem C12_enabled_from_source_names :
  forall g G docs evs leads d l,
    NoDup (Dispatch.keys G) -> wf evs leads -> name_on_continuation_line evs = false ->
    In d (decls_of evs) -> In l (d_names d) ->
    T.enabled_from_source g G docs evs (p_file (d_pos d)) l
    = T.source_rule g G (map split_nl docs) (doc_lines_above leads (p_file (d_pos d)) (p_line (d_pos d))).
Proof. exact Gengo.Props.Tables.Tables_enabled_from_source_names. Qed.
Print Assumptions C12_enabled_from_source_names.

Theorem C12_enabled_from_source_names_refuted :
  exists g G docs evs leads d l,
    NoDup (Dispatch.keys G) /\ wf evs leads /\ In d (decls_of evs) /\ In l (d_names d)
    /\ T.enabled_from_source g G docs evs (p_file (d_pos d)) l = false
    /\ T.source_rule g G (map split_nl docs) (doc_lines_above leads (p_file (d_pos d)) (p_line (d_pos d))) = true.
Proof. exact Gengo.Props.Tables.Tables_enabled_from_source_names_refuted. Qed.
Print Assumptions C12_enabled_from_source_names_refuted.

(* the doc lines handed to Context.Doc / the generators: the non-tag lines of the group above *)
Theorem C12_doc_lines_feed_C16 :
  forall evs leads, wf evs leads -> forall d, In d (decls_of evs) ->
    T.doc_lines_at evs (p_file (d_pos d), p_line (d_pos d)) = T.source_doc leads (p_file (d_pos d)) (p_line (d_pos d)).
Proof. exact Gengo.Props.Tables.Tables_doc_lines_from_source. Qed.
Print Assumptions C12_doc_lines_feed_C16.
