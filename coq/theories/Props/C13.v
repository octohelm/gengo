(* C13 — The loaded universe mirrors the type checker's view of each package.
   Statements; the proofs are in Proofs/Universe.v and, for the comparison with the other models of newPkg, in
   Proofs/TablesA.v (through Props/Tables.v), and are quoted here by [exact].  Proved in place: C13_imports (the
   lemma at [all_fixed]), C13_new_pkg_tables_names (by conversion), C13_methods_order_dependent_before_fix and the
   Examples (a witness, evaluated; the hypotheses of C13_imports on the universe [wg]: Proofs/UniverseWitness.v).

   go/types and go/packages are input data of the model (Model/Universe.v): [defs] is the abstract
   list of objects in TypesInfo.Defs, in whatever order the map happens to be ranged over; the
   import graph is what packages.Load returned.  [all_fixed] is the code with the "fix:" commits
   of this property; the [_before_fix] theorems refute the same statements for the loop as it was. *)
Require Import Gengo.Base.Bytes Gengo.Model.Universe Gengo.Proofs.Universe Gengo.Proofs.UniverseWitness.
From Coq Require Import Permutation Sorting.Sorted.

(* ---- Types() / Constants() / Functions(), Type / Constant / Function(name) ---- *)

(* For EVERY order pi in which the loop visits Defs: looking a name up in a table gives exactly the
   package-scope object of that kind and name (None when there is none).  [unique_at] is the fact
   that a go/types scope holds one object per name; it fails only for functions named "init"
   (several init functions have the package scope as parent without being inserted in it). *)
Theorem C13_tables_exact :
  forall (defs pi : list obj) (k : okind) (n : bytes),
    Permutation pi defs -> unique_at defs k n ->
    lookup k n (fill_tables all_fixed pi) = spec_lookup k n defs.
Proof. exact tables_exact. Qed.
Print Assumptions C13_tables_exact.

(* hence the answer does not depend on the iteration order of the map *)
Theorem C13_tables_order_independent :
  forall (defs p1 p2 : list obj) (k : okind) (n : bytes),
    Permutation p1 defs -> Permutation p2 defs -> unique_at defs k n ->
    lookup k n (fill_tables all_fixed p1) = lookup k n (fill_tables all_fixed p2).
Proof. exact tables_order_independent. Qed.
Print Assumptions C13_tables_order_independent.

(* the key set of each table is exactly the set of names of package-scope objects of that kind,
   and the association list is a map (no key twice) — no uniqueness assumption, "init" included *)
Theorem C13_tables_keys :
  forall (defs pi : list obj) (k : okind) (n : bytes),
    Permutation pi defs ->
    (In n (map fst (table_of k (fill_tables all_fixed pi))) <-> exists o, In o defs /\ scope_obj k n o = true).
Proof. exact tables_keys. Qed.
Print Assumptions C13_tables_keys.

Theorem C13_tables_are_maps :
  forall (fx : fixes) (defs : list obj) (k : okind), NoDup (map fst (table_of k (fill_tables fx defs))).
Proof. exact tables_nodup. Qed.
Print Assumptions C13_tables_are_maps.

(* never a function-local declaration, a type parameter, a blank or a method: whatever the order,
   whatever the names *)
Theorem C13_tables_only_package_scope :
  forall (defs : list obj) (k : okind) (n : bytes) (x : N),
    lookup k n (fill_tables all_fixed defs) = Some x ->
    exists o, In o defs /\ o_id o = x /\ o_kind o = k /\ o_name o = n /\ o_pkg_scope o = true
              /\ (k = KFunc -> o_recv o = None).
Proof. exact tables_only_package_scope. Qed.
Print Assumptions C13_tables_only_package_scope.

(* ---- MethodsOf ---- *)

(* For every order pi and every *types.Named n — an instance of a generic type included, the key is
   n's origin —: MethodsOf(n, true) is a permutation of the methods declared on n's origin, and
   MethodsOf(n, false) of those among them whose (unaliased) receiver is not a pointer. *)
Theorem C13_methods :
  forall (defs pi : list obj) (n : nref),
    Permutation pi defs ->
    Permutation (methods_of all_fixed (fill_tables all_fixed pi) n true)
                (filter (declared_on (n_origin n)) defs)
    /\ Permutation (methods_of all_fixed (fill_tables all_fixed pi) n false)
                   (filter (fun o => declared_on (n_origin n) o && value_recv o) defs).
Proof. exact methods_exact. Qed.
Print Assumptions C13_methods.

(* ---- Imports() ---- *)

(* For every acyclic import graph (rank rk), closed under imports (NeedDeps), with distinct keys per
   import map, and roots listed dependencies-first (go list -deps order: strictly increasing rank):
   Load terminates with enough fuel, every root is in the universe, and for every package p of the
   universe and every import (path k -> package t) of p:  Imports()[k] is the very Package value that
   Universe.Package(t) returns, and that is not nil.  (k = t except for std's vendored imports.) *)
Theorem C13_imports :
  forall (g : graph) (rk : path -> nat),
    (forall p nd k t, g_find p g = Some nd -> In (k, t) (g_imports nd) -> rk t < rk p) ->
    (forall p nd k t, g_find p g = Some nd -> In (k, t) (g_imports nd) -> g_find t g <> None) ->
    (forall p nd, g_find p g = Some nd -> NoDup (map fst (g_imports nd))) ->
    forall roots,
      (forall r, In r roots -> g_find r g <> None) ->
      StronglySorted (fun a b => rk a < rk b) roots ->
      exists n, forall fuel, n <= fuel ->
        exists s, load all_fixed g fuel roots = Ok s
          /\ (forall r, In r roots -> universe_package s r <> None)
          /\ forall p nd k t, universe_package s p <> None -> g_find p g = Some nd -> In (k, t) (g_imports nd) ->
               imports_entry s p k = Some (universe_package s t) /\ universe_package s t <> None.
Proof. intros g rk H1 H2 H3. exact (imports_total g rk H1 H2 H3 all_fixed eq_refl eq_refl). Qed.
Print Assumptions C13_imports.

(* ---- SourceDir() / LocateInPackage ---- *)

(* for every implementation of filepath.Join: a package laid out as the go command lays packages
   out in their module reports the directory that holds its files (no slice panic).

   HOW TO READ IT.  The hypothesis [layout join p dir] IS the claim about the file system: it says that
   the directory holding p's files is  Module.Dir  when PkgPath = Module.Path and
   Join(Module.Dir, PkgPath[len(Module.Path):])  otherwise (Proofs/Universe.v, [layout]) — which is the
   expression SourceDir() evaluates.  Nothing in Coq relates [dir] to a real directory; that the go command
   lays packages out this way (no replace/vendor/overlay surprises) is ASSUMED here and only TESTED by the
   harness (SourceDir() against the directory of the files packages.Load reports, on every package of every
   case).  What the theorem itself contributes is small and is exactly this: under that layout the checked
   slice expression PkgPath[len(Module.Path):] is in range (no panic) and the two branches of SourceDir
   (the bytes_eqb test and the length test) select the right formula, for every [join].  It is a
   consistency lemma between the code and the stated layout, not a proof that SourceDir is right. *)
Theorem C13_source_dir :
  forall (join : bytes -> bytes -> bytes) (p : pinfo) (dir : bytes),
    pi_module p <> None -> layout join p dir -> source_dir join p = Ok dir.
Proof. exact source_dir_ok. Qed.
Print Assumptions C13_source_dir.

(* for every order in which Universe.pkgs is ranged over: a position whose file go/token reports in
   the directory d of a module package p is located in p — given that module packages have distinct,
   non-empty directories (one package per directory).  The guard "the reported file is in d" excludes
   the known finding line_directive_foreign_dir. *)
Theorem C13_locate :
  forall (join : bytes -> bytes -> bytes) (pkgs : list (pinfo * bytes)),
    (forall p d, In (p, d) pkgs -> layout join p d) ->
    (forall p d, In (p, d) pkgs -> pi_module p <> None -> d <> []) ->
    (forall p1 d p2, In (p1, d) pkgs -> In (p2, d) pkgs -> pi_module p1 <> None -> pi_module p2 <> None ->
                     pi_path p1 = pi_path p2) ->
    forall order, Permutation order (map fst pkgs) ->
    forall p d, In (p, d) pkgs -> pi_module p <> None ->
      locate join order d = Ok (Some (pi_path p)).
Proof. exact locate_ok. Qed.
Print Assumptions C13_locate.

(* ---- history: the same statements are false of the code before the fix: commits ---- *)

(* two iteration orders of the same Defs, different answers for a name the scope holds once *)
Theorem C13_tables_order_dependent_before_fix :
  exists defs p1 p2 k n,
    Permutation p1 defs /\ Permutation p2 defs /\ unique_at defs k n
    /\ lookup k n (fill_tables unfixed p1) <> lookup k n (fill_tables unfixed p2).
Proof. exact tables_order_dependent_before_fix. Qed.
Print Assumptions C13_tables_order_dependent_before_fix.

Theorem C13_tables_local_before_fix :
  exists defs k n x o,
    lookup k n (fill_tables unfixed defs) = Some x /\ In o defs /\ o_id o = x /\ o_pkg_scope o = false.
Proof. exact tables_local_before_fix. Qed.
Print Assumptions C13_tables_local_before_fix.

Theorem C13_methods_generic_before_fix :
  exists defs n,
    filter (declared_on (n_origin n)) defs <> []
    /\ methods_of (mk_fixes true false true true true) (fill_tables (mk_fixes true false true true true) defs) n true = [].
Proof. exact methods_generic_before_fix. Qed.
Print Assumptions C13_methods_generic_before_fix.

Theorem C13_methods_alias_before_fix :
  exists defs n,
    filter (declared_on (n_origin n)) defs <> []
    /\ methods_of (mk_fixes true true false true true) (fill_tables (mk_fixes true true false true true) defs) n true = [].
Proof. exact methods_alias_before_fix. Qed.
Print Assumptions C13_methods_alias_before_fix.

Theorem C13_imports_nil_before_fix :
  exists g roots s, load (mk_fixes true true true false true) g 3 roots = Ok s
                    /\ imports_entry s (bs "m") (bs "a") = Some None.
Proof. exact imports_nil_before_fix. Qed.
Print Assumptions C13_imports_nil_before_fix.

Theorem C13_imports_vendored_nil_before_fix :
  exists g roots s, load (mk_fixes true true true true false) g 3 roots = Ok s
                    /\ imports_entry s (bs "net") (bs "x/dns") = Some None.
Proof. exact imports_vendored_nil_before_fix. Qed.
Print Assumptions C13_imports_vendored_nil_before_fix.

(* the hypothesis on the order of the roots in C13_imports cannot be dropped *)
Theorem C13_imports_need_root_order :
  exists g roots s, load all_fixed g 3 roots = Ok s
                    /\ imports_entry s (bs "m") (bs "a") = Some (Some 0%N)
                    /\ universe_package s (bs "a") = Some 2%N.
Proof. exact imports_need_root_order. Qed.
Print Assumptions C13_imports_need_root_order.

(* ---- non-vacuity ---- *)

Local Open Scope N_scope.

(* type T; func F[T any]; type G[E any] with methods P (pointer) and V (value); a local const K *)
Definition ex_pkg : list obj :=
  [ ex_T_pkg; ex_F; ex_T_tparam; ex_P; ex_V;
    mk_obj 7 KType (bs "G") true None; mk_obj 8 KConst (bs "K") false None;
    mk_obj 9 KConst (bs "K") true None; mk_obj 10 KOther (bs "x") false None ].

Example C13_example_tables :
  let t := fill_tables all_fixed (rev ex_pkg) in
  lookup KType (bs "T") t = Some 1 /\ lookup KConst (bs "K") t = Some 9 /\ lookup KType (bs "K") t = None
  /\ map fst (t_types t) = [bs "G"; bs "T"]
  /\ map o_id (methods_of all_fixed t (mk_nref 99 10) true) = [5; 4]
  /\ map o_id (methods_of all_fixed t (mk_nref 99 10) false) = [5].
Proof. vm_compute. repeat split; reflexivity. Qed.

(* m imports a and b, a imports b; roots in go list -deps order *)
Example C13_example_imports :
  let g := [mk_gnode (bs "m") [(bs "a", bs "a"); (bs "b", bs "b")]; mk_gnode (bs "a") [(bs "b", bs "b")]; mk_gnode (bs "b") []] in
  match load all_fixed g 4 [bs "b"; bs "m"] with
  | Ok s => imports_entry s (bs "m") (bs "a") = Some (universe_package s (bs "a"))
            /\ universe_package s (bs "a") = Some 1
            /\ imports_entry s (bs "a") (bs "b") = Some (Some 0)
  | _ => False
  end.
Proof. vm_compute. repeat split; reflexivity. Qed.

(* C13_imports with ALL its hypotheses discharged (Proofs/UniverseWitness.v): a universe of five packages —
   m imports a, b and "x/dns" -> vendor/x/dns (key <> PkgPath, as in std); a imports b, c; b imports c — with
   rank = position in go list -deps, and the roots [c; b; a; vendor/x/dns; m] in that (dependencies-first) order.
   The hypotheses are checked by the boolean [imports_hyps_b] (sound by [imports_hyps_sound]). *)
Example C13_example_imports_hyps :
  (forall p nd k t, g_find p wg = Some nd -> In (k, t) (g_imports nd) -> (wg_rk t < wg_rk p)%nat) /\
  (forall p nd k t, g_find p wg = Some nd -> In (k, t) (g_imports nd) -> g_find t wg <> None) /\
  (forall p nd, g_find p wg = Some nd -> NoDup (map fst (g_imports nd))) /\
  (forall r, In r wg_roots -> g_find r wg <> None) /\
  StronglySorted (fun a b => (wg_rk a < wg_rk b)%nat) wg_roots.
Proof. exact wg_hyps. Qed.

(* the theorem instantiated on it *)
Example C13_example_imports_witness :
  exists n, forall fuel, (n <= fuel)%nat ->
    exists s, load all_fixed wg fuel wg_roots = Ok s
      /\ (forall r, In r wg_roots -> universe_package s r <> None)
      /\ forall p nd k t, universe_package s p <> None -> g_find p wg = Some nd -> In (k, t) (g_imports nd) ->
           imports_entry s p k = Some (universe_package s t) /\ universe_package s t <> None.
Proof. destruct wg_hyps as (H1 & H2 & H3 & H4 & H5). exact (C13_imports wg wg_rk H1 H2 H3 wg_roots H4 H5). Qed.

(* ... and computed: five distinct Package values, every Imports() entry is the value Universe.Package returns
   (the vendored package under the key as written, no entry under its PkgPath) *)
Example C13_example_imports_computed :
  exists s, load all_fixed wg 5 wg_roots = Ok s
    /\ map (universe_package s) wg_roots = [Some 0; Some 1; Some 2; Some 3; Some 4]
    /\ imports_entry s (bs "m") (bs "a") = Some (Some 2)
    /\ imports_entry s (bs "m") (bs "b") = Some (Some 1)
    /\ imports_entry s (bs "m") (bs "x/dns") = Some (Some 3)
    /\ imports_entry s (bs "m") (bs "vendor/x/dns") = None
    /\ imports_entry s (bs "a") (bs "c") = Some (Some 0)
    /\ imports_entry s (bs "b") (bs "c") = Some (Some 0).
Proof. eexists. split; [vm_compute; reflexivity|]. vm_compute. repeat split; reflexivity. Qed.

(* the same roots with m first: the order hypothesis is false and so is the conclusion (cf. C13_imports_need_root_order) *)
Example C13_example_imports_wrong_order :
  imports_hyps_b wg wg_rk [bs "m"; bs "c"; bs "b"; bs "a"; bs "vendor/x/dns"] = false /\
  exists s, load all_fixed wg 5 [bs "m"; bs "c"; bs "b"; bs "a"; bs "vendor/x/dns"] = Ok s
    /\ imports_entry s (bs "m") (bs "a") <> Some (universe_package s (bs "a")).
Proof.
  split; [vm_compute; reflexivity|]. eexists. split; [vm_compute; reflexivity|]. vm_compute. discriminate.
Qed.

Example C13_example_dirs :
  let m := mk_mod (bs "example.com/m") (bs "/src/m") in
  let pkgs := [mk_pinfo (bs "example.com/m/a") (Some m); mk_pinfo (bs "errors") None; mk_pinfo (bs "example.com/m") (Some m)] in
  source_dir join_clean (mk_pinfo (bs "example.com/m/a") (Some m)) = Ok (bs "/src/m/a")
  /\ locate join_clean pkgs (bs "/src/m") = Ok (Some (bs "example.com/m"))
  /\ layout join_clean (mk_pinfo (bs "example.com/m/a") (Some m)) (bs "/src/m/a").
Proof.
  cbn zeta. split; [vm_compute; reflexivity|]. split; [vm_compute; reflexivity|].
  exists (bs "/a"). split; reflexivity.
Qed.

(* ---- one system (Model/Tables.v, Props/Tables.v, notes/Tables.md): the type table and the method lists of this
   file's model are the ones Model/Dispatch.v (C06) and Model/Determinism.v (C04) compute ----
   [T.u_of_disp] / [T.u_of_det] / [T.u_of_meth] describe their entries as this file's objects; [T.types_of os] /
   [T.meths_of os] are the *types.TypeName / method entries of a Defs list of this model. *)
Require Gengo.Model.Dispatch Gengo.Model.Determinism Gengo.Model.Tables Gengo.Props.Tables.
Module T := Gengo.Model.Tables.

(* every Defs list here, every Defs list of Dispatch describing the same type names, any two orders: same key set,
   same lookup at every name the scope holds once *)
Theorem C13_tables_agree_with_dispatch :
  forall os ds,
    Permutation (T.types_of os) (map T.u_of_disp ds) ->
    (forall n, In n (map fst (t_types (fill_tables all_fixed os)))
               <-> In n (Dispatch.keys (Dispatch.type_table true ds)))
    /\ (forall n, unique_at os KType n ->
          lookup KType n (fill_tables all_fixed os)
          = option_map Dispatch.td_id (Dispatch.lookup n (Dispatch.type_table true ds))).
Proof. exact Gengo.Props.Tables.Tables_universe_is_dispatch. Qed.
Print Assumptions C13_tables_agree_with_dispatch.

(* ... and Determinism's, for every behaviour of the runtime at its range over Defs *)
Theorem C13_tables_agree_with_determinism :
  forall (o : Determinism.oracle) p os,
    Determinism.shuffles o ->
    Permutation (T.types_of os) (map T.u_of_det (Determinism.pk_defs p)) ->
    (forall n, In n (map fst (t_types (fill_tables all_fixed os)))
               <-> In n (Determinism.keys (Determinism.type_table true o p)))
    /\ (forall n, unique_at os KType n ->
          lookup KType n (fill_tables all_fixed os)
          = option_map Determinism.td_uid (Determinism.lookup n (Determinism.type_table true o p))).
Proof. exact Gengo.Props.Tables.Tables_universe_is_determinism. Qed.
Print Assumptions C13_tables_agree_with_determinism.

(* Determinism's MethodsOf lists the names of exactly the methods this model's MethodsOf(n, true) returns
   (C13_methods's permutation) ... *)
Theorem C13_methods_agree_with_determinism :
  forall fm (o : Determinism.oracle) p ptr os n,
    Determinism.shuffles o ->
    Permutation (T.meths_of os) (map (T.u_of_meth ptr) (Determinism.pk_meths p)) ->
    Permutation (map o_name (methods_of all_fixed (fill_tables all_fixed os) n true))
                (Determinism.methods_of fm o p (n_origin n)).
Proof. exact Gengo.Props.Tables.Tables_methods_agree. Qed.
Print Assumptions C13_methods_agree_with_determinism.

(* ---- the ordering of the method lists (package.go:146-157, repair 50ddee1; [sort_methods], [new_pkg_tables]) ----
   [fill_tables] is the loop up to line 144: its MethodsOf answers in the order of the range over Defs, the code
   answers in position order.  [new_pkg_tables fx pos defs] = the loop, then every method list ordered by [pos] (the
   rank of (file name, offset)); Corr/C13.v compares MethodsOf with it IN ORDER. *)

(* the name tables are those of the loop: every theorem above speaks about new_pkg_tables as well *)
Theorem C13_new_pkg_tables_names :
  forall fx pos defs k n, lookup k n (new_pkg_tables fx pos defs) = lookup k n (fill_tables fx defs).
Proof. reflexivity. Qed.
Print Assumptions C13_new_pkg_tables_names.

(* MethodsOf(n, true) of the current code: the methods declared on n's origin, in position order ... *)
Theorem C13_methods_sorted_spec :
  forall (pos : obj -> N) defs pi n,
    Permutation pi defs ->
    Permutation (methods_of all_fixed (new_pkg_tables all_fixed pos pi) n true) (filter (declared_on (n_origin n)) defs)
    /\ StronglySorted (fun a b => N.leb (pos a) (pos b) = true) (methods_of all_fixed (new_pkg_tables all_fixed pos pi) n true).
Proof. exact Gengo.Props.Tables.Tables_sorted_methods_spec. Qed.
Print Assumptions C13_methods_sorted_spec.

(* ... the same LIST for every order in which Defs is ranged over (distinct positions), value receivers or all *)
Theorem C13_methods_sorted_order_independent :
  forall (pos : obj -> N) defs p1 p2 n ptr,
    Permutation p1 defs -> Permutation p2 defs ->
    NoDup (map pos (T.meths_of defs)) ->
    methods_of all_fixed (new_pkg_tables all_fixed pos p1) n ptr = methods_of all_fixed (new_pkg_tables all_fixed pos p2) n ptr.
Proof. exact Gengo.Props.Tables.Tables_sorted_methods_order_independent. Qed.
Print Assumptions C13_methods_sorted_order_independent.

(* ... and equal to Determinism's MethodsOf (positions = object identities there) *)
Theorem C13_methods_sorted_agree_with_determinism :
  forall (o : Determinism.oracle) p ptr os n,
    Determinism.shuffles o ->
    NoDup (map Determinism.m_pos (Determinism.pk_meths p)) ->
    Permutation (T.meths_of os) (map (T.u_of_meth ptr) (Determinism.pk_meths p)) ->
    map o_name (methods_of all_fixed (new_pkg_tables all_fixed o_id os) n true)
    = Determinism.methods_of true o p (n_origin n).
Proof. exact Gengo.Props.Tables.Tables_methods_sorted_agree. Qed.
Print Assumptions C13_methods_sorted_agree_with_determinism.

(* before the repair the answer depended on the order of Defs *)
Theorem C13_methods_order_dependent_before_fix :
  exists defs p1 p2 n,
    Permutation p1 defs /\ Permutation p2 defs
    /\ methods_of all_fixed (fill_tables all_fixed p1) n true <> methods_of all_fixed (fill_tables all_fixed p2) n true.
Proof.
  exists [ex_P; ex_V], [ex_P; ex_V], [ex_V; ex_P], (mk_nref 99 10).
  split; [apply Permutation_refl|]. split; [apply perm_swap|]. vm_compute. discriminate.
Qed.
Print Assumptions C13_methods_order_dependent_before_fix.

Example C13_example_methods_sorted :
  map o_id (methods_of all_fixed (new_pkg_tables all_fixed o_id (rev ex_pkg)) (mk_nref 99 10) true) = [4; 5]%N
  /\ map o_id (methods_of all_fixed (new_pkg_tables all_fixed o_id ex_pkg) (mk_nref 99 10) true) = [4; 5]%N
  /\ map o_id (methods_of all_fixed (new_pkg_tables all_fixed o_id (rev ex_pkg)) (mk_nref 99 10) false) = [5]%N.
Proof. vm_compute. repeat split; reflexivity. Qed.
