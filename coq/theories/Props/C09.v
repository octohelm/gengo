(* C09 — Snippet templating is faithful substitution.
   Statements; the lemmas behind them are in Proofs/Snippet.v (for the RenderStack part at the end: in
   Proofs/RenderStackSnippet.v and Proofs/RenderStack.v), the witnesses are evaluated here.

   Reading guide.  [tpl_impl fx args f], [sp_impl fx f args], [frag fx s], [render fx s]
   (Model/Snippet.v) follow the Go loops of pkg/gengo/snippet; [all_fixed] is the code with
   fixes/C09-*.diff applied, [none_fixed] the code before.  The specification
   (Model/SnippetSpec.v) is "tokenise, then substitute": [Tokens s ts] says that the token list
   [ts] is the reading of the text [s] (four clauses, no loop), [subst] replaces every hole by the
   complete rendering of its argument.  [sc_view] is what the repaired code gets out of
   text/scanner for a format (ill-formed bytes replaced; the one leading U+FEFF the scanner drops
   is the one the code puts in front, fixes/C09-5-leading-bom.diff); it is the identity on the
   property's domain (well-formed UTF-8).  [sc_raw] is text/scanner on the format alone, which
   the code before that repair used ([sc_in fx]). *)
Require Import Gengo.Base.Bytes Gengo.Model.Snippet Gengo.Model.SnippetSpec Gengo.Proofs.Snippet.

(* ---- the template language: every text has exactly one reading, and [tokenize] computes it ---- *)

(* every character is accounted for, in order *)
Theorem C09_tokenize_lossless : forall s, untok (tokenize s) = s.
Proof. intros s. apply tokenize_tokens. Qed.
Print Assumptions C09_tokenize_lossless.

(* hole names are non-empty maximal runs of [A-Za-z0-9_]; no literal '@' is followed by a name
   character; an apostrophe directly after a hole belongs to the hole *)
Theorem C09_tokenize_maximal : forall s, wf_toks (tokenize s) = true.
Proof. intros s. apply tokenize_tokens. Qed.
Print Assumptions C09_tokenize_maximal.

Theorem C09_tokens_unique : forall s ts, Tokens s ts -> ts = tokenize s.
Proof. exact tokens_unique. Qed.
Print Assumptions C09_tokens_unique.

(* ---- T ---- *)

(* For ALL formats and ALL bindings the scanner loop renders exactly the substitution into the
   reading of the format without its leading newlines, as text/scanner presents it.  Contained in
   this equation: leading newlines stripped; a hole is replaced by the complete rendering of its
   argument, by nothing if that is nil (Go-nil or IsNil()); one apostrophe after a hole is
   consumed, also after a nil argument; every other character, a bare '@' included, is kept in
   order; argument text enters only through [piece], so it is never re-read as template syntax;
   an argument that panics, panics. *)
Theorem C09_template :
  forall (args : list (bytes * aview)) (f : bytes) (ts : list tok),
    Tokens (sc_view (trim_nl f)) ts ->
    tpl_impl all_fixed args f = subst args ts.
Proof. intros args f ts. exact (scan_toks args _ ts). Qed.
Print Assumptions C09_template.

(* On the property's domain — the format is well-formed UTF-8 (Unicode table 3-7) — text/scanner,
   used this way, is transparent: a leading U+FEFF is a character like any other. *)
Theorem C09_template_faithful :
  forall args f ts,
    utf8 (trim_nl f) ->
    Tokens (trim_nl f) ts ->
    tpl_impl all_fixed args f = subst args ts.
Proof.
  intros args f ts Hu H. apply C09_template. rewrite (sc_view_id _ (utf8_utf8b _ Hu)). exact H.
Qed.
Print Assumptions C09_template_faithful.

(* a placeholder with no bound argument panics, wherever it stands and whatever else is bound *)
Theorem C09_missing_panics :
  forall args f n a,
    In (Hole n a) (tokenize (sc_view (trim_nl f))) -> lookup n args = None ->
    is_ok (tpl_impl all_fixed args f) = false.
Proof. intros args f n a Hin Hl. rewrite tpl_spec. exact (subst_missing args _ n a Hin Hl). Qed.
Print Assumptions C09_missing_panics.

(* ---- Sprintf ---- *)

(* %v = the argument's value literal, %T = its identifier/type, a nested snippet = itself, %% = '%',
   everything else verbatim; arguments consumed left to right *)
Theorem C09_sprintf :
  forall f (args : list sview), sp_impl all_fixed f args = ssubst (stokenize (sc_view f)) args.
Proof. exact sp_spec. Qed.
Print Assumptions C09_sprintf.

Theorem C09_sprintf_tokens :
  forall s, suntok (stokenize s) = s /\ swf (stokenize s) = true /\
            (forall ts, swf ts = true -> suntok ts = s -> ts = stokenize s).
Proof.
  intros s. destruct (stok_tokens s) as [H H']. split; [exact H|]. split; [exact H'|].
  intros ts H1 H2. subst s. symmetry. apply stok_unique. exact H1.
Qed.
Print Assumptions C09_sprintf_tokens.

(* any other verb (a '%' at the very end included), or fewer arguments than verbs: no output *)
Theorem C09_sprintf_panics :
  forall f (args : list sview),
    (exists c, In (KBad c) (stokenize (sc_view f))) \/ length args < verbs (stokenize (sc_view f)) ->
    is_ok (sp_impl all_fixed f args) = false.
Proof.
  intros f args [[c H]|H]; rewrite sp_spec; [exact (ssubst_bad _ c args H) | exact (ssubst_missing _ args H)].
Qed.
Print Assumptions C09_sprintf_panics.

(* ---- Comment, GoDirective, Snippets, Fragments ---- *)

Theorem C09_comment : forall v, comment_impl v = comment_spec v.
Proof. exact comment_impl_spec. Qed.
Print Assumptions C09_comment.

(* each line of the text is rendered as one "// " line *)
Theorem C09_comment_lines :
  forall v, v <> [] -> split_nl (comment_impl v) = map (app slashes) (split_nl v).
Proof.
  intros v Hv. rewrite comment_impl_spec. unfold comment_spec.
  destruct v as [|c v]; [congruence|]. cbn [is_nil].
  apply split_join_nl.
  - pose proof (split_nl_nonempty (c :: v)). destruct (split_nl (c :: v)); [congruence | cbn; discriminate].
  - apply no_nl_map_slashes, split_nl_no_nl.
Qed.
Print Assumptions C09_comment_lines.

Theorem C09_directive : forall d args, directive_impl d args = directive_spec d args.
Proof. exact directive_impl_spec. Qed.
Print Assumptions C09_directive.

(* the non-nil parts (Go-nil and IsNil() both count as nil), in order *)
Theorem C09_snippets :
  forall l, frag all_fixed (SSnippets l)
            = cat_res (map (frag all_fixed) (filter (fun c => negb (isnil_of c)) l)).
Proof. intros l. cbn [frag]. rewrite snippets_loop_fixed. apply cat_res_filter. Qed.
Print Assumptions C09_snippets.

Theorem C09_fragments :
  forall x, frag all_fixed (SFragments x) = if isnil_of x then Ok [] else frag all_fixed x.
Proof. intros x. cbn [frag]. rewrite is_nil_call_fixed. reflexivity. Qed.
Print Assumptions C09_fragments.

(* ---- the whole vocabulary, nested to any depth ---- *)

(* the model of the repaired code = the specification read through text/scanner, for every term *)
Theorem C09_render_model :
  forall s, render all_fixed s = spec_render sc_view Panic s.
Proof. exact render_spec. Qed.
Print Assumptions C09_render_model.

(* the property, on its domain: every format in the term is well-formed UTF-8 ([fmts_utf8], what the
   correspondence check tests before it evaluates the predicate) and every plain %v argument has a
   value literal (what Value(x) renders to is data here; it has none only if the dumper panics — C10).
   No guard about U+FEFF: a format may start with it (after fixes/C09-5-leading-bom.diff).
   [spec_render same OutOfFuel] is the predicate the correspondence check evaluates on the
   implementation's output. *)
Theorem C09_render :
  forall s, fmts_utf8 s = true -> cls_nolit s = false ->
            render all_fixed s = spec_render same OutOfFuel s.
Proof. exact render_dom. Qed.
Print Assumptions C09_render.

(* the model has no fuel: it always answers Ok or Panic *)
Theorem C09_render_defined : forall s, render all_fixed s <> OutOfFuel.
Proof.
  intros s H. rewrite render_spec in H. unfold spec_render in H.
  destruct (isnil_of s); [discriminate|]. pose proof (spec_frag_defined sc_view s) as D.
  rewrite H in D. discriminate.
Qed.
Print Assumptions C09_render_defined.

(* text/scanner with a byte order mark of the code's own in front is the identity on well-formed UTF-8 *)
Theorem C09_scanner_transparent :
  forall f, utf8 f -> sc_view f = f.
Proof. intros f Hu. apply sc_view_id, utf8_utf8b, Hu. Qed.
Print Assumptions C09_scanner_transparent.

(* [utf8b] (used in [fmts_utf8]) decides well-formedness as the Unicode standard states it (table 3-7) *)
Theorem C09_utf8_decided : forall s, utf8b s = true <-> utf8 s.
Proof. intros s. split; [exact (utf8_go_utf8 s 0) | apply utf8_utf8b]. Qed.
Print Assumptions C09_utf8_decided.

(* ---- the code before the repairs (fixes/C09-*.diff), kept checkable ---- *)

(* "%%" re-read the second '%': Sprintf("100%%") panicked, Sprintf("a%%v", 1) rendered a%1 *)
Theorem C09_sprintf_percent_refuted_before_fix :
  sp_impl none_fixed (bs "100%%") [] = Panic /\
  sp_impl none_fixed (bs "a%%v") [SVRaw (Ok (bs "1")) Panic] = Ok (bs "a%1") /\
  ssubst (stokenize (bs "100%%")) [] = Ok (bs "100%") /\
  ssubst (stokenize (bs "a%%v")) [SVRaw (Ok (bs "1")) Panic] = Ok (bs "a%v").
Proof. repeat split; vm_compute; reflexivity. Qed.
Print Assumptions C09_sprintf_percent_refuted_before_fix.

(* the apostrophe after a placeholder bound to a nil argument was kept *)
Theorem C09_template_nil_delimiter_refuted_before_fix :
  tpl_impl none_fixed [(bs "x", Bk "")] (bs "a@x'b") = Ok (bs "a'b") /\
  subst [(bs "x", Bk "")] (tokenize (bs "a@x'b")) = Ok (bs "ab").
Proof. split; vm_compute; reflexivity. Qed.
Print Assumptions C09_template_nil_delimiter_refuted_before_fix.

(* a Go-nil Snippet bound to a name, or inside Snippets / Fragments, was dereferenced *)
Theorem C09_nil_interface_refuted_before_fix :
  tpl_impl none_fixed [(bs "x", AVNil)] (bs "a@x") = Panic /\
  subst [(bs "x", AVNil)] (tokenize (bs "a@x")) = Ok (bs "a") /\
  render none_fixed (SSnippets [SBlock (bs "a"); SNil; SBlock (bs "b")]) = Panic /\
  render none_fixed (SFragments SNil) = Panic /\
  spec_render same OutOfFuel (SSnippets [SBlock (bs "a"); SNil; SBlock (bs "b")]) = Ok (bs "ab").
Proof. repeat split; vm_compute; reflexivity. Qed.
Print Assumptions C09_nil_interface_refuted_before_fix.

(* an '@' that starts no name was dropped (with a following apostrophe) *)
Theorem C09_bare_at_refuted_before_fix :
  tpl_impl none_fixed [] (bs "a@ b") = Ok (bs "a b") /\
  tpl_impl none_fixed [] (bs "a@") = Ok (bs "a") /\
  tpl_impl none_fixed [(bs "x", Bk "X")] (bs "@@x") = Ok (bs "X") /\
  tpl_impl none_fixed [] (bs "a@'b") = Ok (bs "ab") /\
  subst [] (tokenize (bs "a@ b")) = Ok (bs "a@ b") /\
  subst [(bs "x", Bk "X")] (tokenize (bs "@@x")) = Ok (bs "@X") /\
  subst [] (tokenize (bs "a@'b")) = Ok (bs "a@'b").
Proof. repeat split; vm_compute; reflexivity. Qed.
Print Assumptions C09_bare_at_refuted_before_fix.

(* [before_bom_fix] = every repair but fixes/C09-5-leading-bom.diff: a well-formed format that starts with U+FEFF
   (for T also after a leading newline) lost that character, in T and in Sprintf; the repaired code keeps it *)
Theorem C09_template_refuted_before_fix :
  exists f, utf8b f = true /\
    tpl_impl before_bom_fix [] f <> subst [] (tokenize (trim_nl f)) /\
    sp_impl before_bom_fix f [] <> ssubst (stokenize f) [] /\
    tpl_impl before_bom_fix [] (c_nl :: f) <> subst [] (tokenize (trim_nl (c_nl :: f))) /\
    tpl_impl all_fixed [] f = subst [] (tokenize (trim_nl f)) /\
    sp_impl all_fixed f [] = ssubst (stokenize f) [].
Proof. exists (bom ++ bs "a"). repeat split; vm_compute; (reflexivity || discriminate). Qed.
Print Assumptions C09_template_refuted_before_fix.

(* ---- recorded finding (known_findings.d/C09.json): the remaining guard of C09_render cannot be dropped ---- *)

(* Sprintf("%v", nil) on the dumper before fixes/C10-5-untyped-nil.diff: Value(nil) panicked *)
Theorem C09_sprintf_refuted_nil_value :
  exists s, fmts_utf8 s = true /\ render all_fixed s = Panic /\ spec_render same OutOfFuel s = OutOfFuel.
Proof. exists (SSprintf (bs "%v") [SVal None None]). repeat split; vm_compute; reflexivity. Qed.
Print Assumptions C09_sprintf_refuted_nil_value.

(* ---- non-vacuity ---- *)

Example C09_example_tokens :
  tokenize (bs "f(@x'y, @@z_1) it's") =
  [Lit "f"; Lit "("; Hole (bs "x") true; Lit "y"; Lit ","; Lit " "; Lit "@"; Hole (bs "z_1") false;
   Lit ")"; Lit " "; Lit "i"; Lit "t"; Lit "'"; Lit "s"]%char.
Proof. vm_compute. reflexivity. Qed.

(* nested template, nil argument followed by the delimiter, placeholder-looking argument text *)
Example C09_example_render :
  render all_fixed
    (ST (bs "
a@x'b @y@z'.")
        [(bs "x", SBlock (bs "")); (bs "y", ST (bs "<@w>") [(bs "w", SBlock (bs "@x%v'"))]); (bs "z", SNil)])
  = Ok (bs "ab <@x%v'>.").
Proof. vm_compute. reflexivity. Qed.

Example C09_example_domain :
  fmts_utf8 (ST (bs "a@x") [(bs "x", SSprintf (bs "%v%%") [SVal (Some (bs "1")) None])]) = true /\
  cls_nolit (ST (bs "a@x") [(bs "x", SSprintf (bs "%v%%") [SVal (Some (bs "1")) None])]) = false /\
  render all_fixed (ST (bs "a@x") [(bs "x", SSprintf (bs "%v%%") [SVal (Some (bs "1")) None])]) = Ok (bs "a1%").
Proof. repeat split; vm_compute; reflexivity. Qed.

(* formats that start with U+FEFF are inside C09_render's domain: after leading newlines, twice, in Sprintf *)
Example C09_example_bom :
  let t := ST (c_nl :: c_nl :: bom ++ bom ++ bs "a@x" ++ bom)
              [(bs "x", SSprintf (bom ++ bs "%v") [SVal (Some (bs "1")) None])] in
  fmts_utf8 t = true /\ cls_bom t = true /\ cls_nolit t = false /\
  render all_fixed t = Ok (bom ++ bom ++ bs "a" ++ bom ++ bs "1" ++ bom) /\
  render before_bom_fix t = Ok (bom ++ bs "a" ++ bs "1" ++ bom).
Proof. repeat split; vm_compute; reflexivity. Qed.

Example C09_example_utf8 : utf8 (bs "é@x") .
Proof.
  apply (U2 (ascii_of_N 195) (ascii_of_N 169)); [reflexivity|].
  apply U1; [reflexivity|]. apply U1; [reflexivity|]. apply U0.
Qed.

(* RenderStack: the "observed data" is no longer an assumption.
   [crender] (Model/RenderStack.v) renders a term whose Value / ID / PkgExpose leaves and plain Sprintf arguments are
   STRUCTURED — values of C10's universe rendered by C10's [value_lit] / [print_lit], types and references rendered by
   C11's [ident_frag] with C15's [parse_type_ref] — through C03's tracker ([pick_c03 pre std]: any refused-name list,
   any reserved table), threading the tracker state through the scanner loops of this file in the order the code
   renders the arguments.  [cerase tbl s] is the term of THIS file's vocabulary in which every leaf is replaced by what
   the component model renders it to in the tracker state [tbl].
   Theorem: the composed rendering writes what [render all_fixed] (hence, on the domain, the specification) gives for
   [cerase e' s] with e' the FINAL tracker state — or any later state: a leaf renders the same text in every state
   after the one it was first rendered in (C03: a name, once handed out, never changes). *)
Require Import Gengo.Model.RenderStack Gengo.Proofs.RenderStackTracker Gengo.Proofs.RenderStackSnippet
               Gengo.Proofs.RenderStackLeaves Gengo.Proofs.RenderStack.
Require Gengo.Model.ValueLit Gengo.Model.ValueLitInst.

(* the state-threading template scanner is tokenise-then-substitute with state (any state type, any arguments) *)
Theorem C09_stateful_template :
  forall (St : Type) (args : list (bytes * aview_st St)) (f : bytes) (e : St),
    tpl_st St args f e = subst_st St args (tokenize (sc_view (trim_nl f))) e.
Proof. exact tpl_st_spec. Qed.
Print Assumptions C09_stateful_template.

Theorem C09_stateful_sprintf :
  forall (St : Type) (f : bytes) (args : list (sview_st St)) (e : St),
    sp_st St f args e = ssubst_st St (stokenize (sc_view f)) args e.
Proof. exact sp_st_spec. Qed.
Print Assumptions C09_stateful_sprintf.

Theorem C09_composed_render :
  forall (F : Type) (fzero : F -> bool) (ffmt gfmt : VL.fkind -> F -> bytes) (fbig : F -> bool)
         (quote : bytes -> bytes) (cbq : bytes -> bool) (pre : list bytes) (std : option Tk.tracker)
         (self : bytes) (fx6 : bool) (s : @csnip F) (e : TL.renv) (out : bytes) (e' : TL.renv),
    crender fzero ffmt gfmt fbig quote cbq (pick_c03 pre std) self fx6 s e = Ok (out, e') ->
    ext e e' /\
    forall e2, ext e' e2 ->
      crender fzero ffmt gfmt fbig quote cbq (pick_c03 pre std) self fx6 s e2 = Ok (out, e2) /\
      render all_fixed (cerase fzero ffmt gfmt fbig quote cbq (pick_c03 pre std) self fx6 e2 s) = Ok out.
Proof. exact @crender_erase. Qed.
Print Assumptions C09_composed_render.

(* ... and on the property's domain (formats well-formed UTF-8, every plain %v argument has a literal) that is the
   specification of this file *)
Theorem C09_composed_spec :
  forall (F : Type) (fzero : F -> bool) (ffmt gfmt : VL.fkind -> F -> bytes) (fbig : F -> bool)
         (quote : bytes -> bytes) (cbq : bytes -> bool) (pre : list bytes) (std : option Tk.tracker)
         (self : bytes) (fx6 : bool) (s : @csnip F) (e : TL.renv) (out : bytes) (e' : TL.renv),
    crender fzero ffmt gfmt fbig quote cbq (pick_c03 pre std) self fx6 s e = Ok (out, e') ->
    let t := cerase fzero ffmt gfmt fbig quote cbq (pick_c03 pre std) self fx6 e' s in
    fmts_utf8 t = true -> cls_nolit t = false ->
    spec_render same OutOfFuel t = Ok out.
Proof. exact @crender_spec. Qed.
Print Assumptions C09_composed_spec.

(* non-vacuity, with the tracker of the current tree: a bound argument that no placeholder mentions registers nothing,
   one mentioned twice is rendered twice; clashing packages are named in the order of rendering *)
Local Open Scope string_scope.
Definition ex_id (s : string) : @csnip unit := RLeaf _ _ (@LID unit (Some (TL.IdStr (bs s)))).
Definition ex_crender (s : @csnip unit) :=
  match crender (fun _ => true) (fun _ _ => []) (fun _ _ => []) (fun _ => false) (fun s => s) (fun _ => true)
          the_pick (bs "example.com/x") true s [] with
  | Ok (out, e') => Some (to_string out, map (fun p => (to_string (fst p), to_string (snd p))) e')
  | _ => None
  end.

Example C09_example_composed :
  ex_crender (RT _ _ (bs "@x @x") [(bs "x", ex_id "a.com/b.T"); (bs "y", ex_id "a.com/c.T")])
  = Some ("b.T b.T", [("a.com/b", "b")])
  /\ ex_crender (RT _ _ (bs "@y @x @y") [(bs "x", ex_id "a.com/foo-bar.T"); (bs "y", ex_id "b.org/foo_bar.X[a.com/foo-bar.T,example.com/x.Own]")])
  = Some ("borgfoobar.X[foobar.T,Own] foobar.T borgfoobar.X[foobar.T,Own]", [("a.com/foo-bar", "foobar"); ("b.org/foo_bar", "borgfoobar")]).
Proof. vm_compute. split; reflexivity. Qed.
