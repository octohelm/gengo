(* Tables — the loader / tags / docs models are models of ONE system (notes/Tables.md).
   Statements; the proofs are in Proofs/TablesA.v (part A) and Proofs/TablesB.v (parts B and C) and are quoted here by
   [exact] (Tables_tags_of_lines puts three lemmas side by side); the Examples at the end are evaluated in place.
   Most theorems here are re-stated in the Props file of the property they strengthen (C13, C06, C04, C12, C16), so
   `bin/check` of those properties builds this file and checks the assumptions.

   A. newPkg's loop over TypesInfo.Defs is modelled three times (Model/Universe.v for C13, Model/Dispatch.v for C06,
      Model/Determinism.v for C04).  [u_of_disp] / [u_of_det] / [u_of_meth] (Model/Tables.v) describe Dispatch's and
      Determinism's entries as Universe's objects; [types_of os] / [meths_of os] are the *types.TypeName / method
      entries of a Universe Defs list (which may hold objects of every other kind anywhere).
   B. C12's ExtractCommentTags / Package.Doc feed C06's merge / IsGeneratorEnabled.
   C. C12's Package.Doc feeds C16's Context.Doc / runtimedoc generator. *)
Require Import Gengo.Base.Bytes Gengo.Model.Tables.
From Coq Require Import ZArith Permutation Sorted.
Require Import Gengo.Proofs.TablesA Gengo.Proofs.TablesB.

(* ================================================================================================ *)
(* A                                                                                                 *)

(* Same order of Defs: the type table of Universe and of Dispatch is the same association list (name -> object
   identity), entry by entry — with or without the scope repair, no hypothesis on names. *)
Theorem Tables_universe_dispatch_same_table :
  forall fx os ds,
    types_of os = map u_of_disp ds ->
    U.t_types (U.fill_tables fx os) = disp_view (D.type_table (U.fx_scope fx) ds).
Proof. exact universe_dispatch_same_order. Qed.
Print Assumptions Tables_universe_dispatch_same_table.

(* EVERY Defs list of Universe and EVERY Defs list of Dispatch that describe the same *types.TypeName objects, in
   ANY two orders: the same set of package-level type names, and the same lookup function at every name the
   package scope holds once ([unique_at]: the go/types fact C13's theorems assume). *)
Theorem Tables_universe_is_dispatch :
  forall os ds,
    Permutation (types_of os) (map u_of_disp ds) ->
    (forall n, In n (map fst (U.t_types (U.fill_tables U.all_fixed os))) <-> In n (D.keys (D.type_table true ds)))
    /\ (forall n, UP.unique_at os U.KType n ->
          U.lookup U.KType n (U.fill_tables U.all_fixed os) = option_map D.td_id (D.lookup n (D.type_table true ds))).
Proof. exact universe_is_dispatch. Qed.
Print Assumptions Tables_universe_is_dispatch.

(* ... and Determinism's table under EVERY behaviour of the runtime at its range over Defs *)
Theorem Tables_universe_is_determinism :
  forall (o : Det.oracle) p os,
    Det.shuffles o ->
    Permutation (types_of os) (map u_of_det (Det.pk_defs p)) ->
    (forall n, In n (map fst (U.t_types (U.fill_tables U.all_fixed os))) <-> In n (Det.keys (Det.type_table true o p)))
    /\ (forall n, UP.unique_at os U.KType n ->
          U.lookup U.KType n (U.fill_tables U.all_fixed os)
          = option_map Det.td_uid (Det.lookup n (Det.type_table true o p))).
Proof. exact universe_is_determinism. Qed.
Print Assumptions Tables_universe_is_determinism.

(* ... hence Dispatch = Determinism *)
Theorem Tables_dispatch_is_determinism :
  forall (o : Det.oracle) p ds,
    Det.shuffles o ->
    Permutation (map u_of_disp ds) (map u_of_det (Det.pk_defs p)) ->
    NoDup (map D.td_name (filter D.td_pkgscope ds)) ->
    (forall n, In n (D.keys (D.type_table true ds)) <-> In n (Det.keys (Det.type_table true o p)))
    /\ (forall n, option_map D.td_id (D.lookup n (D.type_table true ds))
                  = option_map Det.td_uid (Det.lookup n (Det.type_table true o p))).
Proof. exact dispatch_is_determinism. Qed.
Print Assumptions Tables_dispatch_is_determinism.

(* Methods.  Determinism's methods_of (before and after repair 50ddee1, any oracle) lists the names of exactly the
   methods Universe's MethodsOf(n, true) returns, for every *types.Named n whose origin is the receiver — up to the
   permutation C13_methods states ([U.fill_tables] is the loop of package.go:116-144 alone). *)
Theorem Tables_methods_agree :
  forall fm (o : Det.oracle) p ptr os n,
    Det.shuffles o ->
    Permutation (meths_of os) (map (u_of_meth ptr) (Det.pk_meths p)) ->
    Permutation (map U.o_name (U.methods_of U.all_fixed (U.fill_tables U.all_fixed os) n true))
                (Det.methods_of fm o p (U.n_origin n)).
Proof. exact methods_agree. Qed.
Print Assumptions Tables_methods_agree.

Theorem Tables_methods_agree_value :
  forall p ptr os n,
    Permutation (meths_of os) (map (u_of_meth ptr) (Det.pk_meths p)) ->
    Permutation (map U.o_name (U.methods_of U.all_fixed (U.fill_tables U.all_fixed os) n false))
                (map Det.m_name (filter (fun m => N.eqb (Det.m_recv m) (U.n_origin n) && negb (ptr m)) (Det.pk_meths p))).
Proof. exact methods_agree_value. Qed.
Print Assumptions Tables_methods_agree_value.

(* On the tables newPkg leaves behind ([sorted_methods_of pos t] = MethodsOf on [U.sort_methods pos t]: the loop, then
   the ordering of package.go:146-157 by position) the two are EQUAL (distinct positions). *)
Theorem Tables_methods_sorted_agree :
  forall (o : Det.oracle) p ptr os n,
    Det.shuffles o ->
    NoDup (map Det.m_pos (Det.pk_meths p)) ->
    Permutation (meths_of os) (map (u_of_meth ptr) (Det.pk_meths p)) ->
    map U.o_name (sorted_methods_of U.o_id (U.fill_tables U.all_fixed os) n true)
    = Det.methods_of true o p (U.n_origin n).
Proof. exact methods_sorted_agree. Qed.
Print Assumptions Tables_methods_sorted_agree.

(* In Universe's own terms: MethodsOf of the current code (table + ordering) is the sorted list of the methods
   declared on the origin, whatever the order of Defs. *)
Theorem Tables_sorted_methods_order_independent :
  forall (pos : U.obj -> N) defs p1 p2 n ptr,
    Permutation p1 defs -> Permutation p2 defs ->
    NoDup (map pos (meths_of defs)) ->
    sorted_methods_of pos (U.fill_tables U.all_fixed p1) n ptr = sorted_methods_of pos (U.fill_tables U.all_fixed p2) n ptr.
Proof. exact sorted_methods_order_independent. Qed.
Print Assumptions Tables_sorted_methods_order_independent.

Theorem Tables_sorted_methods_spec :
  forall (pos : U.obj -> N) defs pi n,
    Permutation pi defs ->
    Permutation (sorted_methods_of pos (U.fill_tables U.all_fixed pi) n true) (filter (UP.declared_on (U.n_origin n)) defs)
    /\ StronglySorted (fun a b => N.leb (pos a) (pos b) = true) (sorted_methods_of pos (U.fill_tables U.all_fixed pi) n true).
Proof. exact sorted_methods_spec. Qed.
Print Assumptions Tables_sorted_methods_spec.

(* Corollary for C06: exactly-once speaks about exactly the types C13's Types() theorems characterise.  Every call is
   for an entry of Universe's type table (name -> that very object), and every entry of the table (package scope,
   hence not blank, not local, not a type parameter: C13_tables_only_package_scope) is called exactly as the rule says. *)
Theorem Tables_exactly_once_on_universe_types :
  forall g G P defs pi ns os,
    NoDup (D.keys G) -> NoDup (D.keys P) ->
    (forall d, In d defs -> NoDup (D.keys (D.td_tags d))) ->
    NoDup (map D.td_name (filter D.td_pkgscope defs)) ->
    Permutation pi defs ->
    Permutation ns (D.keys (D.type_table true pi)) ->
    (forall d, In d defs -> D.td_action d <> D.AErr) ->
    Permutation (types_of os) (map u_of_disp defs) ->
    let T := U.fill_tables U.all_fixed os in
    exists cs,
      D.do_generate g G P (D.type_table true pi) ns = Ok (cs, false)
      /\ NoDup cs
      /\ (forall k d, In (k, d) cs -> In d defs /\ U.lookup U.KType (D.td_name d) T = Some (D.td_id d))
      /\ (forall n x, U.lookup U.KType n T = Some x ->
            exists d, In d defs /\ D.td_name d = n /\ D.td_id d = x
                      /\ forall k, In (k, d) cs <->
                           DP.enabled_eff_spec (D.g_name g) G P (D.td_tags d) = true
                           /\ ((k = D.CT /\ D.td_kind d = D.KNamed)
                               \/ (k = D.CA /\ D.td_kind d = D.KAlias /\ D.g_alias g = true))).
Proof. exact exactly_once_on_universe_types. Qed.
Print Assumptions Tables_exactly_once_on_universe_types.

Theorem Tables_universe_types_are_dispatch_decls :
  forall os ds,
    Permutation (types_of os) (map u_of_disp ds) ->
    NoDup (map D.td_name (filter D.td_pkgscope ds)) ->
    forall n x,
      U.lookup U.KType n (U.fill_tables U.all_fixed os) = Some x
      <-> exists d, In d ds /\ D.td_pkgscope d = true /\ D.td_name d = n /\ D.td_id d = x.
Proof. exact universe_types_are_disp_decls. Qed.
Print Assumptions Tables_universe_types_are_dispatch_decls.

(* Corollaries for C04: the order-independence of its type table and of its method lists are instances of the
   theorems about Universe (proved THROUGH the adapters from C13_tables_order_independent / the method table). *)
Theorem Tables_determinism_table_order_independent :
  forall (o1 o2 : Det.oracle) p,
    Det.shuffles o1 -> Det.shuffles o2 ->
    NoDup (map Det.td_name (filter Det.td_pkgscope (Det.pk_defs p))) ->
    forall n, option_map Det.td_uid (Det.lookup n (Det.type_table true o1 p))
              = option_map Det.td_uid (Det.lookup n (Det.type_table true o2 p)).
Proof. exact det_table_order_independent_from_universe. Qed.
Print Assumptions Tables_determinism_table_order_independent.

Theorem Tables_determinism_methods_order_independent :
  forall (o1 o2 : Det.oracle) p uid,
    Det.shuffles o1 -> Det.shuffles o2 ->
    NoDup (map Det.m_pos (Det.pk_meths p)) ->
    Det.methods_of true o1 p uid = Det.methods_of true o2 p uid.
Proof. exact det_methods_order_independent_from_universe. Qed.
Print Assumptions Tables_determinism_methods_order_independent.

(* ================================================================================================ *)
(* B                                                                                                 *)

(* One level: the tag map ExtractCommentTags builds from a list of lines, read with C06's lookup, is "the values of
   the tag lines with that key"; its keys are the keys of the tag lines; it is a map. *)
Theorem Tables_tags_of_lines :
  forall lines,
    (forall k, D.lookup k (tags_of_lines lines) = line_value lines k)
    /\ (forall k, In k (D.keys (tags_of_lines lines)) <-> In k (CS.spec_keys ms0 lines))
    /\ NoDup (D.keys (tags_of_lines lines)).
Proof.
  intros lines. exact (conj (tags_of_lines_lookup lines) (conj (tags_of_lines_keys lines) (tags_of_lines_nodup lines))).
Qed.
Print Assumptions Tables_tags_of_lines.

(* The rule on comment lines: for ALL global tags, all package doc line lists, all declaration doc line lists. *)
Theorem Tables_enabled_lines_rule :
  forall g G pkgdocs lines,
    NoDup (D.keys G) ->
    enabled_from_lines g G (D.pkg_tags (map tags_of_lines pkgdocs)) lines = source_rule g G pkgdocs lines.
Proof. exact enabled_lines_rule. Qed.
Print Assumptions Tables_enabled_lines_rule.

(* End to end, for all layouts satisfying C12's well-formedness: IsGeneratorEnabled(g, Context.Doc(typ)) for a
   declaration d, asked at d's line, is [source_rule] on the lines of the stand-alone comment group that ends on the
   line above d (tag lines: `+gengo:g`, `+gengo:g=false`, `+gengo:g:sub` ...), the package doc lines, the globals. *)
Theorem Tables_enabled_from_source :
  forall g G docs evs leads d,
    NoDup (D.keys G) -> CS.wf evs leads -> In d (CS.decls_of evs) ->
    enabled_from_source g G docs evs (Cm.p_file (Cm.d_pos d)) (Cm.p_line (Cm.d_pos d))
    = source_rule g G (map Cm.split_nl docs)
                  (CS.doc_lines_above leads (Cm.p_file (Cm.d_pos d)) (Cm.p_line (Cm.d_pos d))).
Proof. exact enabled_from_source_rule. Qed.
Print Assumptions Tables_enabled_from_source.

(* Context.Doc asks at the position of the NAME: the same for every name of d — side condition: C12's known finding
   (a name on a continuation line) is absent.  For a type declaration the name IS the start of the TypeSpec. *)
Theorem Tables_enabled_from_source_names :
  forall g G docs evs leads d l,
    NoDup (D.keys G) -> CS.wf evs leads -> CS.name_on_continuation_line evs = false ->
    In d (CS.decls_of evs) -> In l (Cm.d_names d) ->
    enabled_from_source g G docs evs (Cm.p_file (Cm.d_pos d)) l
    = source_rule g G (map Cm.split_nl docs)
                  (CS.doc_lines_above leads (Cm.p_file (Cm.d_pos d)) (Cm.p_line (Cm.d_pos d))).
Proof. exact enabled_from_source_rule_names. Qed.
Print Assumptions Tables_enabled_from_source_names.

(* ... and the side condition cannot be dropped *)
Theorem Tables_enabled_from_source_names_refuted :
  exists g G docs evs leads d l,
    NoDup (D.keys G) /\ CS.wf evs leads /\ In d (CS.decls_of evs) /\ In l (Cm.d_names d)
    /\ enabled_from_source g G docs evs (Cm.p_file (Cm.d_pos d)) l = false
    /\ source_rule g G (map Cm.split_nl docs)
                   (CS.doc_lines_above leads (Cm.p_file (Cm.d_pos d)) (Cm.p_line (Cm.d_pos d))) = true.
Proof. exact enabled_from_source_names_refuted. Qed.
Print Assumptions Tables_enabled_from_source_names_refuted.

(* readable instances: a `+gengo:g...` tag line on the declaration decides by itself; no gengo:g tag anywhere: off *)
Theorem Tables_rule_declaration_decides :
  forall g G pkgdocs decl v vs,
    CS.spec_values ms0 decl (D.gengo_prefix g) = v :: vs ->
    source_rule g G pkgdocs decl = negb (bytes_eqb (concat (v :: vs)) D.str_false).
Proof. exact source_rule_decl_decides. Qed.
Print Assumptions Tables_rule_declaration_decides.

Theorem Tables_rule_no_tag_anywhere :
  forall g G pkgdocs decl,
    (forall k, In k (source_keys G pkgdocs decl) ->
               k <> D.gengo_prefix g /\ D.has_prefix (D.gengo_prefix g ++ D.colon) k = false) ->
    source_rule g G pkgdocs decl = false.
Proof. exact source_rule_no_tag_anywhere. Qed.
Print Assumptions Tables_rule_no_tag_anywhere.

(* C06's exactly-once with the tags READ FROM THE SOURCE ([tdef_from_source]: Text() of the comment group above each
   declaration; [pkg_tags_from_source]: Text() of the package docs): the hypotheses "tag maps are maps" are discharged,
   and "enabled" is the rule on comment lines. *)
Theorem Tables_exactly_once_from_source :
  forall g G ftexts dtext defs pi ns,
    NoDup (D.keys G) ->
    NoDup (map D.td_name (filter D.td_pkgscope defs)) ->
    let sdefs := map (tdef_from_source dtext) defs in
    let P := pkg_tags_from_source ftexts in
    Permutation pi sdefs ->
    Permutation ns (D.keys (D.type_table true pi)) ->
    (forall d, In d defs -> D.td_action d <> D.AErr) ->
    exists cs,
      D.do_generate g G P (D.type_table true pi) ns = Ok (cs, false)
      /\ NoDup cs
      /\ forall k d', In (k, d') cs <->
           exists d, In d defs /\ d' = tdef_from_source dtext d /\ D.td_pkgscope d = true
             /\ source_rule (D.g_name g) G (map Cm.split_nl ftexts) (CS.spec_lines (dtext (D.td_id d))) = true
             /\ ((k = D.CT /\ D.td_kind d = D.KNamed) \/ (k = D.CA /\ D.td_kind d = D.KAlias /\ D.g_alias g = true)).
Proof. exact exactly_once_from_source. Qed.
Print Assumptions Tables_exactly_once_from_source.

(* ================================================================================================ *)
(* C                                                                                                 *)

(* what Package.Doc returns as doc lines at a declaration = the non-tag lines of the comment group above *)
Theorem Tables_doc_lines_from_source :
  forall evs leads, CS.wf evs leads -> forall d, In d (CS.decls_of evs) ->
    doc_lines_at evs (Cm.p_file (Cm.d_pos d), Cm.p_line (Cm.d_pos d))
    = source_doc leads (Cm.p_file (Cm.d_pos d)) (Cm.p_line (Cm.d_pos d)).
Proof. exact doc_lines_at_own. Qed.
Print Assumptions Tables_doc_lines_from_source.

(* which types get a method, in source terms (the enabling decision is B's rule for "runtimedoc") *)
Theorem Tables_covered_from_source :
  forall evs G docs tpos fpos leads t d,
    NoDup (D.keys G) -> CS.wf evs leads -> In d (CS.decls_of evs) ->
    tpos (RD.t_name t) = (Cm.p_file (Cm.d_pos d), Cm.p_line (Cm.d_pos d)) ->
    RD.covered (ty_from_source evs G docs tpos fpos t)
    = source_rule (bs "runtimedoc") G (map Cm.split_nl docs)
                  (CS.doc_lines_above leads (Cm.p_file (Cm.d_pos d)) (Cm.p_line (Cm.d_pos d)))
      && RD.t_exported t
      && match RD.t_kind t with
         | RD.TInterface => false
         | RD.TStruct fs => RD.has_expose fs
         | RD.TOther => true
         end.
Proof. exact covered_from_source_rule. Qed.
Print Assumptions Tables_covered_from_source.

(* For a package given as a C12 layout ([package_from_source]: every type's / field's doc lines are what Package.Doc
   returns at the position of its name, enabling by B): RuntimeDoc() of a covered type returns, by C16's [run]
   semantics, exactly doc_of name (non-tag lines of the stand-alone comment group ending on the line above the
   declaration). *)
Theorem Tables_docs_from_source :
  forall evs G docs tpos fpos files leads p t d v,
    CS.wf evs leads -> NoDup (map RD.t_name p) -> In t p ->
    In d (CS.decls_of evs) -> tpos (RD.t_name t) = (Cm.p_file (Cm.d_pos d), Cm.p_line (Cm.d_pos d)) ->
    RD.covered (ty_from_source evs G docs tpos fpos t) = true ->
    RD.has_embed_ref (package_from_source evs G docs tpos fpos p) (RD.t_name t) = false ->
    RD.run files (RD.gen true true (package_from_source evs G docs tpos fpos p)) v (RD.t_name t) []
    = Ok (Some (RD.doc_of (RD.t_name t) (source_doc leads (Cm.p_file (Cm.d_pos d)) (Cm.p_line (Cm.d_pos d))))).
Proof. exact docs_from_source. Qed.
Print Assumptions Tables_docs_from_source.

(* RuntimeDoc(f) for a listed field: the comment group above the field's declaration — for the name the field object
   is positioned at; side condition: no name on a continuation line (`A,` newline `B int`: B gets nothing, C12). *)
Theorem Tables_field_docs_from_source :
  forall evs G docs tpos fpos files leads p t fs f d l v rest,
    CS.wf evs leads -> CS.name_on_continuation_line evs = false ->
    NoDup (map RD.t_name p) -> In t p -> RD.covered (ty_from_source evs G docs tpos fpos t) = true ->
    RD.t_kind t = RD.TStruct fs -> NoDup (map RD.f_name (filter RD.listed fs)) -> In f fs -> RD.listed f = true ->
    In d (CS.decls_of evs) -> In l (Cm.d_names d) -> fpos (RD.t_name t) (RD.f_name f) = (Cm.p_file (Cm.d_pos d), l) ->
    RD.run files (RD.gen true true (package_from_source evs G docs tpos fpos p)) v (RD.t_name t) (RD.f_name f :: rest)
    = Ok (Some (RD.doc_of (RD.f_name f) (source_doc leads (Cm.p_file (Cm.d_pos d)) (Cm.p_line (Cm.d_pos d))))).
Proof. exact field_docs_from_source. Qed.
Print Assumptions Tables_field_docs_from_source.

(* ================================================================================================ *)
(* non-vacuity                                                                                       *)

Local Open Scope N_scope.

(* A: `type T struct{}; func F[T any]() {}; func (T) M(); func (p *T) P(); type _ int; const T2 = 1` —
   Universe's Defs (all kinds), Dispatch's and Determinism's (type names only), in three different orders *)
Definition exA_os : list U.obj :=
  [ U.mk_obj 3 U.KFunc (bs "F") true None;
    U.mk_obj 4 U.KType (bs "T") false None;        (* the type parameter *)
    U.mk_obj 1 U.KType (bs "T") true None;
    U.mk_obj 6 U.KFunc (bs "P") false (Some (U.mk_recv (U.TPointer (Some (U.mk_nref 1 1))) (U.TPointer (Some (U.mk_nref 1 1)))));
    U.mk_obj 5 U.KFunc (bs "M") false (Some (U.mk_recv (U.TNamed (U.mk_nref 1 1)) (U.TNamed (U.mk_nref 1 1))));
    U.mk_obj 7 U.KType (bs "_") false None;
    U.mk_obj 8 U.KConst (bs "T2") true None ].
Definition exA_ds : list D.tdef :=
  [ D.mk_tdef 7 (bs "_") D.KNamed false [] D.ANil []; D.mk_tdef 1 (bs "T") D.KNamed true [] D.ANil [];
    D.mk_tdef 4 (bs "T") D.KOther false [] D.ANil [] ].
Definition exA_pkg : Det.pkg :=
  Det.mk_pkg (bs "m/a") (bs "a") (bs "a") [] []
             [ Det.mk_tdef (bs "T") 1 Det.KNamed true false []; Det.mk_tdef (bs "_") 7 Det.KNamed false false [];
               Det.mk_tdef (bs "T") 4 Det.KOther false false [] ]
             [ Det.mk_meth 1 (bs "M") 5 false; Det.mk_meth 1 (bs "P") 6 false ] [].
Definition exA_ptr (m : Det.meth) : bool := N.eqb (Det.m_pos m) 6.

Example Tables_example_A :
  Permutation (types_of exA_os) (map u_of_disp exA_ds)
  /\ Permutation (types_of exA_os) (map u_of_det (Det.pk_defs exA_pkg))
  /\ Permutation (meths_of exA_os) (map (u_of_meth exA_ptr) (Det.pk_meths exA_pkg))
  /\ U.lookup U.KType (bs "T") (U.fill_tables U.all_fixed exA_os) = Some 1
  /\ option_map D.td_id (D.lookup (bs "T") (D.type_table true exA_ds)) = Some 1
  /\ option_map Det.td_uid (Det.lookup (bs "T") (Det.type_table true Det.oid exA_pkg)) = Some 1
  /\ map fst (U.t_types (U.fill_tables U.all_fixed exA_os)) = [bs "T"]
  /\ map U.o_name (U.methods_of U.all_fixed (U.fill_tables U.all_fixed exA_os) (U.mk_nref 1 1) true) = [bs "P"; bs "M"]
  /\ Det.methods_of true Det.oid exA_pkg 1 = [bs "M"; bs "P"]
  /\ map U.o_name (sorted_methods_of U.o_id (U.fill_tables U.all_fixed exA_os) (U.mk_nref 1 1) true) = [bs "M"; bs "P"].
Proof.
  (* Dispatch lists the type names in reverse, Determinism rotated by one; the two methods are swapped *)
  split; [exact (Permutation_rev _)|]. split; [exact (Permutation_cons_append _ _)|]. split; [exact (perm_swap _ _ _)|].
  vm_compute. repeat split; reflexivity.
Qed.

(* B and C: one file
     1: // Package p has docs.
     2: // +gengo:runtimedoc
     3: package p
     5: // T is documented.            (stand-alone group, lines 5-7, Doc of the GenDecl)
     6: // +gengo:deepcopy=false
     7: // second line
     8: type T struct {
     9:     // A is a field.
    10:     // +gengo:x:opt=1
    11:     A int
    12: }                                                                                           *)
Definition exB_tdoc : Cm.group :=
  Cm.mk_group (Cm.mk_pos 0 5 1) 7 (bs "T is documented." ++ [Cm.c_nl] ++ bs "+gengo:deepcopy=false" ++ [Cm.c_nl] ++ bs "second line" ++ [Cm.c_nl]).
Definition exB_fdoc : Cm.group :=
  Cm.mk_group (Cm.mk_pos 0 9 5) 10 (bs "A is a field." ++ [Cm.c_nl] ++ bs "+gengo:x:opt=1" ++ [Cm.c_nl]).
Definition exB_t : Cm.decl := Cm.mk_decl (Cm.mk_pos 0 8 6) [8%Z] None None.
Definition exB_f : Cm.decl := Cm.mk_decl (Cm.mk_pos 0 11 5) [11%Z] (Some exB_fdoc) None.
Definition exB_evs : list Cm.event := [Cm.EGroup exB_tdoc; Cm.EDecl exB_t; Cm.EDecl exB_f; Cm.EGroup exB_fdoc].
Definition exB_leads : list Cm.group := [exB_tdoc; exB_fdoc].
Definition exB_docs : list bytes := [bs "Package p has docs." ++ [Cm.c_nl] ++ bs "+gengo:runtimedoc" ++ [Cm.c_nl]].
Definition exB_G : D.tags := [(bs "gengo:deepcopy", [[]])].

Example Tables_example_B :
  CS.wf exB_evs exB_leads
  /\ enabled_from_source (bs "deepcopy") exB_G exB_docs exB_evs 0 8 = false      (* declaration over global *)
  /\ enabled_from_source (bs "runtimedoc") exB_G exB_docs exB_evs 0 8 = true     (* from the package doc *)
  /\ enabled_from_source (bs "x") exB_G exB_docs exB_evs 0 11 = true             (* +gengo:x:opt enables x *)
  /\ enabled_from_source (bs "x") exB_G exB_docs exB_evs 0 8 = false
  /\ source_rule (bs "deepcopy") exB_G (map Cm.split_nl exB_docs) (CS.doc_lines_above exB_leads 0 8) = false.
Proof. split; [apply Proofs.Comments.wf_b_sound; vm_compute; reflexivity|]. vm_compute. repeat split; reflexivity. Qed.

Definition exC_pkg : RD.package :=
  [ RD.mk_ty (bs "T") true false (RD.TStruct [RD.mk_field (bs "A") true (RD.FNamed RD.FOrdinary) []]) [] ].
Definition exC_tpos (n : RD.name) : N * Z := (0, 8%Z).
Definition exC_fpos (tn fn : RD.name) : N * Z := (0, 11%Z).

Example Tables_example_C :
  let P := package_from_source exB_evs exB_G exB_docs exC_tpos exC_fpos exC_pkg in
  RD.run [] (RD.gen true true P) RD.RNil (bs "T") [] = Ok (Some [bs "is documented."; bs "second line"])
  /\ RD.run [] (RD.gen true true P) RD.RNil (bs "T") [bs "A"] = Ok (Some [bs "is a field."])
  /\ source_doc exB_leads 0 8 = [bs "T is documented."; bs "second line"]
  /\ RD.covered (ty_from_source exB_evs exB_G exB_docs exC_tpos exC_fpos (hd (RD.mk_ty [] false false RD.TOther []) exC_pkg)) = true.
Proof. vm_compute. repeat split; reflexivity. Qed.

(* A hand-run probe of the REAL code (gengo.Execute with a recording generator `deep`, /root/w/repo-tables, notes/Tables.md)
   on comment forms the generated modules do not contain; the composed model predicts what was observed:
     package doc  `//<TAB>+gengo:deep`                    -> no package tag (that path does not TrimSpace the text)
     type A       `//<TAB>+gengo:deep`                    -> called   (first line: commentLinesFrom's TrimSpace removes the tab)
     type B       `// B is.` / `//<TAB>+gengo:deep`       -> not called (a tab is not trimmed from a later line: no tag line)
     type C       `// +gengo:deep false`                  -> not called (a space separates key and value)
     type D       `// +gengo:deep:opt  x`                 -> called, Context.Doc tag gengo:deep:opt = [" x"] *)
Definition pr_tab : bytes := [ascii_of_N 9].
Definition pr_nl : bytes := [ascii_of_N 10].
Definition pr_enabled (text : bytes) : bool :=
  enabled_from_lines (bs "deep") [] (pkg_tags_from_source [pr_tab ++ bs "+gengo:deep" ++ pr_nl]) (Cm.group_lines true text).

Example Tables_example_probe :
  pkg_tags_from_source [pr_tab ++ bs "+gengo:deep" ++ pr_nl] = []
  /\ pr_enabled (pr_tab ++ bs "+gengo:deep" ++ pr_nl) = true
  /\ pr_enabled (bs "B is." ++ pr_nl ++ pr_tab ++ bs "+gengo:deep" ++ pr_nl) = false
  /\ pr_enabled (bs "+gengo:deep false" ++ pr_nl) = false
  /\ pr_enabled (bs "+gengo:deep:opt  x" ++ pr_nl) = true
  /\ fst (Cm.extract_tags true [] (Cm.group_lines true (bs "+gengo:deep:opt  x" ++ pr_nl))) = [(bs "gengo:deep:opt", [bs " x"])].
Proof. vm_compute. repeat split; reflexivity. Qed.
