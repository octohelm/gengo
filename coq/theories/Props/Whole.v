(* WHOLE — the separately written models of gengo.Execute are models of ONE system.
   Statements only; the proof of a theorem is [exact <lemma>], in three places after an [intros] that puts [_] for a
   hypothesis: the lemma quoted is stated without it, so the statement holds without it too (the Examples are evaluated
   in place).

   Model/Whole.v instantiates the pipeline model (Model/Pipeline.v, properties C07 C05 C02) with the component
   models of the other pipeline properties:
     whole_env fmt order rank G :=  e_sum_load / e_sum_bytes = the byte-level gengo.sum of Model/SumFile.v (C08),
                               e_enabled = Dispatch's IsGeneratorEnabled on merge(G, package tags, declaration tags) (C06),
                               e_fmt = fmt (the Go formatter, C01), e_order = order (sync.Map of retained genfiles),
                               e_rm_rank = rank (Go map of stale files: removal order), repaired code.
   The theorems below are (1) AGREEMENT theorems: two independently written readings of the same Go lines compute
   the same thing on the same data, and (2) COMPOSITES that need more than one of the models.
   Corr/Pipe.v evaluates [exec] under this environment on every case of the C07 / C05 / C02 checks. *)
Require Import Gengo.Base.Bytes Gengo.Model.Pipeline Gengo.Model.Whole.
Require Import Gengo.Proofs.Pipeline Gengo.Proofs.PipelinePkg Gengo.Proofs.PipelineC02.
Require Import Gengo.Proofs.WholeSum Gengo.Proofs.WholeDispatch Gengo.Proofs.WholeTrace Gengo.Proofs.WholeGenFile
  Gengo.Proofs.WholeCrash.
Require Import Gengo.Model.WholeDet Gengo.Proofs.WholeDet.
Require Gengo.Model.SumFile Gengo.Model.SumCache Gengo.Model.Dispatch Gengo.Model.GenFile Gengo.Model.Determinism.
Require Gengo.Proofs.Determinism.
Require Gengo.Proofs.SumFile Gengo.Proofs.SumCache Gengo.Proofs.Dispatch Gengo.Proofs.WholeTorn.
From Coq Require Import Permutation.

(* ================= 1. agreement ================= *)

(* ---- 1a. SumCache (C08) and Pipeline: context.go 95-142 read twice ----
   SumCache.run is generic in the world (tree, content, H, dirc, gen, locals).  Take tree := the pipeline's file
   system, gen := the pipeline's package step ([pkg_step]: the effects of pkg_effects), r_fail := the first package
   the pipeline executes that does not come back with Done ([run_args]), and ANY content / H / dirc / locals that are
   the same data as the loaded world (same local packages with their direct flag; H(dir p) = the load-time hash).
   Then the one run of SumCache and Pipeline.exec agree on: the packages executed and their order (the call log is
   the concatenation of the executed packages' logs), success vs failure, what gengo.sum holds afterwards (also in
   failed and in non-All runs), and every other file — up to the files the failing package had already written,
   which SumCache does not model ([fail_effects], empty when the run succeeds).  SumCache's "gengo.sum unreadable"
   never arises (ESave): the pipeline has no I/O errors. *)
Theorem Whole_sumcache_is_pipeline :
  forall (E : env) (a : args) (w : world) (gens : list generator),
    e_sum_load E = SumFile.sumfile_load -> e_sum_bytes E = SumFile.sumfile_bytes ->
    forall (content : Type) (H : content -> option bytes) (dirc : fs -> option bytes -> bytes -> content)
           (locals : fs -> list bytes -> list (bytes * bool)) (entry : list bytes) (s : fs),
    locals s entry = world_locals w ->
    (forall p, In p (w_pkgs w) ->
       SumCache.hash_of fs content H dirc SumCache.fixed_all (abs_state w s) (pk_path p) = pk_hash p) ->
    NoDup (map pk_path (w_pkgs w)) -> files_ok w ->
    let r := SumCache.run fs content H dirc (pkg_step E a w gens) locals SumCache.fixed_all
                          (run_args E a w gens entry s) (abs_state w s) in
    exec_trace E a w gens s = flat_map (pkg_trace E a w gens) (SumCache.executed (fst (snd r)))
    /\ snd (snd r) <> SumCache.ESave
    /\ (snd (snd r) = SumCache.ENone <-> exec_outcome E a w gens s = Done)
    /\ (exec_outcome E a w gens s = Done -> fail_effects E a w gens (fst (snd r)) = [])
    /\ SumCache.st_sum (fst r) = sum_state w (exec_fs E a w gens s)
    /\ (forall q, q <> sum_path w ->
          fs_lookup q (exec_fs E a w gens s)
          = fs_lookup q (apply_all (fail_effects E a w gens (fst (snd r))) (SumCache.st_tree (fst r)))).
Proof. exact run_agree. Qed.
Print Assumptions Whole_sumcache_is_pipeline.

(* the composed environment satisfies the two equations by definition *)
Example Whole_env_uses_the_real_sumfile :
  forall fmt order rank G, e_sum_load (whole_env fmt order rank G) = SumFile.sumfile_load
                           /\ e_sum_bytes (whole_env fmt order rank G) = SumFile.sumfile_bytes.
Proof. intros. split; reflexivity. Qed.

(* ---- 1b. Dispatch (C06) and Pipeline: context.go 108-116, 191-220, 268-345 read twice ----
   One description [wps] of the packages gives Dispatch's packages ([disp_pkgs]: in the order Execute visits them)
   and the pipeline's world ([to_world]: the type TABLE, the merged package tags); C06's recording generator is run
   by the pipeline as a state machine ([disp_gen]).  Then Dispatch.execute lists, position by position ([ev_match]:
   same generator, same package, same declaration and kind of call / a callback of the same session), the
   GenerateType / GenerateAliasType / Defer-callback events of Pipeline.exec_trace, and both end alike.
   Side conditions (modelling scope, not disagreement): Dispatch has no gengo.sum cache (no package is skipped:
   Force, no previous sums, ...) and no formatter (everything rendered parses); [fuel] bounds the callback forests. *)
Theorem Whole_dispatch_is_pipeline :
  forall fmt order rank G wps fuel gens a modroot s,
    NoDup (map wp_path wps) ->
    (forall src, fmt src <> None) ->
    let E := whole_env fmt order rank G in
    let w := to_world modroot wps in
    (forall wp, In wp wps -> pkg_changed a w (load_prev E a w s) (to_pkginfo wp) = true) ->
    (forall wp g, In wp wps -> In g gens -> fuel_ok G fuel wp g) ->
    exists devs o,
      Dispatch.execute Dispatch.fixed_all (a_all a) (disp_pkgs wps) gens G = Ok (devs, o)
      /\ Forall2 (ev_match G wps gens) (exec_trace E a w (map (disp_gen wps fuel) gens) s)
                 (filter Gengo.Proofs.Dispatch.is_callback devs)
      /\ out_match (exec_outcome E a w (map (disp_gen wps fuel) gens) s) o.
Proof. exact dispatch_agree. Qed.
Print Assumptions Whole_dispatch_is_pipeline.

(* ... and the write phase: Dispatch's one write event per package (EWrites pid ws: "the files of these generators are
   written", after every callback) names exactly the generators whose destinations the pipeline opens (ETruncate, in the
   order of the sync.Map: a permutation). *)
Theorem Whole_dispatch_writes_are_pipeline_writes :
  forall fmt order rank G wps fuel gens a wp,
    NoDup (map wp_path wps) -> (forall src, fmt src <> None) -> (forall p l, Permutation (order p l) l) ->
    In wp wps -> (forall g, In g gens -> fuel_ok G fuel wp g) ->
    let E := whole_env fmt order rank G in
    let gs := map (disp_gen wps fuel) gens in
    snd (pkg_effects E a gs (to_pkginfo wp)) = Done ->
    exists devs ws,
      Dispatch.pkg_execute Dispatch.fixed_all (wp_d wp) gens G
      = Ok (devs ++ (if is_nil ws then [] else [Dispatch.EWrites (Dispatch.pk_id (wp_d wp)) ws]), Dispatch.Done)
      /\ ws = map Dispatch.g_idx (filter (renders_on fmt order rank G wps fuel wp) gens)
      /\ Permutation (truncated (fst (fst (pkg_effects E a gs (to_pkginfo wp)))))
                     (map (fun g => gen_file a (to_pkginfo wp) (Dispatch.g_name g))
                          (filter (renders_on fmt order rank G wps fuel wp) gens)).
Proof. intros fmt order rank G wps fuel gens a wp Hnd _. exact (dispatch_writes_agree fmt order rank G wps fuel gens a wp Hnd). Qed.
Print Assumptions Whole_dispatch_writes_are_pipeline_writes.

(* ---- 1c. Determinism (C04) and Pipeline: gengo.Execute end to end read twice ----
   From the pipeline's input Model/WholeDet.v derives Determinism's (its world: Defs = the type table, one file of
   package tags, no methods; its generators: the pipeline's state machines folded over the call list; render = the
   pipeline's formatter on the assembled source; parse_sum = the byte-level sumfile.Load).  For EVERY order oracle o
   that shuffles and is a rearrangement of positions ([natural]: it commutes with map), Determinism.run — taking the
   one order the pipeline leaves open, the sync.Map of retained genfiles, from o ([only_gfs o]; C04_order_independent
   says every other oracle gives the same result) — fails exactly when Pipeline.exec under e_order := [order_of o]
   does not return Done, and otherwise yields the same content at every path (gengo.sum included) and the same
   sequence of GenerateType / GenerateAliasType calls.
   [world_wf]: distinct package paths; per package distinct type names, tag maps with distinct keys. *)
Theorem Whole_determinism_is_pipeline :
  forall fmt G (o : Determinism.oracle) rank a w,
    world_wf w -> Determinism.shuffles o -> natural o ->
    forall gens, NoDup (map g_name gens) -> forall s,
    let E := whole_env fmt (order_of o) rank G in
    match Determinism.run true true (det_render fmt) det_parse_sum (only_gfs o) (det_args G a) (w_direct w) (det_world w)
                          (map (det_gen w) gens) (det_fs s) with
    | None => exec_outcome E a w gens s <> Done
    | Some (f', log) =>
        exec_outcome E a w gens s = Done
        /\ (forall q, f' q = fs_lookup q (exec_fs E a w gens s))
        /\ flat_log log = flat_trace (exec_trace E a w gens s)
    end.
Proof. exact det_agree. Qed.
Print Assumptions Whole_determinism_is_pipeline.

(* C04's order independence transfers: Pipeline.exec of the composed system does not depend on the iteration orders of
   the sync.Map of retained genfiles and of the map of stale files — both runs succeed or neither does, and successful runs leave the same content at
   every path and make the same calls.  (Proved through 1c and C04_order_independent, not on the pipeline model.) *)
Theorem Whole_pipeline_order_independent :
  forall fmt G (o1 o2 : Determinism.oracle) rank1 rank2 a w gens s,
    world_wf w -> Determinism.shuffles o1 -> Determinism.shuffles o2 -> natural o1 -> natural o2 ->
    NoDup (Dispatch.keys G) -> NoDup (map g_name gens) ->
    let E1 := whole_env fmt (order_of o1) rank1 G in
    let E2 := whole_env fmt (order_of o2) rank2 G in
    (exec_outcome E1 a w gens s = Done <-> exec_outcome E2 a w gens s = Done)
    /\ (exec_outcome E1 a w gens s = Done ->
        (forall q, fs_lookup q (exec_fs E1 a w gens s) = fs_lookup q (exec_fs E2 a w gens s))
        /\ flat_trace (exec_trace E1 a w gens s) = flat_trace (exec_trace E2 a w gens s)).
Proof. exact pipeline_order_independent. Qed.
Print Assumptions Whole_pipeline_order_independent.

(* ... and C07 / C02 transfer the other way: of Determinism.run on such inputs, a failing run (None) is a pipeline run
   that did not return Done (C02's theorems say what it has and has not done), and a successful run leaves every path
   that is not gengo's own output as it was (C07_frame). *)
Theorem Whole_determinism_fails_iff_pipeline_fails :
  forall fmt G (o : Determinism.oracle) rank a w,
    world_wf w -> Determinism.shuffles o -> natural o ->
    forall gens, NoDup (map g_name gens) -> forall s,
    Determinism.run true true (det_render fmt) det_parse_sum (only_gfs o) (det_args G a) (w_direct w) (det_world w)
                    (map (det_gen w) gens) (det_fs s) = None
    <-> exec_outcome (whole_env fmt (order_of o) rank G) a w gens s <> Done.
Proof. exact det_fails_iff. Qed.
Print Assumptions Whole_determinism_fails_iff_pipeline_fails.

Theorem Whole_determinism_frame :
  forall fmt G (o : Determinism.oracle) rank a w,
    world_wf w -> Determinism.shuffles o -> natural o ->
    forall gens, NoDup (map g_name gens) -> forall s f' log q,
    Determinism.run true true (det_render fmt) det_parse_sum (only_gfs o) (det_args G a) (w_direct w) (det_world w)
                    (map (det_gen w) gens) (det_fs s) = Some (f', log) ->
    ~ own_output (whole_env fmt (order_of o) rank G) a w s q -> f' q = det_fs s q.
Proof. exact det_frame. Qed.
Print Assumptions Whole_determinism_frame.

(* the identity and the reversing oracle are legal and natural *)
Example Whole_natural_oracles :
  natural Determinism.oid /\ natural Gengo.Proofs.Determinism.rev_oracle
  /\ Determinism.shuffles Determinism.oid /\ Determinism.shuffles Gengo.Proofs.Determinism.rev_oracle.
Proof.
  split; [intros A B f site l; reflexivity|]. split; [intros A B f site l; symmetry; apply map_rev|].
  split; [exact Gengo.Proofs.Determinism.oid_shuffles | exact Gengo.Proofs.Determinism.rev_oracle_shuffles].
Qed.

(* ---- 1d. GenFile (C01) and Pipeline: genfile.go 60-144, context.go 223-231 read twice ----
   The pipeline's assembled source is GenFile's with an empty import table; with e_fmt := C01's formatter
   (fmt1, then fmt2 until stable) one WriteToFile decides alike (nothing / error / this name, these bytes) and the
   write loops leave the same package directory ([dir_rel]) or both fail. *)
Theorem Whole_assemble_is_genfile_assemble :
  forall pkg gen body, assemble pkg gen body = GenFile.assemble pkg gen [] body.
Proof. exact assemble_same. Qed.
Print Assumptions Whole_assemble_is_genfile_assemble.

Theorem Whole_write_file_is_genfile_write_file :
  forall (E : env) fmt1 fmt2, e_fmt E = genfile_fmt fmt1 fmt2 ->
  forall a p gf,
    GenFile.write_file fmt1 fmt2 true (a_base a) (pk_name p) (genfile_of gf)
    = if is_nil (snd gf) then GenFile.WNothing
      else match e_fmt E (assemble (pk_name p) (fst gf) (snd gf)) with
           | None => GenFile.WErr
           | Some out => GenFile.WWrite (fname a (fst gf)) out
           end.
Proof. exact write_file_same. Qed.
Print Assumptions Whole_write_file_is_genfile_write_file.

Theorem Whole_write_loop_is_genfile_write_all :
  forall (E : env) fmt1 fmt2, e_fmt E = genfile_fmt fmt1 fmt2 ->
  forall a p gfs rem fsys s,
    dir_rel p fsys s ->
    match GenFile.write_all fmt1 fmt2 true (a_base a) (pk_name p) (map genfile_of gfs) fsys,
          write_loop_fs E a p gfs rem s with
    | None, (_, _, Some (EParse _)) => True
    | Some fsys', (s', _, None) => dir_rel p fsys' s'
    | _, _ => False
    end.
Proof. exact write_all_same. Qed.
Print Assumptions Whole_write_loop_is_genfile_write_all.

(* ================= 2. composites ================= *)

(* ---- C06's exactly-once, OF the pipeline trace ----
   In a successful run of the composed system, for a processed package and a generator of the run, the call log
   contains, as one contiguous segment, calls [cs] and then the callbacks, where [cs] has no repetition and holds
   exactly: GenerateType for each enabled package-scope defined type, GenerateAliasType for each enabled
   package-scope alias iff the generator is an AliasGenerator, nothing else (C06_exactly_once); every callback of the
   forest those calls register runs once (the ids run are a permutation of all ids). *)
Theorem Whole_exactly_once_of_pipeline_trace :
  forall fmt order rank G wps fuel gens a modroot s wp g,
    NoDup (map wp_path wps) -> In wp wps -> In g gens ->
    NoDup (Dispatch.keys G) -> NoDup (Dispatch.keys (P_of wp)) ->
    (forall d, In d (Dispatch.pk_defs (wp_d wp)) -> NoDup (Dispatch.keys (Dispatch.td_tags d))) ->
    NoDup (map Dispatch.td_name (filter Dispatch.td_pkgscope (Dispatch.pk_defs (wp_d wp)))) ->
    (forall d, In d (Dispatch.pk_defs (wp_d wp)) -> Dispatch.td_action d <> Dispatch.AErr) ->
    (forall d, In d (Dispatch.pk_defs (wp_d wp)) -> forallb Dispatch.no_err_tree (Dispatch.td_defers d) = true) ->
    fuel_ok G fuel wp g ->
    let E := whole_env fmt order rank G in
    let w := to_world modroot wps in
    let gs := map (disp_gen wps fuel) gens in
    exec_outcome E a w gs s = Done -> processed E a w s (to_pkginfo wp) = true ->
    exists cs ran pre post,
      NoDup cs
      /\ (forall k d, In (k, d) cs <->
            In d (Dispatch.pk_defs (wp_d wp)) /\ Dispatch.td_pkgscope d = true
            /\ Gengo.Proofs.Dispatch.enabled_eff_spec (Dispatch.g_name g) G (P_of wp) (Dispatch.td_tags d) = true
            /\ ((k = Dispatch.CT /\ Dispatch.td_kind d = Dispatch.KNamed)
                \/ (k = Dispatch.CA /\ Dispatch.td_kind d = Dispatch.KAlias /\ Dispatch.g_alias g = true)))
      /\ Permutation (map Dispatch.root_id ran) (Dispatch.ids_all (Dispatch.registered cs))
      /\ exec_trace E a w gs s
         = pre ++ (map (tr_call wp g) cs ++ map (tr_defer wp g) (combine (seq 0 (List.length ran)) ran)) ++ post.
Proof.
  intros fmt order rank G wps fuel gens a modroot s wp g Hnd Hwp Hg HG _.
  exact (pipeline_exactly_once fmt order rank G wps fuel gens a modroot s wp g Hnd Hwp Hg HG).
Qed.
Print Assumptions Whole_exactly_once_of_pipeline_trace.

(* any successful run of ANY generators: what one generator is called for on one processed package is a
   contiguous segment of the run's call log *)
Theorem Whole_session_is_a_segment_of_the_trace :
  forall (E : env) a w gens s p g,
    exec_outcome E a w gens s = Done ->
    In p (w_pkgs w) -> processed E a w s p = true -> In g gens ->
    exists pre post, exec_trace E a w gens s = pre ++ go_trace (gen_run E g p) ++ post.
Proof. exact exec_trace_segment. Qed.
Print Assumptions Whole_session_is_a_segment_of_the_trace.

(* ---- C08's skip soundness, OF Pipeline.exec (the pipeline's own pkgChanged, read with the byte-level parser) ----
   A package the pipeline leaves alone as cached: All, no Force, gengo.sum is a file, and the hash recorded for the
   package — as the byte-level parser reads it — IS the package's load-time hash, which is not empty. *)
Theorem Whole_skipped_by_pipeline_only_if_recorded_hash :
  forall (E : env) a w s p,
    e_sum_load E = SumFile.sumfile_load ->
    NoDup (map pk_path (w_pkgs w)) -> files_ok w ->
    In p (w_pkgs w) -> selected a w p = true -> processed E a w s p = false ->
    a_all a = true /\ a_force a = false /\
    exists b, fs_lookup (sum_path w) s = Some b
              /\ SumFile.sum_sum (SumFile.sumfile_load b) (pk_path p) = pk_hash p
              /\ pk_hash p <> [].
Proof. intros E a w s p Hl Hnd _. exact (pipeline_skip_only_if E a w s p Hl Hnd). Qed.
Print Assumptions Whole_skipped_by_pipeline_only_if_recorded_hash.

(* ---- a torn gengo.sum under the real parser ----
   Every prefix of the bytes of a well-formed sum (kv_ok: distinct non-empty ASCII paths without white space, hashes
   likewise) answers every Sum query with a prefix of the full answer ... *)
Theorem Whole_torn_sum_prefix :
  forall (m : SumFile.sum) (n : nat) (key : bytes), Gengo.Proofs.SumFile.kv_ok m ->
    WholeTorn.prefix_of (SumFile.sum_sum (SumFile.sumfile_load (firstn n (SumFile.sumfile_bytes m))) key)
                        (SumFile.sum_sum m key).
Proof. exact WholeTorn.torn_sum_prefix. Qed.
Print Assumptions Whole_torn_sum_prefix.

(* ... so every entry it loads carries the recorded hash or a strictly shorter string. *)
Theorem Whole_torn_sum_entries :
  forall (m : SumFile.sum) (n : nat) (k v : bytes), Gengo.Proofs.SumFile.kv_ok m ->
    In (k, v) (SumFile.sumfile_load (firstn n (SumFile.sumfile_bytes m))) ->
    v = SumFile.sum_sum m k
    \/ (WholeTorn.prefix_of v (SumFile.sum_sum m k) /\ List.length v < List.length (SumFile.sum_sum m k)).
Proof. exact WholeTorn.torn_sum_entries. Qed.
Print Assumptions Whole_torn_sum_entries.

(* ---- C02's crash theorem composed with it ----
   [crash_state]: the run is killed after any number of its effects, or INSIDE the write of gengo.sum (any prefix of
   the bytes written).  The next run — any arguments, any loaded world w2 of the same module — skips p only if the
   hash it computed is the one recorded by the gengo.sum the killed run had found and not yet touched, or the one the
   killed run was recording: a torn or truncated gengo.sum only ever causes regeneration.
   Side conditions: what the killed run records are tokens (kv_ok), and a recorded hash is as long as the one computed
   now, or empty (dirhash.Hash1 has one length). *)
Theorem Whole_crash_then_skip_justified :
  forall (E : env), e_sum_load E = SumFile.sumfile_load -> e_sum_bytes E = SumFile.sumfile_bytes ->
  forall a w gens s s' a2 w2 p,
    files_ok w -> crash_state E a w gens s s' ->
    Gengo.Proofs.SumFile.kv_ok (current_sum w) ->
    sum_path w2 = sum_path w ->
    (sum_get (current_sum w) (pk_path p) = []
     \/ List.length (sum_get (current_sum w) (pk_path p)) = List.length (sum_get (current_sum w2) (pk_path p))) ->
    pkg_changed a2 w2 (load_prev E a2 w2 s') p = false ->
    sum_get (current_sum w2) (pk_path p) <> []
    /\ ((exists b, fs_lookup (sum_path w) s = Some b
                   /\ SumFile.sum_sum (SumFile.sumfile_load b) (pk_path p) = sum_get (current_sum w2) (pk_path p))
        \/ sum_get (current_sum w) (pk_path p) = sum_get (current_sum w2) (pk_path p)).
Proof. exact crash_then_skip_justified. Qed.
Print Assumptions Whole_crash_then_skip_justified.

(* in every crash state gengo.sum is what it was, or a prefix of the bytes of the hashes taken at load time *)
Theorem Whole_crash_sum_content :
  forall (E : env), e_sum_bytes E = SumFile.sumfile_bytes ->
  forall a w gens s s',
    files_ok w -> crash_state E a w gens s s' ->
    fs_lookup (sum_path w) s' = fs_lookup (sum_path w) s
    \/ exists n, fs_lookup (sum_path w) s' = Some (firstn n (SumFile.sumfile_bytes (current_sum w))).
Proof. exact crash_sum_content. Qed.
Print Assumptions Whole_crash_sum_content.

(* ================= non-vacuity: one concrete system ================= *)

(* module m with packages m/a (type T, tagged for deep; type Off, gengo:deep=false; alias Al) and m/b (type T without
   tag); global tag gengo:deep; generators deep (AliasGenerator) and deepcopy; All run on an empty tree: the pipeline
   under whole_env makes the calls Dispatch lists, writes one file per package, and saves the byte-level gengo.sum *)
Definition ex_a : wpkg :=
  mk_wpkg (bs "m/a") (bs "a") (bs "a") [bs "a.go"] (bs "h1:aaa")
    (Dispatch.mk_pkg 0 true []
       [ Dispatch.mk_tdef 1 (bs "T") Dispatch.KNamed true [] Dispatch.ANil [Dispatch.DS 501 false [Dispatch.DS 502 false []]];
         Dispatch.mk_tdef 2 (bs "Al") Dispatch.KAlias true [] Dispatch.ANil [];
         Dispatch.mk_tdef 3 (bs "Off") Dispatch.KNamed true [(bs "gengo:deep", [bs "false"])] Dispatch.ANil [];
         Dispatch.mk_tdef 4 (bs "T") Dispatch.KOther false [] Dispatch.ANil [] ]).
Definition ex_b : wpkg :=
  mk_wpkg (bs "m/b") (bs "b") (bs "b") [bs "b.go"] (bs "h1:bbb")
    (Dispatch.mk_pkg 1 false [] [ Dispatch.mk_tdef 7 (bs "T") Dispatch.KNamed true [] Dispatch.ASkip [] ]).
Definition ex_G : tags := [(bs "gengo:deep", [[]])].
Definition ex_gens : list Dispatch.gen := [Dispatch.mk_gen 0 (bs "deep") true; Dispatch.mk_gen 1 (bs "deepcopy") false].
Definition ex_args : args := {| a_all := true; a_force := false; a_base := bs "zz_generated" |}.
Definition ex_env : env := whole_env (fun src => Some src) (fun _ l => l) rank0 ex_G.

Example Whole_example_run :
  let w := to_world [] [ex_b; ex_a] in
  let '(s', tr, out) := exec ex_env ex_args w (map (disp_gen [ex_b; ex_a] 10) ex_gens) [] in
  out = Done
  /\ tr = [ EvCall (bs "deep") (bs "m/a") (bs "Al") mark RNil; EvCall (bs "deep") (bs "m/a") (bs "T") mark RNil;
            EvDefer (bs "deep") (bs "m/a") 0 mark RNil; EvDefer (bs "deep") (bs "m/a") 1 mark RNil;
            EvCall (bs "deep") (bs "m/b") (bs "T") [] RSkip ]
  /\ Dispatch.execute Dispatch.fixed_all true (disp_pkgs [ex_b; ex_a]) ex_gens ex_G
     = Ok ([ Dispatch.EAlias 0 0 2 ex_G; Dispatch.EType 0 0 1 ex_G; Dispatch.EDefer 0 0 501; Dispatch.EDefer 0 0 502;
             Dispatch.EWrites 0 [0%N]; Dispatch.EType 1 0 7 ex_G ], Dispatch.Done)
  /\ fs_lookup ([], bs "gengo.sum") s' = Some (bs "m/a h1:aaa" ++ [SumFile.nl] ++ bs "m/b h1:bbb" ++ [SumFile.nl])
  /\ map fst s' = [([], bs "gengo.sum"); (bs "a", bs "zz_generated.deep.go")].
Proof. vm_compute. repeat split; reflexivity. Qed.

(* the next All run on that tree (hashes unchanged) executes nothing; with the sum torn after 13 bytes
   ("m/a h1:aaa\nm/") package m/a is still cached and m/b is regenerated *)
Example Whole_example_second_run_and_torn_sum :
  let w := to_world [] [ex_b; ex_a] in
  let gs := map (disp_gen [ex_b; ex_a] 10) ex_gens in
  let s1 := exec_fs ex_env ex_args w gs [] in
  exec_trace ex_env ex_args w gs s1 = []
  /\ let torn := fs_set ([], bs "gengo.sum") (firstn 13 (SumFile.sumfile_bytes (current_sum w))) s1 in
     map (processed ex_env ex_args w torn) (sorted_pkgs w) = [false; true].
Proof. vm_compute. split; reflexivity. Qed.
