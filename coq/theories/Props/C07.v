(* C07 — gengo only touches its own output files.
   Statements only; a proof is [exact <lemma>] (the last part: of Proofs/GeneratorsPipe.v), in four places after an
   [intros] that puts [_] for a hypothesis or keeps only the first half of [world_ok w] ([[Hd _]]): the lemma quoted is
   stated without what is dropped, so the statement holds without it too (one closed Example is evaluated).

   The model (Model/Pipeline.v) is gengo.Execute / pkgExecute / doGenerate / WriteToFile as written, over
     E     : env      formatter, sum parser/printer, enabling rule, sync.Map iteration order, repair switch
     a     : args     All, Force, OutputFileBaseName
     w     : world    what the loader reported: local packages (path, dir, name, compiled Go files, types, hash),
                      which of them are direct
     gens  : list generator   arbitrary state machines (any state type, any step function)
     s     : fs       the module tree before the run
   Every theorem below quantifies over all of them. *)
Require Import Gengo.Base.Bytes Gengo.Model.Pipeline Gengo.Proofs.Pipeline Gengo.Proofs.PipelinePkg
  Gengo.Proofs.PipelineC07 Gengo.Proofs.PipelineWitness Gengo.Proofs.PipelineWitnessC07 Gengo.Corr.Pipe.

(* The two forms of the model agree: running Execute on a file system is applying its effect list. *)
Theorem C07_exec_is_effects :
  forall (E : env) a w gens s,
    exec E a w gens s = (apply_all (effects E a w gens s) s, exec_trace E a w gens s, exec_outcome E a w gens s).
Proof. exact exec_eq. Qed.
Print Assumptions C07_exec_is_effects.

(* Frame.  own_output E a w s q  :=  q is <dir of a processed package>/<base>.<something>  or  (All and q is
   <module root>/gengo.sum);  processed = selected (All or direct) and not skipped through gengo.sum.
   Every other path holds the same bytes (or is equally absent) afterwards - whether Execute succeeded, failed
   or the process died. *)
Theorem C07_frame :
  forall (E : env) a w gens s q,
    ~ own_output E a w s q -> fs_lookup q (exec_fs E a w gens s) = fs_lookup q s.
Proof. exact frame. Qed.
Print Assumptions C07_frame.

(* ... and after every prefix of the effects (a run interrupted anywhere). *)
Theorem C07_frame_every_prefix :
  forall (E : env) a w gens s q k,
    ~ own_output E a w s q -> fs_lookup q (apply_all (firstn k (effects E a w gens s)) s) = fs_lookup q s.
Proof. exact frame_prefix. Qed.
Print Assumptions C07_frame_every_prefix.

(* After a successful run, for every processed package p and every generator g of the run: g's file exists iff g
   rendered something, or g signalled ErrIgnore (from GenerateType or GenerateAliasType), rendered nothing and
   had a file before.  Hypotheses: the repaired code (e_fixed); the sync.Map order is a permutation; generator
   names are distinct (gengo.Register keys by name); package dirs / paths are distinct; a file that exists at g's
   path is one of the package's compiled Go files (p.Files() is input data from go/packages). *)
Theorem C07_exists_iff :
  forall (E : env) a w gens s p g,
    e_fixed E = true -> order_ok E -> NoDup (map g_name gens) -> world_ok w ->
    exec_outcome E a w gens s = Done ->
    In p (w_pkgs w) -> processed E a w s p = true -> In g gens ->
    (fs_lookup (gen_file a p (g_name g)) s <> None -> In (fname a (g_name g)) (pk_files p)) ->
    (fs_lookup (gen_file a p (g_name g)) (exec_fs E a w gens s) <> None
     <-> go_body (gen_run E g p) <> [] \/
         (signalled_ignore E g p = true /\ fs_lookup (gen_file a p (g_name g)) s <> None)).
Proof. intros E a w gens s p g Hf Ho Hn [Hd _]. exact (exists_iff E a w gens s p g Hf Ho Hn Hd). Qed.
Print Assumptions C07_exists_iff.

(* what is in a written file: the formatter's output for header + package clause + what g rendered *)
Theorem C07_written_content :
  forall (E : env) a w gens s p g,
    order_ok E -> NoDup (map g_name gens) -> world_ok w ->
    exec_outcome E a w gens s = Done ->
    In p (w_pkgs w) -> processed E a w s p = true -> In g gens ->
    go_body (gen_run E g p) <> [] ->
    exists out, e_fmt E (assemble (pk_name p) (g_name g) (go_body (gen_run E g p))) = Some out /\
                fs_lookup (gen_file a p (g_name g)) (exec_fs E a w gens s) = Some out.
Proof. intros E a w gens s p g Ho Hn [Hd _]. exact (written_content E a w gens s p g Ho Hn Hd). Qed.
Print Assumptions C07_written_content.

(* Stale files: every compiled Go file <base>.* of a processed package that is not the file of a generator that
   rendered (or was kept by ErrIgnore) in this run is absent afterwards. *)
Theorem C07_stale_removed :
  forall (E : env) a w gens s p f,
    order_ok E -> NoDup (map g_name gens) -> world_ok w -> files_ok w ->
    exec_outcome E a w gens s = Done ->
    In p (w_pkgs w) -> processed E a w s p = true ->
    In f (pk_files p) -> prefixb (out_prefix a) f = true ->
    (~ exists g, In g gens /\ kept E g p = true /\ f = fname a (g_name g)) ->
    fs_lookup (pk_dir p, f) (exec_fs E a w gens s) = None.
Proof. intros E a w gens s p f Ho _ [Hd _]. exact (stale_removed E a w gens s p f Ho Hd). Qed.
Print Assumptions C07_stale_removed.

(* Without All: gengo.sum is untouched and only directories of directly requested packages can change
   (whatever the outcome). *)
Theorem C07_not_all :
  forall (E : env) a w gens s,
    a_all a = false -> files_ok w ->
    fs_lookup (sum_path w) (exec_fs E a w gens s) = fs_lookup (sum_path w) s
    /\ forall q, (~ exists p, In p (w_pkgs w) /\ is_direct w p = true /\ in_pkg_output a p q) ->
                 fs_lookup q (exec_fs E a w gens s) = fs_lookup q s.
Proof. exact not_all. Qed.
Print Assumptions C07_not_all.

(* a package skipped through gengo.sum keeps its whole directory *)
Theorem C07_cached_untouched :
  forall (E : env) a w gens s p f,
    world_ok w -> In p (w_pkgs w) -> processed E a w s p = false -> (pk_dir p, f) <> sum_path w ->
    fs_lookup (pk_dir p, f) (exec_fs E a w gens s) = fs_lookup (pk_dir p, f) s.
Proof. intros E a w gens s p f [Hd _]. exact (cached_untouched E a w gens s p f Hd). Qed.
Print Assumptions C07_cached_untouched.

(* History (defect #26): before doGenerateAliasType set the ignore flag, C07_exists_iff failed for an
   AliasGenerator that signals ErrIgnore, renders nothing and has a previous file: the file was removed. *)
Theorem C07_exists_iff_refuted_before_fix :
  exists (E : env) a w gens s p g,
    e_fixed E = false /\ order_ok E /\ NoDup (map g_name gens) /\ world_ok w /\
    exec_outcome E a w gens s = Done /\ In p (w_pkgs w) /\ processed E a w s p = true /\ In g gens /\
    (fs_lookup (gen_file a p (g_name g)) s <> None -> In (fname a (g_name g)) (pk_files p)) /\
    signalled_ignore E g p = true /\ go_body (gen_run E g p) = [] /\
    fs_lookup (gen_file a p (g_name g)) s <> None /\
    fs_lookup (gen_file a p (g_name g)) (exec_fs E a w gens s) = None.
Proof. exact exists_iff_refuted_before_fix. Qed.
Print Assumptions C07_exists_iff_refuted_before_fix.

(* non-vacuity: the same run on the repaired code keeps the previous file *)
Example C07_example_alias_ignore_kept :
  fs_lookup (gen_file wa_args wa_pkg (bs "al")) (exec_fs (wit_env true) wa_args wa_world [wa_gen] wa_fs)
  = Some (bs "package a").
Proof. exact alias_ignore_kept_after_fix. Qed.

(* non-vacuity: a run with a rendering generator, a stale file, a look-alike and a user file *)
Example C07_example_run :
  let p := mk_pkg (bs "m/a") (bs "a") (bs "a") [bs "a.go"; bs "zz_generated.old.go"; bs "zz_generatedx.go"]
                  [mk_ty (bs "T") KNamed (tag "g1")] (bs "h1:a") in
  let g := script_gen (mk_sgen (bs "g1") false [((bs "m/a", bs "T"), mk_step (bs "var V = 1") RNil false false [])]) in
  let s := [((bs "a", bs "a.go"), bs "A"); ((bs "a", bs "zz_generated.old.go"), bs "O");
            ((bs "a", bs "zz_generatedx.go"), bs "X"); ((bs "", bs "README.md"), bs "R")] in
  let s' := exec_fs (wit_env true) wa_args (mk_world [p] [bs "m/a"]) [g] s in
  map (fun q => fs_lookup q s') [(bs "a", bs "a.go"); (bs "a", bs "zz_generated.old.go"); (bs "a", bs "zz_generatedx.go");
                                 (bs "", bs "README.md"); (bs "", bs "gengo.sum")]
  = [Some (bs "A"); None; Some (bs "X"); Some (bs "R"); None]
  /\ is_some (fs_lookup (bs "a", bs "zz_generated.g1.go") s') = true.
Proof. vm_compute. split; reflexivity. Qed.

(* non-vacuity of C07_exists_iff with EVERY case of the equivalence in one run (Proofs/PipelineWitnessC07.v): an All
   run over package m/a (processed: gengo.sum records another hash) and m/b (skipped: recorded hash = current hash);
   m/a had previous files of g1, old, keep and keepal, all listed among its compiled Go files, next to the user's a.go
   and notes.txt.  Generators: g1 renders; old is called and renders nothing (its listed previous file is STALE: removed);
   keep signals ErrIgnore and renders nothing (previous file kept, byte-identical); ign does the same without a previous
   file (none appears); keepal does it from GenerateAliasType.  The hypotheses of the theorem hold ... *)
Example C07_exists_iff_hypotheses_satisfiable :
  e_fixed we_E = true /\ order_ok we_E /\ NoDup (map g_name we_gens) /\ world_ok we_world
  /\ exec_outcome we_E we_args we_world we_gens we_fs = Done
  /\ In we_a (w_pkgs we_world) /\ processed we_E we_args we_world we_fs we_a = true
  /\ processed we_E we_args we_world we_fs we_b = false
  /\ Forall (fun g => fs_lookup (gen_file we_args we_a (g_name g)) we_fs <> None ->
                      In (fname we_args (g_name g)) (pk_files we_a)) we_gens.
Proof. exact we_hypotheses. Qed.

(* ... per generator: had a file before / rendered something / signalled ErrIgnore / has a file afterwards ... *)
Example C07_exists_iff_cases :
  map (fun g => (g_name g,
                 (is_some (fs_lookup (gen_file we_args we_a (g_name g)) we_fs),
                  negb (is_nil (go_body (gen_run we_E g we_a))),
                  signalled_ignore we_E g we_a,
                  is_some (fs_lookup (gen_file we_args we_a (g_name g)) we_after)))) we_gens
  = [(bs "g1",     (true,  true,  false, true));
     (bs "old",    (true,  false, false, false));
     (bs "keep",   (true,  false, true,  true));
     (bs "ign",    (false, false, true,  false));
     (bs "keepal", (true,  false, true,  true))].
Proof. exact we_table. Qed.

(* ... the bytes afterwards: the stale file gone, the kept files and the user's files as they were, the skipped
   package's directory untouched (its zz_generated.g1.go included), gengo.sum rewritten ... *)
Example C07_exists_iff_files :
  map (fun q => fs_lookup q we_after)
      [(bs "a", bs "zz_generated.g1.go"); (bs "a", bs "zz_generated.old.go"); (bs "a", bs "zz_generated.keep.go");
       (bs "a", bs "zz_generated.ign.go"); (bs "a", bs "zz_generated.keepal.go");
       (bs "a", bs "a.go"); (bs "a", bs "notes.txt"); (bs "", bs "README.md");
       (bs "b", bs "b.go"); (bs "b", bs "zz_generated.g1.go"); (bs "", bs "gengo.sum")]
  = [Some (assemble (bs "a") (bs "g1") (bs "var V = 1")); None; Some (bs "old a keep");
     None; Some (bs "old a keepal");
     Some (bs "package a"); Some (bs "mine"); Some (bs "R");
     Some (bs "package b"); Some (bs "old b g1"); Some (bs "m/a h1:a" ++ nl ++ bs "m/b h1:b" ++ nl)].
Proof. exact we_files. Qed.

(* ... and C07_exists_iff applied to each of the five generators (hypotheses discharged) *)
Example C07_exists_iff_instances :
  Forall (fun g =>
            fs_lookup (gen_file we_args we_a (g_name g)) we_after <> None
            <-> go_body (gen_run we_E g we_a) <> [] \/
                (signalled_ignore we_E g we_a = true /\ fs_lookup (gen_file we_args we_a (g_name g)) we_fs <> None))
         we_gens.
Proof. exact we_exists_iff_instances. Qed.
Print Assumptions C07_exists_iff_instances.

(* ---- the real generators (Model/Generators.v: deepcopy, partialstruct, runtimedoc as instances of the abstract
   generator, built from the generator models of C17 / C18 / C16): the frame holds of a run with exactly these three,
   for every type graph, every previous output, every printing of their IR ---- *)
Require Gengo.Model.Generators Gengo.Proofs.GeneratorsPipe.

(* (an INSTANCE of C07_frame, which holds for ANY list of generators: the frame is a property of Execute's own writes,
   and generators are assumed to do no file I/O of their own.  Nothing about the three generators is used beyond their
   being generators of the model; stated separately only so that the claim is visible for the real ones.) *)
Theorem C07_frame_real_generators :
  forall (E : env) fx graph vis pm fuel fd fs desc pi rfuel cfg tracker tin pg a w s q,
    ~ own_output E a w s q ->
    fs_lookup q (exec_fs E a w (Gengo.Proofs.GeneratorsPipe.real_gens fx graph vis pm fuel fd fs desc pi rfuel cfg tracker tin pg) s)
    = fs_lookup q s.
Proof. exact Gengo.Proofs.GeneratorsPipe.real_gens_frame. Qed.
Print Assumptions C07_frame_real_generators.

(* their names are distinct (the hypothesis NoDup (map g_name gens) of the theorems above) *)
Theorem C07_real_generators_names :
  forall fx graph vis pm fuel fd fs desc pi rfuel cfg tracker tin pg,
    NoDup (map g_name (Gengo.Proofs.GeneratorsPipe.real_gens fx graph vis pm fuel fd fs desc pi rfuel cfg tracker tin pg)).
Proof. exact Gengo.Proofs.GeneratorsPipe.real_gens_names. Qed.
Print Assumptions C07_real_generators_names.
