(* C14 — ResultsOf terminates and reports only possible results, one set per result.
   Statements; the proofs instantiate the lemmas of Proofs/ResultsOf.v, ResultsOfSound.v, ResultsOfMain.v.

   The theorems are about the model Gengo.Model.ResultsOf (pkg/types/function_result_resolver.go function by
   function, push iterators in continuation-passing style, the visits map threaded as state).  [all_fixed] is the
   repaired code, [unfixed] the code before the four "fix:" patches; the refutations keep the defects checkable. *)
Require Import Gengo.Base.Bytes Gengo.Model.ResultsOf.
Require Import Gengo.Proofs.ResultsOf Gengo.Proofs.ResultsOfSound Gengo.Proofs.ResultsOfMain Gengo.Proofs.ResultsOfWitness.

(* Termination: for EVERY program (any call graph: self recursion, mutual recursion, closures; well-typed or not),
   every entry kind and every declared result tuple, fuel = number of (function, result index) pairs + 1 is enough:
   the traversal enters each pair at most once per nesting chain. *)
Theorem C14_terminates :
  forall (p : prog) (en : entry) (sigres : list rdecl),
    exists n, forall m, n <= m -> results_of all_fixed p m en sigres <> OutOfFuel.
Proof.
  intros p en sigres. exists (S (length (nodes p))). intros m Hm.
  exact (results_of_terminates all_fixed p eq_refl m en sigres Hm).
Qed.
Print Assumptions C14_terminates.

(* ... with the explicit bound, and for every combination of the other three repairs *)
Theorem C14_terminates_bound :
  forall (fx : fixes) (p : prog) (fuel : nat) (en : entry) (sigres : list rdecl),
    fx_visits fx = true -> length (nodes p) < fuel -> results_of fx p fuel en sigres <> OutOfFuel.
Proof. intros fx p fuel en sigres H. exact (results_of_terminates fx p H fuel en sigres). Qed.
Print Assumptions C14_terminates_bound.

(* Before the repair of visits.visited:  func Rec(n int) (int, error) { return Rec(n - 1) }  never returns, whatever
   the fuel (the real code exhausts the stack). *)
Theorem C14_terminates_refuted_before_fix :
  exists (p : prog) (en : entry) (sigres : list rdecl),
    forall fuel, results_of unfixed p fuel en sigres = OutOfFuel.
Proof. exists prog_rec, (EnBody 0), [rd_int; rd_err]. exact (rec_diverges unfixed eq_refl). Qed.
Print Assumptions C14_terminates_refuted_before_fix.

(* Shape: the declared number of results n and exactly n lists, none empty (n = 0: no list) — for every program,
   every entry kind (own declaration, imported function asked of the importer, interface method, a signature
   registered under any other node kind). *)
Theorem C14_shape :
  forall (p : prog) (fuel : nat) (en : entry) (sigres : list rdecl) ls n,
    (forall f, en = EnBody f -> f < length p) ->
    results_of all_fixed p fuel en sigres = Ok (ls, n) ->
    n = length sigres /\ length ls = n /\ Forall (fun l => l <> []) ls.
Proof. intros p fuel en sigres ls n. exact (results_of_shape all_fixed p fuel en sigres ls n eq_refl eq_refl). Qed.
Print Assumptions C14_shape.

(* Before the repair of Concat: asking the importer about an imported function gives no list at all for n > 0. *)
Theorem C14_shape_refuted_before_fix :
  forall (p : prog) (fuel : nat) (fo : option nat) (sigres : list rdecl) ls n,
    sigres <> [] -> results_of unfixed p fuel (EnSelector fo) sigres = Ok (ls, n) ->
    ls = [] /\ n = length sigres /\ 0 < n.
Proof. intros p fuel fo sigres ls n H. exact (concat_unfixed_loses unfixed p fuel fo sigres eq_refl H ls n). Qed.
Print Assumptions C14_shape_refuted_before_fix.

(* ... and before the fallback at the end of Results: a function the importer calls as a dot-imported name, in
   parentheses or through an alias gets no list either. *)
Theorem C14_shape_refuted_before_fix_other :
  forall (p : prog) (fuel : nat) (sigres : list rdecl),
    sigres <> [] -> results_of unfixed p fuel EnOther sigres = Ok ([], length sigres) /\ 0 < length sigres.
Proof. intros p fuel sigres. exact (other_unfixed_loses unfixed p fuel sigres eq_refl). Qed.
Print Assumptions C14_shape_refuted_before_fix_other.

(* No panic and soundness, on well-typed programs of the mini-language: ResultsOf does not panic, and every
   alternative reported for result i is a constant or assignable to the declared type of result i. *)
Theorem C14_no_panic :
  forall (os : otys) (p : prog) (fuel : nat) (en : entry) (sigres : list rdecl),
    wt_b os p = true -> entry_ok p en sigres = true ->
    results_of all_fixed p fuel en sigres <> Panic.
Proof. intros os p fuel en sigres Hwt Hen. exact (proj1 (results_of_sound all_fixed os p fuel en sigres eq_refl Hwt Hen)). Qed.
Print Assumptions C14_no_panic.

(* HOW TO READ C14_sound.  [wt_b os p] ("p is a well-typed program") checks every return statement and every
   assignment with [wt_expr], and at every LEAF expression (EVal / EFuncLit: anything that is not a call) that is
   [good_alt os T a], which contains [sound_b a T] — the very predicate of the conclusion, for the type T of the
   place the leaf is written to.  So leaf soundness is a HYPOTHESIS on the typed program: "the expression written
   at a return / assignment position is a constant or assignable to the type of that position".  Go's type checker
   guarantees it for every program that compiles (and the harness recomputes it from go/types on every case); the
   theorem does not prove it.  What the theorem proves is that ResultsOf's PROPAGATION preserves it: an alternative
   found at a leaf of some other function, and carried to result i of the function asked about through any chain
   of calls (single- and multi-result, recursive or not, cut by the visits map), assignments to locals and named
   results, bare returns and function-literal arguments, is still a constant or assignable to the DECLARED type of
   result i — i.e. the resolver never follows an edge along which the types stop being assignable (it follows only
   results printed "error"/"any"/"interface{}", matches assignments by object, indexes multi-result calls by
   position).  C14_example_sound_witness below proves [wt_b] for a concrete program with all these features and
   instantiates the theorem; C14_example_leaf_hypothesis_needed shows that with an ill-typed leaf (rejected by
   [wt_b]) the conclusion fails, so the hypothesis is not idle. *)
Theorem C14_sound :
  forall (os : otys) (p : prog) (fuel : nat) (en : entry) (sigres : list rdecl) ls n,
    wt_b os p = true -> entry_ok p en sigres = true ->
    results_of all_fixed p fuel en sigres = Ok (ls, n) ->
    forall i l r a, nth_error ls i = Some l -> nth_error sigres i = Some r -> In a l ->
                    a_const a = true \/ assignable (a_ty a) (r_ty r) = true.
Proof.
  intros os p fuel en sigres ls n Hwt Hen H i l r a Hl Hr Hin. apply orb_true_iff.
  exact (proj2 (results_of_sound all_fixed os p fuel en sigres eq_refl Hwt Hen) (ls, n) H i l r a Hl Hr Hin).
Qed.
Print Assumptions C14_sound.

(* Together: on a well-typed program ResultsOf returns. *)
Theorem C14_total :
  forall (os : otys) (p : prog) (en : entry) (sigres : list rdecl),
    wt_b os p = true -> entry_ok p en sigres = true ->
    exists ls n, results_of all_fixed p (S (length (nodes p))) en sigres = Ok (ls, n).
Proof. intros os p en sigres Hwt Hen. exact (results_of_total all_fixed os p _ en sigres eq_refl eq_refl Hwt Hen (le_n _)). Qed.
Print Assumptions C14_total.

(* Before the repair of the closure index:  return wrap(func() (int, error) {...})  with wrap returning one result
   panics (index out of range) although the program is well-typed. *)
Theorem C14_no_panic_refuted_before_fix :
  wt_b otys_clos prog_clos = true /\ entry_ok prog_clos (EnBody 2) [rd_err] = true /\
  results_of unfixed prog_clos 10 (EnBody 2) [rd_err] = Panic.
Proof. exact no_panic_refuted. Qed.
Print Assumptions C14_no_panic_refuted_before_fix.

(* Literal-only functions: when every return statement lists only plain expressions (literals, operators on them,
   nil / true / false), the alternatives at each position are exactly those values in source order — already before
   the repairs ([fx] arbitrary). *)
Theorem C14_literal_exact :
  forall (fx : fixes) (p : prog) (fuel : nat) (f : nat) (fd : fdef) (rows : list (list alt)),
    nth_error p f = Some fd -> plain_returns fd = Some rows -> 0 < fuel ->
    results_of fx p fuel (EnBody f) (f_res fd) = Ok (map (column rows) (seq 0 (nres fd)), nres fd).
Proof. exact literal_exact. Qed.
Print Assumptions C14_literal_exact.

(* ---- non-vacuity ---- *)

(* the repaired code on the closure program: the closure's error result is followed, its int result is not *)
Example C14_example_closure :
  results_of all_fixed prog_clos 10 (EnBody 2) [rd_err] = Ok ([[alt_nil; alt_e; alt_nil]], 1).
Proof. vm_compute. reflexivity. Qed.

(* the repaired code on Rec: it returns; nothing is found for the error result, so the declared type is reported *)
Example C14_example_rec :
  results_of all_fixed prog_rec 3 (EnBody 0) [rd_int; rd_err]
  = Ok ([[type_alt rd_int 0 0%N]; [type_alt rd_err 0 0%N]], 2).
Proof. vm_compute. reflexivity. Qed.

(* a literal-only function: func Lit() (any, any) { if .. { return 1, nil }; return "s", true } *)
Definition rd_any := mk_rdecl TAny (bs "any") None.
Definition alt_s := mk_alt (bs """s""") true TUntyped XOther 0 0%N.
Definition alt_true := mk_alt (bs "true") true TUntyped (XIdent false 2%N) 0 0%N.
Definition prog_lit : prog :=
  [ mk_fdef 0 [rd_any; rd_any]
      (Some [SGroup [SReturn 0%N (Some [EVal alt_one; EVal alt_nil])]; SReturn 0%N (Some [EVal alt_s; EVal alt_true])]) ].
Example C14_example_literal :
  exists fd rows, nth_error prog_lit 0 = Some fd /\ plain_returns fd = Some rows /\
                  map (column rows) (seq 0 (nres fd)) = [[alt_one; alt_s]; [alt_nil; alt_true]].
Proof. eexists. eexists. split; [reflexivity|]. split; vm_compute; reflexivity. Qed.

Example C14_example_wt : wt_b [(1%N, TNil); (2%N, TBool)] prog_lit = true /\ wt_b [] prog_rec = true.
Proof. vm_compute. split; reflexivity. Qed.

(* ---- non-vacuity of C14_sound / C14_no_panic / C14_total on a program with structure ----
   Proofs/ResultsOfWitness.v, [w_prog]: nine functions of one package —
     Leaf (returns &MyErr{}), Mid -> Leaf, Top -> Mid                      (call chain)
     Entry:  err := Top(); return err                                      (assignment through a local)
     Pair:   return 1, Entry()          Multi:  return 0, nil / return Pair()   (multi-result call as the whole tuple)
     Even <-> Odd                                                           (mutually recursive pair)
     All:    n, err := Multi(); return 0, err; e2 := Even(n); return n, e2  (multi-result call assigned to two locals)
   ResultsOf(All) reaches Leaf at call depth 7.  [wt_b] is a boolean function: it is proved by computation. *)
Example C14_example_wt_witness :
  wt_b w_otys w_prog = true /\ entry_ok w_prog (EnBody 8) [w_int; w_err] = true /\
  results_of all_fixed w_prog w_fuel (EnBody 8) [w_int; w_err] = Ok (w_results, 2).
Proof. exact (conj w_wt (conj w_entry_ok w_run)). Qed.

(* C14_sound instantiated on it (hypotheses discharged by the Example above) *)
Example C14_example_sound_witness :
  forall i l r a,
    nth_error w_results i = Some l -> nth_error [w_int; w_err] i = Some r -> In a l ->
    a_const a = true \/ assignable (a_ty a) (r_ty r) = true.
Proof. exact (C14_sound w_otys w_prog w_fuel (EnBody 8) [w_int; w_err] w_results 2 w_wt w_entry_ok w_run). Qed.

Example C14_example_no_panic_total_witness :
  (forall fuel, results_of all_fixed w_prog fuel (EnBody 8) [w_int; w_err] <> Panic) /\
  (exists ls n, results_of all_fixed w_prog w_fuel (EnBody 8) [w_int; w_err] = Ok (ls, n)).
Proof.
  exact (conj (fun fuel => C14_no_panic w_otys w_prog fuel (EnBody 8) [w_int; w_err] w_wt w_entry_ok)
              (C14_total w_otys w_prog (EnBody 8) [w_int; w_err] w_wt w_entry_ok)).
Qed.

(* the same program with  func Leaf() error { return s }  (s a string): [wt_b] rejects it, and the resolver carries
   the string up to All's error result — the leaf hypothesis is what C14_sound needs, and nothing more *)
Example C14_example_leaf_hypothesis_needed :
  wt_b w_otys w_prog_bad = false /\
  exists ls l, results_of all_fixed w_prog_bad w_fuel (EnBody 8) [w_int; w_err] = Ok (ls, 2) /\
               nth_error ls 1 = Some l /\ In w_bad_leaf l /\
               a_const w_bad_leaf = false /\ assignable (a_ty w_bad_leaf) TError = false.
Proof. exact (conj w_bad_rejected w_bad_propagates). Qed.
