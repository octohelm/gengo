(* C18 — partialstruct output mirrors the origin struct minus omitted fields.

   Statements over the model of devpkg/partialstruct (Model/GenPartialStruct.v), for EVERY import-tracker function L,
   target package, origin struct, omit set and replace set.  [c] selects the code before/after the repairs; the
   theorems about the repaired code take the corresponding switch as a hypothesis, the `_refuted_before_fix` lemmas
   exhibit the witness for the unrepaired code.  Five proofs open with [intros ... _] (C18_types, C18_field_types,
   C18_stmts_are_c17_fields_copy, C18_copy_unshared, C18_copy_unshared_plain): the lemma quoted is stated without the
   hypothesis in that place, so the statement holds without it.  Go's semantics of the generated text (compilation, reflection,
   execution) is not in here: it is validated per run by compile-and-run (harness). *)
Require Import Gengo.Base.Bytes Gengo.Model.GenPartialStruct Gengo.Proofs.GenPartialStruct.

(* ---- the generated struct: exactly the origin's fields that are not omitted, in order, replaced where asked ---- *)

Theorem C18_fields : forall L target c ti g i,
    fx_tag c = true ->
    generate_type L target c ti = TGen g i ->
    exists fs, ti_under ti = Some fs /\
      g_fields g = map (apply_replace L target c (replace_map (ti_replace ti) []))
                       (filter (retained (ti_omit ti)) fs).
Proof.
  intros L target c ti g i Htag H.
  destruct (generate_type_gen_inv L target c ti g i H) as [_ [fs [o [Hu [_ [_ [[i1 Hf] _]]]]]]].
  exists fs. split; [exact Hu | exact (gen_fields_loop_spec L target c Htag _ _ _ _ _ _ _ Hf)].
Qed.
Print Assumptions C18_fields.

(* NOTE on the two theorems that follow (audit C1).  [apply_replace] is the model's own field loop and [type_lit] the
   model's own reading of Dumper.TypeLit, so C18_field_unreplaced / C18_field_replaced UNFOLD the model: they say which
   branch the model takes (no replace tag: name and tag untouched, type through [type_lit]; replace tag: the words of the
   tag), i.e. they are definitional IN the model and document it.  What is not definitional is (a) that [type_lit]'s
   expression denotes the origin's type — C18_types below, a theorem by induction, instantiated in C18_witness_types —,
   (b) that [type_lit] is C11's model of the dumper on the common domain — C18_type_lit_is_c11 —, and (c) that the model
   is the code: the harness compares, per run, the field list of the generated struct (names, type texts, tags) with
   [g_fields] (Corr/C18.v mismatches) and, in a compiled program, the reflect.Type of every generated field with the
   origin's (c18/run.go reflectViolations). *)

(* a field without a replace tag keeps its name, its type (as Dumper.TypeLit renders it) and its tag, byte for byte *)
Theorem C18_field_unreplaced : forall L target c repl f,
    lookup (f_name f) repl = None ->
    apply_replace L target c repl f = mk_gfield (f_name f) (fst (field_type_lit L target c (f_ty f))) (f_tag f).
Proof. intros L target c repl f H. unfold apply_replace. rewrite H. reflexivity. Qed.
Print Assumptions C18_field_unreplaced.

(* a replaced field keeps its name; its type is the replacement; its tag is the words after the type, if any *)
Theorem C18_field_replaced : forall L target c repl f t0 rest,
    lookup (f_name f) repl = Some (t0 :: rest) ->
    gf_name (apply_replace L target c repl f) = f_name f /\
    gf_ty (apply_replace L target c repl f) = OText (rendered_ref L target t0) /\
    gf_tag (apply_replace L target c repl f) = match rest with [] => f_tag f | _ => join_with ch_space rest end.
Proof. intros L target c repl f t0 rest H. unfold apply_replace. rewrite H. cbn. repeat split. Qed.
Print Assumptions C18_field_replaced.

(* identical types, foreign types correctly imported: the rendered expression denotes the origin's type when read
   through an import block that maps each mentioned foreign package to the tracker's name for it, without clashes *)
Theorem C18_types : forall L target c imps,
    (forall p n, In (p, n) imps -> n = L p) ->
    NoDup (map snd imps) ->
    forall t,
      (fx_errlit c = true \/ no_error t = true) ->
      has_iface_lit t = false ->
      imported L target imps t ->
      denotes imps target (fst (type_lit L target c t)) t = true.
Proof. intros L target c imps _. apply type_lit_denotes. Qed.
Print Assumptions C18_types.

(* the same for the expression a FIELD's type is rendered as (snippet.ID(f.Type())): a type that is an alias is printed by
   the alias's own name, which denotes it; an alias below the top level is printed through its right-hand side (the
   C18_types clause above: an alias and its right-hand side are the same type).  That the expanded spelling can be
   WRITTEN in the target package (no type of an `internal` package, no unexported name) is Go's visibility rule, not part
   of this model: it is observed by compiling (known finding nested_alias_of_unnameable_type) *)
Theorem C18_field_types : forall L target c imps,
    (forall p n, In (p, n) imps -> n = L p) ->
    NoDup (map snd imps) ->
    forall t,
      (fx_errlit c = true \/ no_error t = true) ->
      fhas_iface_lit t = false ->
      fimported L target imps t ->
      denotes imps target (fst (field_type_lit L target c t)) t = true.
Proof. intros L target c imps _. apply field_type_lit_denotes. Qed.
Print Assumptions C18_field_types.

Theorem C18_field_type_imports : forall L target c t,
    snd (field_type_lit L target c t) = filter (fun p => negb (bytes_eqb p target)) (fty_pkgs t).
Proof.
  intros L target c t. destruct t; try apply type_lit_imports.
  cbn [field_type_lit fty_pkgs filter]. destruct (bytes_eqb _ target); reflexivity.
Qed.
Print Assumptions C18_field_type_imports.

(* fields typed through an alias (createFieldSnippet switches on types.Unalias(f.Type())): an alias of a named type is
   treated as that named type (C18_copy_foreign_named, C18_copy_replaced_named); an alias of a slice or map type gets the
   container copy, and make(...) spells the alias's own name (the right-hand side may not be writable in the target
   package); an alias of anything else is assigned *)
Theorem C18_copy_alias_container : forall L target c b f p n r,
    f_ty f = TAlias p n r ->
    is_container (unalias r) = true ->
    exists s, field_stmt L target c b f = GOk s (snd (field_type_lit L target c (f_ty f))) /\
      (s = SCopySlice (f_name f) (fst (field_type_lit L target c (f_ty f))) \/
       s = SCopyMap (f_name f) (fst (field_type_lit L target c (f_ty f)))) /\
      fst (field_type_lit L target c (f_ty f)) = (if bytes_eqb p target then OIdent n else OSel (L p) n).
Proof. exact alias_container_copied. Qed.
Print Assumptions C18_copy_alias_container.

Theorem C18_copy_alias_field : forall L target c b f p n r,
    f_ty f = TAlias p n r ->
    (forall pkg name u ms, unalias r <> TNamed pkg name u ms) -> unalias r <> TError ->
    is_container (unalias r) = false ->
    field_stmt L target c b f = GOk (SAssign (f_name f)) [].
Proof. exact alias_field_assigned. Qed.
Print Assumptions C18_copy_alias_field.

(* before the repairs bf0d8cc (fixes/C18-replace-on-alias-field.diff) and adc5fac no alias was looked through: every
   alias-typed field was assigned - a replaced field typed by an alias of a named struct (`out.A = in.A` with the
   replacement's type on the right: does not compile), a slice or map declared through an alias (shared with the source) *)
Theorem C18_copy_alias_refuted_before_fix : forall L target c b f p n r,
    f_ty f = TAlias p n r ->
    field_stmt_gen L target c false b f = GOk (SAssign (f_name f)) [].
Proof. intros L target c b f p n r Et. unfold field_stmt_gen, switch_type. rewrite Et. reflexivity. Qed.
Print Assumptions C18_copy_alias_refuted_before_fix.

(* before the repair adc955a the copy loop did not pass over the blank field: `out._ = in._` (does not compile) *)
Theorem C18_copy_blank_refuted_before_fix : forall L target c t tag,
    gen_stmts_loop L target c [] [] [mk_field blank_name (TBasic t) tag] [] [] = GOk [SAssign blank_name] [] /\
    gen_stmts_loop L target c (copy_skip []) [] [mk_field blank_name (TBasic t) tag] [] [] = GOk [] [].
Proof. intros. split; reflexivity. Qed.
Print Assumptions C18_copy_blank_refuted_before_fix.

(* non-vacuity: `Items origin.Items` with `type Items = []hid.Item` (hid below origin/internal) keeps the alias name, also in
   the make(...) of its container copy (before the repairs: assigned); an alias of a foreign struct is assigned; `Spec origin.InnerA` (alias of a struct) under a replace tag is converted by the replacement's DeepCopyIntoAs;
   below the top level (`[]origin.Item`, `type Item = hid.Item`) the right-hand side is printed - the same type *)
Example C18_example_alias_fields :
  let hid := bs "example.com/m/origin/internal/hid" in
  let items := TAlias w_origin (bs "Items") (TSlice (TNamed hid (bs "Item") UStruct [])) in
  let item := TAlias w_origin (bs "Item") (TNamed hid (bs "Item") UStruct []) in
  let innera := TAlias w_origin (bs "InnerA") (TNamed w_origin (bs "Inner") UStruct []) in
  let imps := [(w_origin, bs "origin"); (hid, bs "hid")] in
  field_type_lit last_segment w_target all_fixed items = (OSel (bs "origin") (bs "Items"), [w_origin]) /\
  field_stmt last_segment w_target all_fixed false (mk_field (bs "Items") items [])
    = GOk (SCopySlice (bs "Items") (OSel (bs "origin") (bs "Items"))) [w_origin] /\
  field_stmt_gen last_segment w_target all_fixed false false (mk_field (bs "Items") items []) = GOk (SAssign (bs "Items")) [] /\
  field_stmt last_segment w_target all_fixed false (mk_field (bs "Item") item []) = GOk (SAssign (bs "Item")) [] /\
  field_stmt last_segment w_target all_fixed true (mk_field (bs "Spec") innera [])
    = GOk (SCallInto (bs "Spec") dc_into_name) [] /\
  field_stmt_gen last_segment w_target all_fixed false true (mk_field (bs "Spec") innera []) = GOk (SAssign (bs "Spec")) [] /\
  field_type_lit last_segment w_target all_fixed (TSlice item) = (OSlice (OSel (bs "hid") (bs "Item")), [hid]) /\
  denotes imps w_target (OSel (bs "origin") (bs "Items")) items = true /\
  denotes imps w_target (OSlice (OSel (bs "hid") (bs "Item"))) items = true /\
  denotes imps w_target (OSlice (OSel (bs "hid") (bs "Item"))) (TSlice item) = true /\
  denotes imps w_target (OSlice (OSel (bs "origin") (bs "Item"))) (TSlice item) = true.
Proof. intros hid items item innera imps. repeat split; reflexivity. Qed.

(* known finding unnamed_method_interface_rendered_any: the guard above is needed *)
Theorem C18_types_refuted_method_interface : forall L target c imps txt,
    denotes imps target (fst (type_lit L target c (TIfaceLit txt))) (TIfaceLit txt) = false.
Proof. reflexivity. Qed.
Print Assumptions C18_types_refuted_method_interface.

(* and the paths it registers with the tracker are exactly the foreign packages the type mentions *)
Theorem C18_type_imports : forall L target c t,
    snd (type_lit L target c t) = filter (fun p => negb (bytes_eqb p target)) (ty_pkgs t).
Proof. exact type_lit_imports. Qed.
Print Assumptions C18_type_imports.

(* a struct defined from a named type always generates (no error, no panic), whatever the tags and field types *)
Theorem C18_generates : forall L target c ti fs o,
    fx_tag c = true -> fx_errnil c = true ->
    ti_enabled ti = true -> ti_name ti <> [] ->
    ti_under ti = Some fs ->
    origin_loop c (ti_name ti) (ti_group ti) None = Some o ->
    replace_modelled L target (ti_omit ti) (replace_map (ti_replace ti) []) fs ->
    exists g i, generate_type L target c ti = TGen g i.
Proof. exact generate_total. Qed.
Print Assumptions C18_generates.

(* NOTE on C18_copy (audit C1).  It is stated on the SIMPLE value model of Model/GenPartialStruct.v, in which
   (i) [deep_copy_as _ _ None := Some None] — nil gives nil by definition of the model (definitional in the model; the
   generated nil guard is checked per run by the harness, which calls DeepCopyAs on a nil receiver: c18/run.go "DeepCopyAs
   on nil does not return nil"; the statement-wise version, where the guard is a statement that is executed, is the first
   conjunct of C18_copy_unshared below), and
   (ii) [copy_container v := v] — make+copy / make+range are the identity on VALUES: this model has no addresses, so
   C18_copy says WHICH fields receive WHAT (omitted: zero; retained: the source value, converted exactly for call
   statements) and nothing about freshness.  Freshness / no sharing of the copied slices and maps is C18_copy_unshared
   (C17's heap model: copy_slice_cell / copy_map_cell allocate), instantiated in C18_witness_copy_unshared; on the real
   code C18's harness runs DeepCopyAs on filled values and compares retained / omitted / replaced fields (c18/run.go
   reflectViolations); mutation of the copy's containers is tested on the shared copy helper by C17's harness only
   (c17/prog.go mutate). *)

(* ---- DeepCopyAs: nil gives nil; otherwise omitted fields are zero and every retained field receives the source
        value — converted by [conv] exactly when the statement selected for it is a method call ---- *)

Theorem C18_copy : forall L target c ti g i fs conv,
    generate_type L target c ti = TGen g i ->
    ti_under ti = Some fs ->
    NoDup (map f_name fs) ->
    deep_copy_as conv (g_stmts g) None = Some None /\
    forall inv, exists out,
      deep_copy_as conv (g_stmts g) (Some inv) = Some (Some out) /\
      forall f, In f fs ->
        (omitted (copy_skip (ti_omit ti)) (f_name f) = true -> sget out (f_name f) = VZero) /\
        (omitted (copy_skip (ti_omit ti)) (f_name f) = false ->
           exists s j, In s (g_stmts g) /\
             field_stmt L target c (is_replaced (replace_map (ti_replace ti) []) f) f = GOk s j /\
             sget out (f_name f) = if is_call s then conv (f_name f) (sget inv (f_name f))
                                   else sget inv (f_name f)).
Proof. exact copy_semantics. Qed.
Print Assumptions C18_copy.

(* which statements are calls: none for unreplaced fields of scalar, slice, map, pointer, array, interface and
   error types … *)
Theorem C18_copy_unreplaced_plain : forall L target c f s j,
    field_stmt L target c false f = GOk s j ->
    (forall pkg name u ms, unalias (f_ty f) <> TNamed pkg name u ms) ->
    is_call s = false.
Proof.
  intros L target c f s j H Hn. pose proof (field_stmt_shape L target c false f) as X. rewrite H in X.
  destruct (is_container (unalias (f_ty f))); [destruct X as [->| ->]; reflexivity|].
  destruct X as [->|[[E|[pkg [name [u [ms E]]]]] _]]; [reflexivity | discriminate | destruct (Hn _ _ _ _ E)].
Qed.
Print Assumptions C18_copy_unreplaced_plain.

(* … none for foreign named types that have no DeepCopyAs / DeepCopyIntoAs method (time.Duration, time.Time, …) … *)
Theorem C18_copy_foreign_named : forall L target c f pkg name u ms s j,
    unalias (f_ty f) = TNamed pkg name u ms ->
    bytes_eqb pkg target = false ->
    no_as_methods ms = true ->
    field_stmt L target c false f = GOk s j ->
    s = SAssign (f_name f).
Proof. exact foreign_plain_named_assigned. Qed.
Print Assumptions C18_copy_foreign_named.

(* … and a replaced field of a named type is converted by the replacement's DeepCopyIntoAs *)
Theorem C18_copy_replaced_named : forall L target c f pkg name u ms s j,
    unalias (f_ty f) = TNamed pkg name u ms ->      (* a named type, or an alias of one *)
    field_stmt L target c true f = GOk s j ->
    s = SCallInto (f_name f) dc_into_name.
Proof.
  intros L target c f pkg name u ms s j Et H. unfold field_stmt, field_stmt_gen, switch_type in H. rewrite Et in H.
  inversion H. reflexivity.
Qed.
Print Assumptions C18_copy_replaced_named.

(* ---- error cases: an error, and nothing rendered ---- *)

Theorem C18_errors : forall L target c ti,
    ti_enabled ti = true ->
    ti_name ti <> [] ->
    (ti_under ti = None -> generate_type L target c ti = TErr EMustStruct) /\
    (forall fs, ti_under ti = Some fs -> origin_loop c (ti_name ti) (ti_group ti) None = None ->
                generate_type L target c ti = TErr ENeedNamed).
Proof. exact generate_type_errors. Qed.
Print Assumptions C18_errors.

(* a package with such a declaration never gets a file … *)
Theorem C18_errors_no_file : forall L target c tis acc imps,
    (exists ti, In ti tis /\ decl_bad c ti) ->
    forall ts i, generate_pkg L target c tis acc imps <> OutFile ts i.
Proof. exact generate_pkg_no_file. Qed.
Print Assumptions C18_errors_no_file.

(* … and Execute returns the error unless another type of the package makes the generator panic first *)
Theorem C18_errors_reported : forall L target c tis acc imps,
    (exists ti, In ti tis /\ decl_bad c ti) ->
    (forall ti, In ti tis -> generate_type L target c ti <> TPanic /\ generate_type L target c ti <> TGeneric) ->
    exists k, generate_pkg L target c tis acc imps = OutErr k.
Proof. exact generate_pkg_error. Qed.
Print Assumptions C18_errors_reported.

(* "defined from another named type" is decided on the type's OWN spec, also inside a grouped declaration (#31) *)
Theorem C18_origin_own_spec : forall c ti,
    fx_group c = true ->
    NoDup (map fst (ti_group ti)) ->
    origin_loop c (ti_name ti) (ti_group ti) None = own_origin ti.
Proof. exact origin_own_spec. Qed.
Print Assumptions C18_origin_own_spec.

(* ---- scoping of the rendered methods (known finding import_name_shadows_template_local): outside the class no
        type expression inside a method body mentions an import name that a template local shadows ---- *)

Theorem C18_scoping_partial : forall L target c ti g i,
    (forall p, L p = last_segment p) ->
    fx_group c = true ->
    NoDup (map fst (ti_group ti)) ->
    generate_type L target c ti = TGen g i ->
    shadow_type target ti = false ->
    gtype_shadowed g = false.
Proof. exact scoping_partial. Qed.
Print Assumptions C18_scoping_partial.

Theorem C18_scoping_refuted :
    exists g i, generate_type last_segment w_target all_fixed w_shadow_ti = TGen g i /\
                gtype_shadowed g = true /\ shadow_type w_target w_shadow_ti = true.
Proof. eexists. eexists. split; [vm_compute; reflexivity|]. split; vm_compute; reflexivity. Qed.
Print Assumptions C18_scoping_refuted.

(* ---- the code before the repairs ---- *)

(* #25: a tag with a dot was parsed as a type reference: the field list is not the mirror and a bogus import appears *)
Theorem C18_fields_refuted_before_fix :
    exists L g i,
      generate_type L w_target cfg_tag_unfixed w_tag_ti = TGen g i /\
      g_fields g <> [mk_gfield (bs "A") (OIdent (bs "int")) (f_tag w_tag_field)] /\
      In (of_string "json:""a") i.
Proof.
  exists (fun _ => bs "pkg"). eexists. eexists. split; [reflexivity|]. split; [discriminate|]. left. reflexivity.
Qed.
Print Assumptions C18_fields_refuted_before_fix.

(* #25: … or the generator panicked ("invalid type ref") on a struct defined from a named type *)
Theorem C18_generates_refuted_before_fix : forall L,
    generate_type L w_target cfg_tag_unfixed w_tag_panic_ti = TPanic.
Proof. intros L. vm_compute. reflexivity. Qed.
Print Assumptions C18_generates_refuted_before_fix.

(* #31: in a grouped declaration the last spec's origin was taken for every type *)
Theorem C18_origin_refuted_before_fix :
    origin_loop cfg_group_unfixed (ti_name w_group_ti) (ti_group w_group_ti) None = Some (w_origin, bs "B") /\
    own_origin w_group_ti = Some (w_origin, bs "A").
Proof. split; vm_compute; reflexivity. Qed.
Print Assumptions C18_origin_refuted_before_fix.

(* #31: … and a struct literal grouped with a named spec generated code instead of being reported *)
Theorem C18_errors_refuted_before_fix : forall L,
    decl_error w_group_lit_ti = Some ENeedNamed /\
    exists g i, generate_type L w_target cfg_group_unfixed w_group_lit_ti = TGen g i.
Proof. intros L. split; [reflexivity|]. eexists. eexists. reflexivity. Qed.
Print Assumptions C18_errors_refuted_before_fix.

(* #23 / #15 (prerequisite repairs owned by C17 / C11): a field of type error made the helper panic, and TypeLit
   printed it as `any` *)
Theorem C18_error_field_refuted_before_prerequisites : forall L,
    generate_type L w_target (mk_cfg true true true false) w_err_ti = TPanic /\
    (forall imps, denotes imps w_target (fst (type_lit L w_target (mk_cfg true true false true) TError)) TError = false).
Proof. intros L. split; [vm_compute; reflexivity|]. intros imps. vm_compute. reflexivity. Qed.
Print Assumptions C18_error_field_refuted_before_prerequisites.

(* ---- non-vacuity: the hypotheses are satisfiable on a non-trivial instance ---- *)

Example C18_example_generated :
  generate_type last_segment w_target all_fixed ex_ti =
  TGen (mk_gtype (bs "X") (OSel (bs "origin") (bs "T"))
         [ mk_gfield (bs "A") (OIdent (bs "int")) (of_string "json:""a.b"" yaml:""x""");
           mk_gfield (bs "C") (OMap (OIdent (bs "string")) (OSel (bs "origin") (bs "Inner"))) [];
           mk_gfield (bs "D") (OPtr (OSel (bs "time") (bs "Duration"))) (bs "d");
           mk_gfield (bs "I") (OText (bs "Y")) (of_string "json:""ii"" yaml:""q.r""");
           mk_gfield (bs "E") (OIdent (bs "error")) [];
           mk_gfield (bs "G") (OIdent (bs "any")) (bs "g") ]
         [ SAssign (bs "A");
           SCopyMap (bs "C") (OMap (OIdent (bs "string")) (OSel (bs "origin") (bs "Inner")));
           SAssign (bs "D");
           SCallInto (bs "I") (bs "DeepCopyIntoAs");
           SAssign (bs "E");
           SAssign (bs "G") ])
       [w_origin; ex_time; w_origin; w_origin].
Proof. vm_compute. reflexivity. Qed.

Example C18_example_hypotheses :
  NoDup (map f_name ex_fields) /\ NoDup (map fst (ti_group ex_ti)) /\ shadow_type w_target ex_ti = false /\
  own_origin ex_ti = Some (w_origin, bs "T") /\
  (forall f t0 rest, In f ex_fields -> retained (ti_omit ex_ti) f = true ->
     lookup (f_name f) (replace_map (ti_replace ex_ti) []) = Some (t0 :: rest) -> ref_modelled last_segment w_target t0 = true).
Proof. exact example_hypotheses. Qed.

Example C18_example_copy :
  let ss := [ SAssign (bs "A"); SCopyMap (bs "C") (OIdent (bs "m")); SCallInto (bs "I") (bs "DeepCopyIntoAs") ] in
  let inv := [(bs "A", VAtom 7); (bs "B", VSlice [VAtom 1]); (bs "C", VMap [(VAtom 1, VAtom 2)]); (bs "I", VAtom 9)] in
  deep_copy_as (fun _ v => VSlice [v]) ss (Some inv) =
  Some (Some [(bs "I", VSlice [VAtom 9]); (bs "C", VMap [(VAtom 1, VAtom 2)]); (bs "A", VAtom 7)]).
Proof. vm_compute. reflexivity. Qed.

Example C18_example_errors :
  generate_pkg last_segment w_target all_fixed
    [ex_ti; mk_tinput (bs "z") true [(bs "z", ROther)] (Some ex_fields) [] []] [] [] = OutErr ENeedNamed /\
  generate_pkg last_segment w_target all_fixed
    [mk_tinput (bs "k") true [(bs "k", RIdent (Some ([], bs "int")))] None [] []; ex_ti] [] [] = OutErr EMustStruct.
Proof. split; vm_compute; reflexivity. Qed.

(* ================================================================================================================
   The copy-field helper is modelled twice (here, and in Model/DeepCopy.v for C17).  Through the adapter of
   Model/Generators.v the two models are one: same statement for every field of the common domain, partialstruct's
   Skip / FieldContext callbacks being the only difference; hence C17's heap-level theorems hold of the DeepCopyAs /
   DeepCopyIntoAs bodies generated here (C18_copy above is stated on a simple value model only).

   [fty17] translates a field type (defined on basic, any / interface, error, named types, slices and maps of scalars —
   C17's grammar; pointer and array fields and containers of non-scalars are outside it), [msig17] a method signature
   (DeepCopyAs -> DeepCopy, DeepCopyIntoAs -> DeepCopyInto: the helper is parametric in the two names), [stmt17] a
   statement; [agrees target G t]: C17's type graph G declares a same-package named type t with the kind and the
   explicit methods C18's description carries (a named interface type has none).
   ================================================================================================================ *)
Require Import Gengo.Model.Generators Gengo.Proofs.Generators.

Theorem Copy_c17_is_c18_field_stmt : forall L target c, fx_errnil c = true ->
  forall G f ft,
    fty17 L target c (f_ty f) = Some ft ->
    agrees target G (f_ty f) ->
    exists s18 i s17 dep,
      field_stmt L target c false f = GOk s18 i /\
      DC.field_stmt DC.all_fixed G [] (f_name f) ft = Ok (s17, dep) /\
      stmt17 s18 = s17.
Proof. exact field_stmt_agree. Qed.
Print Assumptions Copy_c17_is_c18_field_stmt.

(* outside the common domain the statement depends on the top-level constructor only (the Go type switch); alias types
   are not part of C17's model at all (C18_copy_alias_field, C18_copy_foreign_named, C18_copy_replaced_named say what is
   selected for them); the guard of the predeclared error's nil package is only needed for an alias of error *)
Theorem Copy_outside_common_domain : forall L target c,
    fx_errnil c = true ->
    forall f b,
    fty17 L target c (f_ty f) = None ->
    exists s i, field_stmt L target c b f = GOk s i /\
      match f_ty f with
      | TSlice _ => exists o, s = SCopySlice (f_name f) o
      | TMap _ _ => exists o, s = SCopyMap (f_name f) o
      | TAlias _ _ _ => True
      | _ => s = SAssign (f_name f)
      end.
Proof. exact outside_domain_stmt. Qed.
Print Assumptions Copy_outside_common_domain.

(* the callbacks, exactly: FieldContext is consulted inside `case *types.Named` only (error included) ... *)
Theorem Copy_callback_ignored_unless_named : forall L target c f,
    is_named_ty (f_ty f) = false -> field_stmt L target c true f = field_stmt L target c false f.
Proof. exact callback_not_named. Qed.
Print Assumptions Copy_callback_ignored_unless_named.

(* ... where the context it returns selects in.F.DeepCopyIntoAs(&out.F) whatever the type is (InSamePkg is false in it:
   no "always gen", no OnLocalDep, no map refinement); Skip removes the omitted fields before the helper sees them
   (C18_copy / gen_stmts_loop_spec).  C17's model reads the same statement off a struct whose replaced fields have the
   replacement type, a target-package struct or scalar type ([field17], [agrees_field]). *)
Theorem Copy_callback_forces_into : forall L target c f,
    is_named_ty (f_ty f) = true ->
    field_stmt L target c true f = GOk (SCallInto (f_name f) dc_into_name) [].
Proof. exact callback_named. Qed.
Print Assumptions Copy_callback_forces_into.

(* the whole body of DeepCopyIntoAs is C17's fields_copy of the struct that partialstruct emits *)
Theorem C18_stmts_are_c17_fields_copy : forall L target c, fx_errnil c = true ->
  forall ti g i fs G cfs,
    generate_type L target c ti = TGen g i ->
    ti_under ti = Some fs ->
    fields17 L target c (replace_map (ti_replace ti) []) (filter (keep (ti_omit ti)) fs) = Some cfs ->
    (forall f, In f fs -> keep (ti_omit ti) f = true -> agrees_field target G (replace_map (ti_replace ti) []) f) ->
    map fst cfs = map f_name (filter (keep (ti_omit ti)) fs) /\
    exists deps, DC.fields_copy DC.all_fixed G [] cfs = Ok (map stmt17 (g_stmts g), deps).
Proof. intros L target c _. exact (stmts_agree L target c). Qed.
Print Assumptions C18_stmts_are_c17_fields_copy.

(* TRANSFER.  DeepCopyAs on C17's heap ([deep_copy_as_heap]: nil -> nil; out := new(Origin); the generated statements,
   executed by C17's exec_body; the origin value is represented by its retained fields — omitted ones are never
   assigned, C18_copy).  G declares the generated struct with the translated fields and lies in C17's domain; every
   method the body calls ([rec]: the replacement's or a same-package type's DeepCopyIntoAs; [ms]: the methods that
   exist) copies faithfully ([rec_spec], the assumption C18's conv_for made informally).  Then for every well-typed
   value: the result is deeply equal, every slice / map cell reachable from it is fresh, and no write through any of
   them changes the source.  Scope = C17's heap model: cells hold scalars; named non-struct types are scalars.
   nil -> nil (first conjunct): [deep_copy_as_heap] executes the statement list of DeepCopyAs ([as_body]: nil guard;
   out := new(Origin); in.DeepCopyIntoAs(out); return out — partialstruct.go:110-117) with C17's [run_ptr_copy]; the
   conjunct holds because the first statement is the guard (without it: Props/C17.v C17_nil_needs_the_guard). *)
Theorem C18_copy_unshared : forall L target c, fx_errnil c = true ->
  forall ti g i fs G ms rec bound cfs d tp,
    generate_type L target c ti = TGen g i ->
    ti_under ti = Some fs ->
    fields17 L target c (replace_map (ti_replace ti) []) (filter (keep (ti_omit ti)) fs) = Some cfs ->
    (forall f, In f fs -> keep (ti_omit ti) f = true -> agrees_field target G (replace_map (ti_replace ti) []) f) ->
    Gengo.Proofs.DeepCopySem.dom G ->
    DC.lookup G (g_name g) = Some d -> DC.d_kind d = DC.DStruct tp cfs ->
    Gengo.Proofs.DeepCopySem.rec_spec G ms rec bound ->
    callees_as_ok G ms cfs ->
    forall h,
      deep_copy_as_heap rec G ms g None h = Ok (None, h) /\
      forall fin, Gengo.Proofs.DeepCopySem.wt_fields G h cfs fin -> Gengo.Proofs.DeepCopySem.depth_fields fin < bound ->
        exists fout t,
          deep_copy_as_heap rec G ms g (Some fin) h = Ok (Some (DC.VStruct fout), h ++ t) /\
          DC.snapshot (h ++ t) (DC.VStruct fout) = DC.snapshot h (DC.VStruct fin) /\
          (forall a, In a (DC.locs (DC.VStruct fout)) -> List.length h <= a < List.length (h ++ t)) /\
          (forall a cell, In a (DC.locs (DC.VStruct fout)) ->
             DC.snapshot (DC.write (h ++ t) a cell) (DC.VStruct fin) = DC.snapshot h (DC.VStruct fin)).
Proof. intros L target c _. exact (copy_as_transfer L target c). Qed.
Print Assumptions C18_copy_unshared.

(* ... and with NO assumption on any method when the body calls none (no replaced named field; same-package named
   field types are interfaces): assignments and make+copy / make+range only *)
Theorem C18_copy_unshared_plain : forall L target c, fx_errnil c = true ->
  forall ti g i fs G cfs d tp,
    generate_type L target c ti = TGen g i ->
    ti_under ti = Some fs ->
    fields17 L target c (replace_map (ti_replace ti) []) (filter (keep (ti_omit ti)) fs) = Some cfs ->
    (forall f, In f fs -> keep (ti_omit ti) f = true -> agrees_field target G (replace_map (ti_replace ti) []) f) ->
    Gengo.Proofs.DeepCopySem.dom G ->
    DC.lookup G (g_name g) = Some d -> DC.d_kind d = DC.DStruct tp cfs ->
    (forall f c0 args, In (f, DC.FNamed c0 args) cfs -> DC.is_iface (DC.lookup G c0) = true) ->
    forall rec h fin, Gengo.Proofs.DeepCopySem.wt_fields G h cfs fin ->
      exists fout t,
        deep_copy_as_heap rec G [] g (Some fin) h = Ok (Some (DC.VStruct fout), h ++ t) /\
        DC.snapshot (h ++ t) (DC.VStruct fout) = DC.snapshot h (DC.VStruct fin) /\
        (forall a, In a (DC.locs (DC.VStruct fout)) -> List.length h <= a < List.length (h ++ t)) /\
        (forall a cell, In a (DC.locs (DC.VStruct fout)) ->
           DC.snapshot (DC.write (h ++ t) a cell) (DC.VStruct fin) = DC.snapshot h (DC.VStruct fin)).
Proof. intros L target c _. exact (copy_as_unshared_plain L target c). Qed.
Print Assumptions C18_copy_unshared_plain.

(* non-vacuity: scalar, omitted slice, slice, map of a foreign scalar, replaced struct field, error, same-package
   interface — generated, translated, in C17's domain, executed on a heap *)
Example C18_example_c17_view : exists g i,
  generate_type last_segment w_target all_fixed ex17_ti = TGen g i /\ g_name g = bs "X" /\
  map stmt17 (g_stmts g) =
    [ DC.SAssign (bs "A"); DC.SCopySlice (bs "S") (bs "[]string"); DC.SCopyMap (bs "M") (bs "map[string]lib.Code");
      DC.SCallInto (bs "I"); DC.SAssign (bs "E"); DC.SAssign (bs "N") ] /\
  fields17 last_segment w_target all_fixed ex17_repl ex17_kept = Some ex17_cfs /\
  helper17_body last_segment w_target all_fixed ex17_ti (bs "X") = Some (Ok (map stmt17 (g_stmts g))).
Proof. exact ex17_generated. Qed.

Example C18_example_c17_hypotheses :
  (forall f, In f ex17_fields -> keep (ti_omit ex17_ti) f = true -> agrees_field w_target ex17_G ex17_repl f) /\
  Gengo.Proofs.DeepCopySem.dom ex17_G.
Proof. split; [exact ex17_agrees|exact ex17_dom]. Qed.

Example C18_example_c17_copy :
  match generate_type last_segment w_target all_fixed ex17_ti with
  | TGen g _ =>
      match deep_copy_as_heap (fun _ v _ h => Ok (v, h)) ex17_G [] g (Some ex17_fin) ex17_heap with
      | Ok (Some v', h') =>
          DC.snapshot h' v' = DC.snapshot ex17_heap (DC.VStruct ex17_fin) /\ DC.locs v' = [2; 3] /\
          DC.snapshot (DC.write h' 2 (DC.CSlice [])) (DC.VStruct ex17_fin) = DC.snapshot ex17_heap (DC.VStruct ex17_fin)
      | _ => False
      end
  | _ => False
  end.
Proof. exact ex17_copy. Qed.

(* ---- partialstruct as an instance of the pipeline's abstract generator (Model/Generators.v): gengo.Execute's
   per-package loop is [generate_pkg] on the dispatched declarations — an error from `must be struct type` / `need to
   define type like …` is Execute's failure naming partialstruct and the package (consequence: Props/C02.v
   C02_partialstruct_error_aborts), a panic is a dead process.  [print_gtype]: the text of the template, a parameter. ---- *)
Require Gengo.Model.Pipeline Gengo.Proofs.GeneratorsPipe.

Theorem C18_is_pipeline_generator :
  forall c tracker tin print_gtype (E : Gengo.Model.Pipeline.env) p,
    let g := partialstruct_gen c tracker tin print_gtype in
    match generate_pkg (tracker p) (Gengo.Model.Pipeline.pk_path p) c
            (map (tin p) (Gengo.Proofs.GeneratorsPipe.ps_called c tracker tin print_gtype E p)) [] [] with
    | OutFile ts _ => Gengo.Model.Pipeline.go_out (Gengo.Model.Pipeline.gen_run E g p) = Gengo.Model.Pipeline.Done /\
                      Gengo.Model.Pipeline.go_body (Gengo.Model.Pipeline.gen_run E g p) = print_gtypes print_gtype ts /\
                      Gengo.Model.Pipeline.go_ignore (Gengo.Model.Pipeline.gen_run E g p) = false
    | OutErr _ => Gengo.Model.Pipeline.go_out (Gengo.Model.Pipeline.gen_run E g p)
                  = Gengo.Model.Pipeline.Failed (Gengo.Model.Pipeline.EGen (bs "partialstruct") (Gengo.Model.Pipeline.pk_path p))
    | OutCrash => Gengo.Model.Pipeline.go_out (Gengo.Model.Pipeline.gen_run E g p) = Gengo.Model.Pipeline.Died
    | OutGeneric => True
    end.
Proof. exact Gengo.Proofs.GeneratorsPipe.partialstruct_gen_run. Qed.
Print Assumptions C18_is_pipeline_generator.

(* ================================================================================================================
   C18_types / C18_type_imports read types back through THIS file's own reading of Dumper.TypeLit ([type_lit]: a fixed
   tracker function L, the expression as a tree).  It coincides with C11's model of the dumper (Model/TypeLit.v: the
   tracker state threaded through the rendering, snippet.ID -> rawNamer.Name -> processName) on the common domain:
   [view18] = what the dumper sees of a type of C18's grammar, [ast18] = C18's tree as C11's syntax tree, [wf18] =
   type and basic names are identifiers, packages non-empty.  From any tracker state with non-empty names C11's model
   returns, for EVERY L that names the mentioned foreign packages as the resulting state does, exactly C18's tree; the
   state is extended (never rewritten) and the paths registered are the old ones plus the foreign packages mentioned.
   Stated with C11's hypotheses on tracker and parser, and with both discharged (C03's tracker, C15's parser).
   ================================================================================================================ *)
Require Gengo.Model.GeneratorsTypes Gengo.Proofs.GeneratorsTypes Gengo.Proofs.TypeLit Gengo.Model.RenderStack.
Module GT := Gengo.Model.GeneratorsTypes.

Theorem C18_type_lit_is_c11 : forall pick parse_tref target can_backquote fx_tag c,
  Gengo.Proofs.TypeLit.tracker_hyps pick -> Gengo.Proofs.TypeLit.parse_hyp parse_tref ->
  forall t, GT.wf18 t = true -> forall e, GT.env_ok e ->
    exists a e' suf,
      Gengo.Model.TypeLit.type_lit pick parse_tref target can_backquote (fx_errlit c) fx_tag (GT.view18 t) e = Ok (a, e') /\
      e' = e ++ suf /\ GT.env_ok e' /\
      (forall p, In p (GT.foreign18 target t) -> Gengo.Model.TypeLit.alookup p e' <> None) /\
      (forall p, Gengo.Model.TypeLit.alookup p e' <> None ->
                 Gengo.Model.TypeLit.alookup p e <> None \/ In p (GT.foreign18 target t)) /\
      (forall L, (forall p, In p (GT.foreign18 target t) -> L p = Gengo.Model.TypeLit.local_name_of p e') ->
                 a = GT.ast18 (fst (type_lit L target c t))).
Proof. exact Gengo.Proofs.GeneratorsTypes.type_lit_agree_c11. Qed.
Print Assumptions C18_type_lit_is_c11.

Theorem C18_type_lit_is_c11_concrete : forall pre std target can_backquote fx_tag c,
  forall t, GT.wf18 t = true -> forall e, GT.env_ok e ->
    exists a e' suf,
      Gengo.Model.TypeLit.type_lit (Gengo.Model.RenderStack.pick_c03 pre std) Gengo.Model.RenderStack.parse_c15
        target can_backquote (fx_errlit c) fx_tag (GT.view18 t) e = Ok (a, e') /\
      e' = e ++ suf /\ GT.env_ok e' /\
      (forall p, In p (GT.foreign18 target t) -> Gengo.Model.TypeLit.alookup p e' <> None) /\
      (forall p, Gengo.Model.TypeLit.alookup p e' <> None ->
                 Gengo.Model.TypeLit.alookup p e <> None \/ In p (GT.foreign18 target t)) /\
      (forall L, (forall p, In p (GT.foreign18 target t) -> L p = Gengo.Model.TypeLit.local_name_of p e') ->
                 a = GT.ast18 (fst (type_lit L target c t))).
Proof. exact Gengo.Proofs.GeneratorsTypes.type_lit_agree_concrete. Qed.
Print Assumptions C18_type_lit_is_c11_concrete.

Example C18_example_type_lit_is_c11 :
  let t := TMap (TBasic (bs "string")) (TNamed (bs "example.com/m/origin") (bs "Inner") UStruct []) in
  GT.wf18 t = true /\ GT.env_ok [] /\
  exists e', Gengo.Model.TypeLit.type_lit Gengo.Model.RenderStack.the_pick Gengo.Model.RenderStack.parse_c15
               (bs "example.com/m/target") (fun _ => true) true true (GT.view18 t) []
             = Ok (GT.ast18 (OMap (OIdent (bs "string")) (OSel (bs "origin") (bs "Inner"))), e')
             /\ Gengo.Model.TypeLit.local_name_of (bs "example.com/m/origin") e' = bs "origin".
Proof. exact Gengo.Proofs.GeneratorsTypes.type_lit_agree_example. Qed.

(* ================================================================================================================
   Non-vacuity of C18_types and C18_copy_unshared (Proofs/GeneratorsWitness.v).
   ================================================================================================================ *)
Require Import Gengo.Proofs.GeneratorsWitness.

(* C18_types.  Origin T (package example.com/m/origin) with twelve fields: A int, B []int (omitted), S []string,
   M map[string]lib.Code, C map[string][]*origin.Inner, D time.Duration, P *time.Time, R [4]lib.Code, I origin.Inner
   (replaced by Y), E error, G any, N LIface (target package).  Import block of the generated file: origin, time, lib
   under their last segments.  The hypotheses hold of every field type, and the theorem gives that every rendered type
   expression denotes the origin's type; [wt_generated]: what was generated. *)
Example C18_witness_types_hypotheses :
  ((forall p n, In (p, n) wt_imps -> n = last_segment p) /\ NoDup (map snd wt_imps)) /\
  (forall f, In f wt_fields ->
     (fx_errlit all_fixed = true \/ no_error (f_ty f) = true) /\ has_iface_lit (f_ty f) = false /\
     imported last_segment w_target wt_imps (f_ty f)) /\
  generate_type last_segment w_target all_fixed wt_ti =
    TGen wt_g [wt_lib; w_origin; wt_time; wt_time; wt_lib; w_origin; wt_lib; w_origin].
Proof. exact (conj wt_imps_ok (conj wt_types_hyps wt_generated)). Qed.

Example C18_witness_types : forall f, In f wt_fields ->
  denotes wt_imps w_target (fst (type_lit last_segment w_target all_fixed (f_ty f))) (f_ty f) = true.
Proof.
  exact (fun f Hin =>
    C18_types last_segment w_target all_fixed wt_imps (proj1 wt_imps_ok) (proj2 wt_imps_ok) (f_ty f)
      (proj1 (wt_types_hyps f Hin)) (proj1 (proj2 (wt_types_hyps f Hin))) (proj2 (proj2 (wt_types_hyps f Hin)))).
Qed.

(* ... and, computed on the generated struct: every field but the omitted B is there, and the type expression of every
   field but the replaced I denotes the origin field's type *)
Example C18_witness_types_generated :
  forallb (fun f => match find (fun gf => bytes_eqb (gf_name gf) (f_name f)) (g_fields wt_g) with
                    | Some gf => bytes_eqb (f_name f) (bs "I") || denotes wt_imps w_target (gf_ty gf) (f_ty f)
                    | None => bytes_eqb (f_name f) (bs "B")
                    end) wt_fields = true.
Proof. exact wt_generated_fields_denote. Qed.

(* C18_copy_unshared with CONCRETE [rec_spec] and [callees_as_ok].  Origin with eight fields inside the common domain:
   A int, B []int (omitted), S []string, M map[string]lib.Code, D time.Duration, I origin.Inner (replaced by Y), E error,
   N LIface.  [wh_G]: the generated struct X, the replacement type Y = struct{ P []int; Q int; K map[string]int }, the
   interface LIface.  [wh_ms]: the one method the body calls — Y's DeepCopyIntoAs, with the body the copy helper gives
   for Y's fields — EXECUTED by C17's [exec_into] (so [rec_spec] is a theorem about it, not an assumption). *)
Example C18_witness_copy_unshared_hypotheses :
  (generate_type last_segment w_target all_fixed wh_ti = TGen wh_g [wt_lib; wt_time; w_origin; wt_lib] /\
   fields17 last_segment w_target all_fixed wh_repl (filter (keep (ti_omit wh_ti)) wh_fields) = Some wh_cfs /\
   DC.lookup wh_G (g_name wh_g) = Some (DC.mk_decl (bs "X") (DC.DStruct [] wh_cfs) false None [])) /\
  (forall f, In f wh_fields -> keep (ti_omit wh_ti) f = true -> agrees_field w_target wh_G wh_repl f) /\
  Gengo.Proofs.DeepCopySem.dom wh_G /\
  (forall fuel, Gengo.Proofs.DeepCopySem.rec_spec wh_G wh_ms (DC.exec_into fuel wh_G wh_ms) fuel) /\
  callees_as_ok wh_G wh_ms wh_cfs /\
  (Gengo.Proofs.DeepCopySem.wt_fields wh_G wh_heap wh_cfs wh_fin /\ Gengo.Proofs.DeepCopySem.depth_fields wh_fin < 3).
Proof. exact (conj wh_generated (conj wh_agrees (conj wh_dom (conj wh_rec_spec (conj wh_callees_as_ok wh_fin_typed))))). Qed.

Example C18_witness_copy_unshared : forall fuel h,
  deep_copy_as_heap (DC.exec_into fuel wh_G wh_ms) wh_G wh_ms wh_g None h = Ok (None, h) /\
  forall fin, Gengo.Proofs.DeepCopySem.wt_fields wh_G h wh_cfs fin -> Gengo.Proofs.DeepCopySem.depth_fields fin < fuel ->
    exists fout t,
      deep_copy_as_heap (DC.exec_into fuel wh_G wh_ms) wh_G wh_ms wh_g (Some fin) h = Ok (Some (DC.VStruct fout), h ++ t) /\
      DC.snapshot (h ++ t) (DC.VStruct fout) = DC.snapshot h (DC.VStruct fin) /\
      (forall a, In a (DC.locs (DC.VStruct fout)) -> List.length h <= a < List.length (h ++ t)) /\
      (forall a cell, In a (DC.locs (DC.VStruct fout)) ->
         DC.snapshot (DC.write (h ++ t) a cell) (DC.VStruct fin) = DC.snapshot h (DC.VStruct fin)).
Proof.
  exact (fun fuel =>
    C18_copy_unshared last_segment w_target all_fixed eq_refl wh_ti wh_g _ wh_fields wh_G wh_ms
      (DC.exec_into fuel wh_G wh_ms) fuel wh_cfs _ []
      (proj1 wh_generated) eq_refl (proj1 (proj2 wh_generated)) wh_agrees wh_dom
      (proj2 (proj2 wh_generated)) eq_refl (wh_rec_spec fuel) wh_callees_as_ok).
Qed.

(* computed on a value with a filled slice and map in X and a filled slice and map inside the replaced struct: nil gives
   nil; four fresh cells, two of them made by Y's method; a write through the copy's inner map leaves the original alone —
   the same write through the ORIGINAL's cell does not (the conclusion is not trivially true) *)
Example C18_witness_copy_unshared_computed :
  deep_copy_as_heap (DC.exec_into 3 wh_G wh_ms) wh_G wh_ms wh_g None wh_heap = Ok (None, wh_heap) /\
  match deep_copy_as_heap (DC.exec_into 3 wh_G wh_ms) wh_G wh_ms wh_g (Some wh_fin) wh_heap with
  | Ok (Some v', h') =>
      DC.snapshot h' v' = DC.snapshot wh_heap (DC.VStruct wh_fin) /\ DC.locs v' = [4; 5; 6; 7] /\ List.length h' = 8 /\
      DC.snapshot (DC.write h' 7 (DC.CMap [])) (DC.VStruct wh_fin) = DC.snapshot wh_heap (DC.VStruct wh_fin) /\
      DC.snapshot (DC.write h' 3 (DC.CMap [])) (DC.VStruct wh_fin) <> DC.snapshot wh_heap (DC.VStruct wh_fin)
  | _ => False
  end.
Proof. exact wh_computed. Qed.
