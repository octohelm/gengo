(* C11 — Type literals denote the type they were rendered from.
   Statements; the proofs are in Proofs/TypeLit*.v and Proofs/RenderStack*.v, facts about concrete data are evaluated in place.

   Reading guide.
   [gty]          Go types of the property's grammar (Spec/TypeLit.v); [view_of g] is what reflect / go/types
                  show of [g] through github.com/octohelm/x/types — the only thing Dumper.TypeLit reads.
   [ident_frag]   the model of snippet.ID / %T (ident.Frag -> Dumper.TypeLit -> rawNamer.Name), with both C11
                  fixes in (the two [true] flags); it yields the syntax tree of the rendered text and the tracker state.
   [resolve e' self a]  what the expression [a] denotes inside package [self] whose import block is [e'].
   [renders x g]  x is the reflect.Type or the go/types Type presentation of g.
   The import tracker, ParseTypeRef and strconv.CanBackquote are universally quantified and constrained by the
   named hypotheses [tracker_hyps], [tracker_not_predeclared], [tracker_lower_case] (property C03: C03_bijection /
   C03_valid_names / add_fixed_bound, C03_not_predeclared_universe — true of the tracker after fixes/C03-3 —,
   C03_local_name_is_lowercased_words), [parse_hyp] (property C15) and [cbq_hyp] (Go's strconv). *)
Require Import Gengo.Base.Bytes Gengo.Model.TypeLit Gengo.Spec.TypeLit Gengo.Proofs.TypeLit.
Require Import Gengo.Proofs.TypeLitWitness.

(* Rendering never panics on a type of the grammar. *)
Theorem C11_total :
  forall pick parse_tref self can_backquote,
    tracker_hyps pick -> parse_hyp parse_tref -> cbq_hyp can_backquote ->
  forall x g e,
    renders x g -> in_domain all_tags self g = true -> tracker_inv self e ->
    exists a e', ident_frag pick parse_tref self can_backquote true true x e = Ok (a, e').
Proof. exact total. Qed.
Print Assumptions C11_total.

(* The rendered expression, read inside the target package through the imports registered during rendering,
   is the type itself (up to the alias spellings byte/rune): own-package types unqualified, foreign ones under
   their import name; struct tags, embedded fields, type arguments included. *)
Theorem C11_roundtrip :
  forall pick parse_tref self can_backquote,
    tracker_hyps pick -> parse_hyp parse_tref -> cbq_hyp can_backquote ->
  forall x g e a e',
    renders x g -> in_domain all_tags self g = true -> tracker_inv self e ->
    ident_frag pick parse_tref self can_backquote true true x e = Ok (a, e') ->
    free_names self g e' ->
    resolve e' self a = Some (canon g).
Proof. exact roundtrip. Qed.
Print Assumptions C11_roundtrip.

(* The same with the tracker fact C03 proves after fixes/C03-3 as a hypothesis: import names are never predeclared
   identifiers (and the target file's tracker held none before).  Then every predeclared name the text uses
   (string, error, any, int ...) is free by itself; what remains of [free_names] is [free_own_names]: no import
   is called like one of the target package's OWN types occurring in g. *)
Theorem C11_roundtrip_no_predeclared_imports :
  forall pick parse_tref self can_backquote,
    tracker_hyps pick -> tracker_not_predeclared pick -> parse_hyp parse_tref -> cbq_hyp can_backquote ->
  forall x g e a e',
    renders x g -> in_domain all_tags self g = true -> tracker_inv self e -> no_predeclared_names e ->
    ident_frag pick parse_tref self can_backquote true true x e = Ok (a, e') ->
    free_own_names self g e' ->
    no_predeclared_names e' /\ resolve e' self a = Some (canon g).
Proof. exact (fun pick parse_tref self can_backquote Ht Hn Hp Hc x g e a e' =>
                roundtrip_no_predeclared_imports pick parse_tref self can_backquote Ht Hp Hc x g e a e' Hn). Qed.
Print Assumptions C11_roundtrip_no_predeclared_imports.

(* The tracker afterwards: what was there is kept (in place), it is still a bijection that does not import the
   target package, and the registered paths are exactly the old ones plus the foreign packages occurring in g. *)
Theorem C11_imports_exact :
  forall pick parse_tref self can_backquote,
    tracker_hyps pick -> parse_hyp parse_tref -> cbq_hyp can_backquote ->
  forall x g e a e',
    renders x g -> in_domain all_tags self g = true -> tracker_inv self e ->
    ident_frag pick parse_tref self can_backquote true true x e = Ok (a, e') ->
    (exists added, e' = e ++ added) /\ tracker_inv self e'
    /\ (forall p, In p (map fst e') <-> In p (map fst e) \/ In p (foreign_pkgs self g)).
Proof. exact imports_exact. Qed.
Print Assumptions C11_imports_exact.

(* No side condition at all is left when, besides, import names are lower-case ([tracker_lower_case], C03 on
   ASCII paths) and the target package's own types that occur are exported. *)
Theorem C11_roundtrip_exported_locals :
  forall pick parse_tref self can_backquote,
    tracker_hyps pick -> parse_hyp parse_tref -> cbq_hyp can_backquote ->
  forall x g e a e',
    tracker_not_predeclared pick -> tracker_lower_case pick ->
    renders x g -> in_domain all_tags self g = true -> locals_exported self g = true ->
    tracker_inv self e -> Forall lower_name (map snd e) ->
    ident_frag pick parse_tref self can_backquote true true x e = Ok (a, e') ->
    resolve e' self a = Some (canon g).
Proof. exact roundtrip_exported. Qed.
Print Assumptions C11_roundtrip_exported_locals.

(* History: before fixes/C11-error-type-literal.diff, struct{E error} came back as struct{E any} ... *)
Theorem C11_error_refuted_before_fix :
  forall pick parse_tref self can_backquote fx_tag,
    in_domain all_tags self g_struct_error = true /\
    exists a, type_lit pick parse_tref self can_backquote false fx_tag (view_of g_struct_error) [] = Ok (a, [])
              /\ resolve [] self a <> Some (canon g_struct_error).
Proof. exact error_refuted_before_fix. Qed.
Print Assumptions C11_error_refuted_before_fix.

(* ... and before fixes/C11-struct-tag-literal.diff a tag with a backquote gave text that is no type expression. *)
Theorem C11_tag_refuted_before_fix :
  forall pick parse_tref self can_backquote fx_err,
    in_domain all_tags self g_struct_tag = true /\
    exists a, type_lit pick parse_tref self can_backquote fx_err false (view_of g_struct_tag) [] = Ok (a, [])
              /\ resolve [] self a = None.
Proof. exact tag_refuted_before_fix. Qed.
Print Assumptions C11_tag_refuted_before_fix.

(* History: before fixes/C03-3 a package .../string was imported as `string` (C03_not_predeclared_refuted_before_fix);
   such a tracker satisfies [tracker_hyps], not [tracker_not_predeclared], and struct{A string; B string.T} reads back as
   nothing: in the text, `string` is the package. *)
Theorem C11_import_name_predeclared_refuted_before_fix :
  tracker_hyps pick_last_segment /\
  in_domain all_tags (bs "t") g_string_clash = true /\
  exists a e', ident_frag pick_last_segment parse_only_T (bs "t") (fun _ => true) true true (IdT (view_of g_string_clash)) [] = Ok (a, e')
               /\ e' = [(bs "x/string", bs "string")] /\ resolve e' (bs "t") a = None.
Proof. exact import_name_predeclared_refuted_before_fix. Qed.
Print Assumptions C11_import_name_predeclared_refuted_before_fix.

(* The hypotheses about the tracker are satisfiable, separately and together. *)
Theorem C11_tracker_hyps_satisfiable :
  tracker_hyps pick_long /\ (tracker_hyps pick_q /\ tracker_not_predeclared pick_q /\ tracker_lower_case pick_q).
Proof. exact (conj tracker_hyps_sat tracker_hyps_c03_sat). Qed.
Print Assumptions C11_tracker_hyps_satisfiable.

(* non-vacuity: struct{ E error; L a/o.List[b/o.Item] `json:"l"` } rendered into package t, whose file already
   imports x/o as "o": text  struct {E error\nL ao.List[bo.Item] `json:"l"`\n}  and the round trip. *)
Definition ex_g : gty :=
  GStruct (GFCons (bs "E") false [] GError []
          (GFCons (bs "L") false [] (GNamed (bs "a/o") (bs "List") (GCons (GNamed (bs "b/o") (bs "Item") GNil) GNil)) (bs "json:""l""")
           GFNil)).
Definition ex_pick : bytes -> renv -> option bytes :=
  fun p _ => if bytes_eqb p (bs "a/o") then Some (bs "ao") else Some (bs "bo").
Definition ex_parse : bytes -> option tref :=
  fun _ => Some (TRef [] (bs "List") (TRCons (TRef (bs "b/o") (bs "Item") TRNil) TRNil)).
Definition ex_env : renv := [(bs "x/o", bs "o")].

(* [cbq_hyp] is satisfiable — by strconv.CanBackquote restricted to ASCII ([can_backquote_ascii]: no backquote, no DEL,
   no control byte but TAB, no byte >= 0x80), NOT by the constant [fun _ => true]; the Examples below use the correct
   instance. *)
Theorem C11_cbq_hyp_satisfiable :
  cbq_hyp can_backquote_ascii /\ ~ cbq_hyp (fun _ => true) /\
  can_backquote_ascii (of_string "json:""l,omitempty"" yaml:""x""") = true /\
  can_backquote_ascii (bs "a" ++ [backquote] ++ bs "b") = false /\
  can_backquote_ascii (bs "a" ++ [cr]) = false /\
  can_backquote_ascii (bs "a" ++ [ascii_of_N 10]) = false /\
  can_backquote_ascii (bs "a" ++ [ascii_of_N 9] ++ bs "b") = true /\
  can_backquote_ascii [ascii_of_N 195; ascii_of_N 169] = false.
Proof.
  split; [exact can_backquote_ascii_hyp|]. split; [exact const_true_violates_cbq_hyp|].
  vm_compute. repeat split; reflexivity.
Qed.
Print Assumptions C11_cbq_hyp_satisfiable.

Example C11_example_text :
  match type_lit ex_pick ex_parse (bs "t") can_backquote_ascii true true (view_of ex_g) ex_env with
  | Ok (a, e') =>
      print (fun s => s) a = bs "struct {E error" ++ [nl] ++ bs "L ao.List[bo.Item] `json:""l""`" ++ [nl] ++ bs "}"
      /\ e' = [(bs "x/o", bs "o"); (bs "b/o", bs "bo"); (bs "a/o", bs "ao")]
      /\ resolve e' (bs "t") a = Some (canon ex_g)
  | _ => False
  end.
Proof. vm_compute. repeat split; reflexivity. Qed.

Example C11_example_domain : in_domain all_tags (bs "t") ex_g = true /\ locals_exported (bs "t") ex_g = true.
Proof. vm_compute. split; reflexivity. Qed.

(* RenderStack: the tracker and the parser are no longer hypotheses.
   [the_pick]   = the name C03's repaired tracker (Model/Tracker.v [add true universe_names (Some std_tr)], i.e. with the
                  universe and the reserved-name table of the current tree, Gen/StdList.v) binds to a new path in the state
                  the association list stands for;  [parse_c15] = C15's [parse_type_ref true].
   What is left: [cbq_hyp] (Go's strconv.CanBackquote), the grammar [in_domain], and a well-formed starting table.
   Model domain of C03's tracker: ASCII import paths (the correspondence check compares non-ASCII paths by predicate only). *)
Require Import Gengo.Model.RenderStack Gengo.Proofs.RenderStackTracker Gengo.Proofs.RenderStackConcrete.

(* every tracker hypothesis of this file holds of C03's tracker — for EVERY refused-name list and EVERY reserved table —
   and the parser hypothesis holds of C15's ParseTypeRef *)
Theorem C11_hypotheses_discharged :
  (forall pre std, tracker_hyps (pick_c03 pre std) /\ tracker_lower_case (pick_c03 pre std)
                   /\ ((forall n, is_predeclared n = true -> In n pre) -> tracker_not_predeclared (pick_c03 pre std)))
  /\ (forall n, is_predeclared n = true -> In n the_pre)
  /\ parse_hyp parse_c15.
Proof.
  exact (conj (fun pre std => conj (tracker_hyps_c03 pre std) (conj (tracker_lower_case_c03 pre std) (tracker_not_predeclared_c03 pre std)))
              (conj Gengo.Proofs.StdTable.c11_predeclared_in_universe parse_hyp_c15)).
Qed.
Print Assumptions C11_hypotheses_discharged.

(* the model's tracker state and C03's record move in lock step: AddType on the list is [add] on the record *)
Theorem C11_tracker_is_C03 :
  forall pre std p e,
    tr_of (tr_add (pick_c03 pre std) p e) = cadd pre std (tr_of e) p
    /\ Tk.add true pre std (tr_of e) p = Ok (cadd pre std (tr_of e) p)
    /\ (NoDup (map fst e) -> local_name_of p e = cname (tr_of e) p /\ NoDup (map fst (tr_add (pick_c03 pre std) p e))).
Proof.
  exact (fun pre std p e => conj (tr_add_simulation pre std p e) (conj (cadd_ok pre std (tr_of e) p)
           (fun ND => conj (local_name_simulation p e ND) (tr_add_nodup pre std p e ND)))).
Qed.
Print Assumptions C11_tracker_is_C03.

Theorem C11_total_concrete :
  forall self can_backquote, cbq_hyp can_backquote ->
  forall x g e,
    renders x g -> in_domain all_tags self g = true -> tracker_inv self e ->
    exists a e', ident_frag the_pick parse_c15 self can_backquote true true x e = Ok (a, e').
Proof. exact c11_total_concrete. Qed.
Print Assumptions C11_total_concrete.

(* side condition left: no import is called like one of the target package's OWN types occurring in g *)
Theorem C11_roundtrip_concrete :
  forall self can_backquote, cbq_hyp can_backquote ->
  forall x g e a e',
    renders x g -> in_domain all_tags self g = true -> tracker_inv self e -> no_predeclared_names e ->
    ident_frag the_pick parse_c15 self can_backquote true true x e = Ok (a, e') ->
    free_own_names self g e' ->
    no_predeclared_names e' /\ resolve e' self a = Some (canon g).
Proof. exact c11_roundtrip_concrete. Qed.
Print Assumptions C11_roundtrip_concrete.

Theorem C11_imports_exact_concrete :
  forall self can_backquote, cbq_hyp can_backquote ->
  forall x g e a e',
    renders x g -> in_domain all_tags self g = true -> tracker_inv self e ->
    ident_frag the_pick parse_c15 self can_backquote true true x e = Ok (a, e') ->
    (exists added, e' = e ++ added) /\ tracker_inv self e'
    /\ (forall p, In p (map fst e') <-> In p (map fst e) \/ In p (foreign_pkgs self g)).
Proof. exact c11_imports_exact_concrete. Qed.
Print Assumptions C11_imports_exact_concrete.

(* from a fresh tracker, with the target package's own types exported: nothing else is asked *)
Theorem C11_roundtrip_fresh_concrete :
  forall self can_backquote, cbq_hyp can_backquote ->
  forall x g a e',
    renders x g -> in_domain all_tags self g = true -> locals_exported self g = true ->
    ident_frag the_pick parse_c15 self can_backquote true true x [] = Ok (a, e') ->
    resolve e' self a = Some (canon g).
Proof. exact c11_roundtrip_fresh_concrete. Qed.
Print Assumptions C11_roundtrip_fresh_concrete.

(* non-vacuity, with the real naming: the example of above rendered by the real tracker model and the real parser model.
   a/o and b/o both want the name o, which x/o already has: a/o -> ao, b/o -> bo. *)
Example C11_example_concrete :
  match type_lit the_pick parse_c15 (bs "t") can_backquote_ascii true true (view_of ex_g) ex_env with
  | Ok (a, e') =>
      print (fun s => s) a = bs "struct {E error" ++ [nl] ++ bs "L ao.List[bo.Item] `json:""l""`" ++ [nl] ++ bs "}"
      /\ e' = [(bs "x/o", bs "o"); (bs "b/o", bs "bo"); (bs "a/o", bs "ao")]
      /\ resolve e' (bs "t") a = Some (canon ex_g)
  | _ => False
  end.
Proof. vm_compute. repeat split; reflexivity. Qed.

(* RenderStack: ident.Frag hands to AddType exactly the foreign packages of the type, whatever the tracker state
   ([idarg_regs]: the paths in call order, read off the argument alone) ... *)
Require Import Gengo.Proofs.RenderStackLeaves Gengo.Proofs.RenderStack.

Theorem C11_registers_exact :
  forall self can_backquote, cbq_hyp can_backquote ->
  forall x g e a e',
    renders x g -> in_domain all_tags self g = true ->
    (ident_frag the_pick parse_c15 self can_backquote true true x e = Ok (a, e') ->
       e' = add_all the_pick (idarg_regs self parse_c15 x) e
       /\ forall e2, ext e' e2 -> ident_frag the_pick parse_c15 self can_backquote true true x e2 = Ok (a, e2))
    /\ forall p, In p (idarg_regs self parse_c15 x) <-> In p (foreign_pkgs self g).
Proof.
  exact (fun self cbq Hc x g e a e' Hx Hd =>
           conj (ident_frag_spec the_pick (pick_total the_pre the_std) parse_c15 self cbq true true x e a e')
                (idarg_regs_exact parse_c15 self parse_hyp_c15 x g Hx Hd)).
Qed.
Print Assumptions C11_registers_exact.

(* ... and in the generated file: against the table [e'] a writer ends with (C01_file_imports: table_ok, the own package
   not in it), a type all of whose packages the file imports renders to an expression that leaves the table alone and
   that, read through THAT import block, denotes the type. *)
Theorem C11_type_leaf_denotes_in_file :
  forall self can_backquote, cbq_hyp can_backquote ->
  forall e' x g,
    table_ok the_pre e' -> ~ In self (map fst e') ->
    renders x g -> in_domain all_tags self g = true -> locals_exported self g = true ->
    (forall p, In p (foreign_pkgs self g) -> In p (map fst e')) ->
    exists a, ident_frag the_pick parse_c15 self can_backquote true true x e' = Ok (a, e') /\
              resolve e' self a = Some (canon g).
Proof. exact type_leaf_denotes. Qed.
Print Assumptions C11_type_leaf_denotes_in_file.

(* non-vacuity of C11_type_leaf_denotes_in_file (Proofs/TypeLitWitness.v): the file of package example.com/m/t imports
   x/o as o, b/o as bo, a/o as ao and net/url as url ([wit_table]); the leaf is
     struct { E error; L ao.List[bo.Item] `json:"l,omitempty"`; M map[string][]*o.Node `x:"a<TAB>b"`; Own *Local; U url.URL }
   ([wit_g]: four foreign packages, one type of the target package itself, two tags).  Every hypothesis holds, and the
   theorem gives — for the reflect and for the go/types presentation — an expression that leaves the table alone and
   reads back as the type; the last Example computes the text. *)
Example C11_type_leaf_hypotheses :
  cbq_hyp can_backquote_ascii /\ table_ok the_pre wit_table /\ ~ In wit_self (map fst wit_table) /\
  in_domain all_tags wit_self wit_g = true /\ locals_exported wit_self wit_g = true /\
  foreign_pkgs wit_self wit_g = [bs "a/o"; bs "b/o"; bs "x/o"; bs "net/url"] /\
  (forall p, In p (foreign_pkgs wit_self wit_g) -> In p (map fst wit_table)).
Proof.
  exact (conj can_backquote_ascii_hyp (conj wit_table_ok (conj wit_self_not_imported
        (conj (proj1 wit_g_domain) (conj (proj2 wit_g_domain) (conj wit_g_foreign_pkgs_nonempty wit_g_imported)))))).
Qed.

Example C11_type_leaf_instance :
  (exists a, ident_frag the_pick parse_c15 wit_self can_backquote_ascii true true (IdR (view_of wit_g)) wit_table
             = Ok (a, wit_table) /\ resolve wit_table wit_self a = Some (canon wit_g)) /\
  (exists a, ident_frag the_pick parse_c15 wit_self can_backquote_ascii true true (IdT (view_of wit_g)) wit_table
             = Ok (a, wit_table) /\ resolve wit_table wit_self a = Some (canon wit_g)).
Proof. exact wit_leaf_denotes. Qed.

Example C11_type_leaf_text :
  match ident_frag the_pick parse_c15 wit_self can_backquote_ascii true true (IdT (view_of wit_g)) wit_table with
  | Ok (a, e') =>
      print (fun s => s) a =
        bs "struct {E error" ++ [nl] ++
        bs "L ao.List[bo.Item] `json:""l,omitempty""`" ++ [nl] ++
        bs "M map[string][]*o.Node `x:""a" ++ [ascii_of_N 9] ++ bs "b""`" ++ [nl] ++
        bs "Own *Local" ++ [nl] ++
        bs "U url.URL" ++ [nl] ++ bs "}"
      /\ e' = wit_table
      /\ resolve e' wit_self a = Some (canon wit_g)
  | _ => False
  end.
Proof. vm_compute. repeat split; reflexivity. Qed.
