(* C02 — a failed generation never damages existing output or marks work as done.
   Statements; a proof is [exact <lemma>] (lemmas of Proofs/PipelineC02.v, one of Proofs/PipelineC07.v; the later parts
   quote Props/Whole.v and Proofs/GeneratorsPipe.v) or [intros] followed by [exact]; two closed Examples are evaluated.
   Where the [intros] puts [_] for a hypothesis or keeps one half of it ([[Hd _]] of [world_ok w]), the lemma quoted is stated without what is
   dropped, so the statement holds without it too; it stands there because the property is worded with it.
   Model: Model/Pipeline.v (parameters as in Props/C07.v).

   [exec_trace] is the log of the generator calls and deferred callbacks that actually happened, each with what it
   rendered and what it returned; [ev_verdict] (Spec/PipelineSpec.v) reads a logged result:
     GenerateType / GenerateAliasType:  nil, ErrSkip, ErrIgnore (wrapped or not) -> the run goes on;
                                        any other error -> Failed (EGen generator package); process death -> Died
     deferred callback:                 nil -> goes on; death -> Died; ANY error -> Failed (EDefer generator package)
   Because a failing call is the last entry of the log, "at every call index" is "wherever in the log". *)
Require Import Gengo.Base.Bytes Gengo.Model.Pipeline Gengo.Spec.PipelineSpec Gengo.Proofs.Pipeline Gengo.Proofs.PipelinePkg
  Gengo.Proofs.PipelineC02 Gengo.Proofs.PipelineWitness Gengo.Proofs.PipelineWitnessC02 Gengo.Corr.Pipe.

(* A generator error, a deferred callback's error or a death inside a call - at ANY call index, in any package of
   the run - decides the outcome: Execute returns the error naming that generator and package (or the process is dead). *)
Theorem C02_failure_decides_outcome :
  forall (E : env) a w gens s e o,
    In e (exec_trace E a w gens s) -> ev_verdict e = Some o -> exec_outcome E a w gens s = o.
Proof. exact trace_verdict. Qed.
Print Assumptions C02_failure_decides_outcome.

(* ErrSkip and ErrIgnore from GenerateType/GenerateAliasType (and nil) are the only results after which a run
   can still succeed: in a successful run every logged result is one of them, and every callback returned nil. *)
Theorem C02_swallowed_only :
  forall (E : env) a w gens s,
    exec_outcome E a w gens s = Done ->
    forall e, In e (exec_trace E a w gens s) -> ev_verdict e = None.
Proof. exact done_clean. Qed.
Print Assumptions C02_swallowed_only.

(* Execute failed naming generator gn and package pp (GenerateType, GenerateAliasType or a deferred callback):
   that generator and package exist, the package was being processed, and NO file of that package's directory has
   changed - in particular the generator's previous file is byte-identical. *)
Theorem C02_generator_error_no_damage :
  forall (E : env) a w gens s gn pp,
    order_ok E -> NoDup (map g_name gens) -> world_ok w ->
    (exec_outcome E a w gens s = Failed (EGen gn pp) \/ exec_outcome E a w gens s = Failed (EDefer gn pp)) ->
    exists p g, In p (w_pkgs w) /\ pk_path p = pp /\ In g gens /\ g_name g = gn /\ processed E a w s p = true /\
      forall f, fs_lookup (pk_dir p, f) (exec_fs E a w gens s) = fs_lookup (pk_dir p, f) s.
Proof. intros E a w gens s gn pp _ _ [Hd _]. exact (failed_names_pkg E a w gens s gn pp Hd). Qed.
Print Assumptions C02_generator_error_no_damage.

(* Execute failed with a syntax position: the position is in the file of a generator of a processed package whose
   rendering the formatter rejects (it is parsed BEFORE the destination is opened), and that file is byte-identical. *)
Theorem C02_unparseable_no_damage :
  forall (E : env) a w gens s q,
    order_ok E -> NoDup (map g_name gens) -> world_ok w ->
    exec_outcome E a w gens s = Failed (EParse q) ->
    (exists p g, In p (w_pkgs w) /\ In g gens /\ processed E a w s p = true /\ q = gen_file a p (g_name g) /\
                 go_body (gen_run E g p) <> [] /\
                 e_fmt E (assemble (pk_name p) (g_name g) (go_body (gen_run E g p))) = None)
    /\ fs_lookup q (exec_fs E a w gens s) = fs_lookup q s.
Proof. intros E a w gens s q Ho Hn [Hd _]. exact (failed_parse E a w gens s q Ho Hn Hd). Qed.
Print Assumptions C02_unparseable_no_damage.

(* Conversely an unparseable rendering never goes unnoticed: in a successful run everything retained parsed. *)
Theorem C02_unparseable_reported :
  forall (E : env) a w gens s p g,
    order_ok E -> NoDup (map g_name gens) -> world_ok w ->
    exec_outcome E a w gens s = Done ->
    In p (w_pkgs w) -> processed E a w s p = true -> In g gens ->
    go_body (gen_run E g p) <> [] ->
    exists out, e_fmt E (assemble (pk_name p) (g_name g) (go_body (gen_run E g p))) = Some out /\
                fs_lookup (gen_file a p (g_name g)) (exec_fs E a w gens s) = Some out.
Proof. intros E a w gens s p g Ho Hn [Hd _]. exact (Gengo.Proofs.PipelineC07.written_content E a w gens s p g Ho Hn Hd). Qed.
Print Assumptions C02_unparseable_reported.

(* gengo.sum: a run that does not succeed - error or death, anywhere - leaves it as it was. *)
Theorem C02_sum_untouched_unless_done :
  forall (E : env) a w gens s,
    files_ok w -> exec_outcome E a w gens s <> Done ->
    fs_lookup (sum_path w) (exec_fs E a w gens s) = fs_lookup (sum_path w) s.
Proof. exact sum_untouched_unless_done. Qed.
Print Assumptions C02_sum_untouched_unless_done.

(* The sum is written by the last two effects (open with O_TRUNC, write) and only after every package succeeded
   under All; no earlier effect is on gengo.sum. *)
Theorem C02_sum_written_last :
  forall (E : env) a w gens s,
    files_ok w ->
    exists tail, effects E a w gens s = pkgs_effects E a w gens s ++ tail /\
      (forall e, In e (pkgs_effects E a w gens s) -> effect_path e <> sum_path w) /\
      (tail = [] \/ (tail = save_effects E w /\ exec_outcome E a w gens s = Done /\ a_all a = true)).
Proof. exact sum_written_last. Qed.
Print Assumptions C02_sum_written_last.

(* Every crash point before the save (a process that dies after any number k of effects): gengo.sum is untouched. *)
Theorem C02_crash_before_save :
  forall (E : env) a w gens s k,
    files_ok w -> k <= List.length (pkgs_effects E a w gens s) ->
    fs_lookup (sum_path w) (apply_all (firstn k (effects E a w gens s)) s) = fs_lookup (sum_path w) s.
Proof. exact crash_before_save. Qed.
Print Assumptions C02_crash_before_save.

(* The one crash point inside the save - after gengo.sum was opened with O_TRUNC, before its bytes are written -
   leaves an EMPTY gengo.sum (every generated file is complete at that point) ... *)
Theorem C02_crash_inside_save :
  forall (E : env) a w gens s,
    exec_outcome E a w gens s = Done -> a_all a = true ->
    fs_lookup (sum_path w)
      (apply_all (firstn (S (List.length (pkgs_effects E a w gens s))) (effects E a w gens s)) s) = Some [].
Proof. exact crash_inside_save. Qed.
Print Assumptions C02_crash_inside_save.

(* ... and an empty gengo.sum is never trusted: the next run regenerates every package that has a directory hash.
   (What sumfile.Load makes of a partly written sum is the C08 check's sumfile model.) *)
Theorem C02_empty_sum_regenerates :
  forall (E : env) a w s p,
    e_sum_load E [] = [] -> fs_lookup (sum_path w) s = Some [] ->
    sum_get (current_sum w) (pk_path p) <> [] ->
    pkg_changed a w (load_prev E a w s) p = true.
Proof. exact empty_sum_regenerates. Qed.
Print Assumptions C02_empty_sum_regenerates.

Example C02_example_byte_level_load_of_nothing : sumfile_load [] = [].
Proof. vm_compute. reflexivity. Qed.

(* non-vacuity, on a two-package All run with previous outputs and a previous sum *)
Example C02_example_error_at_call_index_2 :
  let '(s', tr, out) := wf_run (mk_step (bs "var A2 = 1") RErr false false []) (ok_step "var B0 = 1") in
  out = Failed (EGen (bs "g1") (bs "m/a")) /\ List.length tr = 3 /\ unchanged s' [a_g1; a_g2; b_g1; the_sum] = true.
Proof. exact witness_error_at_index_2. Qed.

Example C02_example_deferred_callback_returns_ErrSkip :
  let '(s', tr, out) := wf_run (mk_step (bs "var A2 = 1") RNil false false [SD [] RSkip []]) (ok_step "var B0 = 1") in
  out = Failed (EDefer (bs "g1") (bs "m/a")) /\ unchanged s' [a_g1; a_g2; b_g1; the_sum] = true.
Proof. exact witness_deferred_error. Qed.

Example C02_example_unparseable_in_second_package :
  let '(s', tr, out) := wf_run (ok_step "var A2 = 1") (ok_step "func (
") in
  out = Failed (EParse b_g1) /\ unchanged s' [b_g1; the_sum] = true /\ unchanged s' [a_g1] = false.
Proof. exact witness_unparseable_second_package. Qed.

Example C02_example_death_inside_GenerateType :
  let '(s', tr, out) := wf_run (ok_step "var A2 = 1") (mk_step [] RDie false false []) in
  out = Died /\ unchanged s' [b_g1; the_sum] = true.
Proof. exact witness_death. Qed.

Example C02_example_skip_and_ignore_are_swallowed :
  let '(s', tr, out) := wf_run (mk_step [] RIgnore false false []) (mk_step [] RSkip false false []) in
  out = Done /\ unchanged s' [the_sum] = false /\
  existsb (fun e => match e with EvCall _ _ _ _ RSkip => true | _ => false end) tr = true /\
  existsb ev_is_ignore tr = true.
Proof. exact witness_swallowed. Qed.

(* ---- the composed system (Model/Whole.v, Props/Whole.v): the crash theorems with the REAL gengo.sum parser ----
   [crash_state E a w gens s s']: the run is killed after any number k of its effects (s' = the first k applied), or
   inside the write of gengo.sum, which then holds any prefix of its bytes.  E is any environment whose sum
   parser / printer are the byte-level ones of C08 (bytes.Lines, bytes.Fields; sorted keys) — e.g. Whole.whole_env. *)
Require Gengo.Model.SumFile Gengo.Proofs.SumFile Gengo.Model.Whole Gengo.Proofs.WholeCrash Gengo.Props.Whole.
Require Import Gengo.Proofs.PipelineWitnessCrash.

Theorem C02_whole_crash_sum_content :
  forall (E : env), e_sum_bytes E = SumFile.sumfile_bytes ->
  forall a w gens s s',
    files_ok w -> WholeCrash.crash_state E a w gens s s' ->
    fs_lookup (sum_path w) s' = fs_lookup (sum_path w) s
    \/ exists n, fs_lookup (sum_path w) s' = Some (firstn n (SumFile.sumfile_bytes (current_sum w))).
Proof. exact Gengo.Props.Whole.Whole_crash_sum_content. Qed.
Print Assumptions C02_whole_crash_sum_content.

(* "... or marks work as done": whatever the crash point, the NEXT run (any arguments, any loaded world w2 of the
   module) treats p as done only if the hash it computed for p is recorded by the gengo.sum the killed run had found
   and not yet touched, or is the one the killed run was recording.  Side conditions: recorded paths / hashes are
   tokens (kv_ok); a recorded hash is as long as the one computed now, or empty (dirhash.Hash1 has one length). *)
Theorem C02_whole_crash_then_skip_justified :
  forall (E : env), e_sum_load E = SumFile.sumfile_load -> e_sum_bytes E = SumFile.sumfile_bytes ->
  forall a w gens s s' a2 w2 p,
    files_ok w -> WholeCrash.crash_state E a w gens s s' ->
    Gengo.Proofs.SumFile.kv_ok (current_sum w) ->
    sum_path w2 = sum_path w ->
    (sum_get (current_sum w) (pk_path p) = []
     \/ List.length (sum_get (current_sum w) (pk_path p)) = List.length (sum_get (current_sum w2) (pk_path p))) ->
    pkg_changed a2 w2 (load_prev E a2 w2 s') p = false ->
    sum_get (current_sum w2) (pk_path p) <> []
    /\ ((exists b, fs_lookup (sum_path w) s = Some b
                   /\ SumFile.sum_sum (SumFile.sumfile_load b) (pk_path p) = sum_get (current_sum w2) (pk_path p))
        \/ sum_get (current_sum w) (pk_path p) = sum_get (current_sum w2) (pk_path p)).
Proof. exact Gengo.Props.Whole.Whole_crash_then_skip_justified. Qed.
Print Assumptions C02_whole_crash_then_skip_justified.

(* non-vacuity of the two crash theorems at crash states with a NON-EMPTY gengo.sum after which the next run does skip a
   package (Proofs/PipelineWitnessCrash.v): an All run over m/a, m/b, m/c with previous outputs and a previous gengo.sum
   that records m/a's current hash and other hashes for m/b and m/c.
   (A) g1 returns an error in m/c: m/a is cached (pkg_changed = false, no call), m/b is regenerated, the run fails;
       the state where Execute returns is a crash state; gengo.sum and the previous files of m/a and m/c are
       byte-identical; in the NEXT run (m/b re-hashed) m/a is skipped, m/b and m/c are regenerated. *)
Example C02_example_failed_run_with_cached_package :
  exec_outcome wf_env wk_args wk_world wk_gens_fail wk_fs = Failed (EGen (bs "g1") (bs "m/c"))
  /\ map (fun p => pkg_changed wk_args wk_world (load_prev wf_env wk_args wk_world wk_fs) p) (sorted_pkgs wk_world)
     = [false; true; true]
  /\ map (fun e => match e with EvCall _ p _ _ r => (p, r) | EvDefer _ p _ _ r => (p, r) end)
         (exec_trace wf_env wk_args wk_world wk_gens_fail wk_fs) = [(bs "m/b", RNil); (bs "m/c", RErr)]
  /\ List.length wk_effects_fail = 2
  /\ wk_after_fail = exec_fs wf_env wk_args wk_world wk_gens_fail wk_fs
  /\ lookups wk_after_fail wk_paths
     = [Some (bs "A"); Some (bs "old a g1"); Some (bs "B"); Some (assemble (bs "b") (bs "g1") (bs "var B = 1"));
        Some (bs "C"); Some (bs "old c g1"); Some wk_sum0].
Proof. exact wk_failed_run. Qed.

Example C02_example_crash_hypotheses_satisfiable :
  files_ok wk_world /\ Gengo.Proofs.SumFile.kv_ok (current_sum wk_world)
  /\ WholeCrash.crash_state wf_env wk_args wk_world wk_gens_fail wk_fs wk_after_fail
  /\ map (fun p => pkg_changed wk_args wk_world2 (load_prev wf_env wk_args wk_world2 wk_after_fail) p) (sorted_pkgs wk_world2)
     = [false; true; true].
Proof. exact (conj wk_files_ok (conj wk_kv_ok (conj wk_crash_state_fail wk_next_after_fail))). Qed.

(* C02_whole_crash_then_skip_justified applied there (p = m/a): the skip rests on the gengo.sum the failed run found *)
Example C02_example_skip_after_failed_run_justified :
  sum_get (current_sum wk_world2) (bs "m/a") <> []
  /\ ((exists b, fs_lookup (sum_path wk_world) wk_fs = Some b
                 /\ SumFile.sum_sum (SumFile.sumfile_load b) (bs "m/a") = sum_get (current_sum wk_world2) (bs "m/a"))
      \/ sum_get (current_sum wk_world) (bs "m/a") = sum_get (current_sum wk_world2) (bs "m/a")).
Proof. exact wk_skip_justified_after_fail. Qed.
Print Assumptions C02_example_skip_after_failed_run_justified.

(* (B) the same module, g1 succeeds everywhere, the process is killed INSIDE the write of gengo.sum after 14 bytes: the
       file holds the complete line of m/a and "m/b h"; every generated file is complete; the next run skips m/a on
       the strength of the complete line and regenerates m/b (torn line) and m/c (no line). *)
Example C02_example_torn_sum :
  WholeCrash.crash_state wf_env wk_args wk_world wk_gens_ok wk_fs wk_torn
  /\ lookups wk_torn wk_paths
     = [Some (bs "A"); Some (bs "old a g1"); Some (bs "B"); Some (assemble (bs "b") (bs "g1") (bs "var B = 1"));
        Some (bs "C"); Some (assemble (bs "c") (bs "g1") (bs "var C = 1")); Some (bs "m/a h1:a" ++ nl ++ bs "m/b h")]
  /\ SumFile.sumfile_load (bs "m/a h1:a" ++ nl ++ bs "m/b h") = [(bs "m/a", bs "h1:a"); (bs "m/b", bs "h")]
  /\ map (fun p => pkg_changed wk_args wk_world (load_prev wf_env wk_args wk_world wk_torn) p) (sorted_pkgs wk_world)
     = [false; true; true].
Proof. exact (conj wk_crash_state_torn wk_torn_state). Qed.

Example C02_example_skip_after_torn_sum_justified :
  (fs_lookup (sum_path wk_world) wk_torn = fs_lookup (sum_path wk_world) wk_fs
   \/ exists n, fs_lookup (sum_path wk_world) wk_torn = Some (firstn n (SumFile.sumfile_bytes (current_sum wk_world))))
  /\ sum_get (current_sum wk_world) (bs "m/a") <> []
  /\ ((exists b, fs_lookup (sum_path wk_world) wk_fs = Some b
                 /\ SumFile.sum_sum (SumFile.sumfile_load b) (bs "m/a") = sum_get (current_sum wk_world) (bs "m/a"))
      \/ sum_get (current_sum wk_world) (bs "m/a") = sum_get (current_sum wk_world) (bs "m/a")).
Proof. exact (conj wk_torn_sum_content wk_skip_justified_torn). Qed.
Print Assumptions C02_example_skip_after_torn_sum_justified.

(* after the repair of pkgChanged (an empty current hash is never cached) the hypothesis "has a directory hash" of
   C02_empty_sum_regenerates is not needed any more *)
Theorem C02_empty_sum_regenerates_everything :
  forall (E : env) a w s p,
    e_sum_load E [] = [] -> fs_lookup (sum_path w) s = Some [] ->
    pkg_changed a w (load_prev E a w s) p = true.
Proof. exact empty_sum_regenerates_all. Qed.
Print Assumptions C02_empty_sum_regenerates_everything.

Example C02_example_real_parser_load_of_nothing : SumFile.sumfile_load [] = [].
Proof. vm_compute. reflexivity. Qed.

(* ---- a real failing generator (Model/Generators.v: partialstruct as an instance of the abstract generator, built from
   C18's model): a declaration that is not a struct, or not made from a named type, in a processed package —
   [generate_pkg ... = OutErr k], the error C18_errors proves is returned before anything is rendered — makes the
   whole run fail, whatever other packages and generators are in it; gengo.sum is left as it was; and when Execute
   names partialstruct and this package, no file of the package's directory has changed ---- *)
Require Gengo.Model.Generators Gengo.Proofs.GeneratorsPipe.
Module GN := Gengo.Model.Generators.
Module GP := Gengo.Proofs.GeneratorsPipe.

Theorem C02_partialstruct_error_aborts :
  forall (E : env) cfg tracker tin print_gtype a w gens s p k,
    order_ok E -> NoDup (map g_name gens) -> world_ok w ->
    In p (w_pkgs w) -> processed E a w s p = true -> In (GN.partialstruct_gen cfg tracker tin print_gtype) gens ->
    GN.PS.generate_pkg (tracker p) (pk_path p) cfg (map (tin p) (GP.ps_called cfg tracker tin print_gtype E p)) [] []
      = GN.PS.OutErr k ->
    exec_outcome E a w gens s <> Done /\
    (files_ok w -> fs_lookup (sum_path w) (exec_fs E a w gens s) = fs_lookup (sum_path w) s) /\
    (exec_outcome E a w gens s = Failed (EGen (bs "partialstruct") (pk_path p)) ->
     forall f, fs_lookup (pk_dir p, f) (exec_fs E a w gens s) = fs_lookup (pk_dir p, f) s).
Proof. exact GP.partialstruct_error_aborts. Qed.
Print Assumptions C02_partialstruct_error_aborts.
