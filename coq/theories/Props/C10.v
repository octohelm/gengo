(* C10 — Value literals evaluate back to the value they were rendered from.
   Statements; the proofs are in Proofs/ValueLit*.v and Proofs/RenderStack*.v, facts about concrete data are evaluated
   in place.

   Level: the literal AST.  [value_lit] is the model of Dumper.ValueLit (repaired code: fixed = true),
   [denote t l] the value Go gives to the literal l where a value of type t is expected.  That the
   printed text is parsed by Go to this AST and evaluated as [denote] says is tested per run (the
   generated programs are compiled and run), not proved.

   External components (strconv.FormatFloat in the two formats used, the compiler's conversion of a
   decimal constant to a float type, strconv.Quote) are universally quantified, with the hypotheses
   below; the harness tests them on every case. *)
Require Import Gengo.Base.Bytes Gengo.Model.ValueLit Gengo.Model.ValueLitSpec Gengo.Model.ValueLitInst
               Gengo.Proofs.ValueLit Gengo.Proofs.ValueLitWitness.
From Coq Require Import ZArith Permutation.

Section Statements.
  Context {F : Type}.
  Variable fzero : F -> bool.                      (* x == 0 *)
  Variables ffmt gfmt : fkind -> F -> bytes.       (* FormatFloat(x,'f',-1,bits), FormatFloat(x,'g',-1,bits) *)
  Variable fbig : F -> bool.                       (* |x| >= 1e21 *)
  Variable fparse : fkind -> bytes -> option F.    (* constant conversion by the compiler *)
  Variable f0 : F.
  Variable quote : bytes -> bytes.                 (* strconv.Quote *)
  Variable local : bytes -> bytes.                 (* import tracker *)
  Variable frep : fkind -> F -> Prop.              (* finite value of the float type *)
  Variable feq : F -> F -> Prop.                   (* == *)

  Definition strconv_hyps : Prop :=
    (forall x, fzero x = true -> feq x f0) /\
    (forall k x, frep k x -> exists y, fparse k (ffmt k x) = Some y /\ feq x y) /\
    (forall k x, frep k x -> exists y, fparse k (gfmt k x) = Some y /\ feq x y) /\
    (forall k x z, frep k x -> fbig x = false -> parse_int (ffmt k x) = Some z -> int_const_ok z = true) /\
    (forall k x, frep k x -> fbig x = true -> parse_int (gfmt k x) = None).

  (* Every in-domain value of every in-domain type renders (no panic) to a literal that denotes, at
     that type, a deeply equal value (nil and empty slices/maps identified, omitted fields zero). *)
  Theorem C10_roundtrip :
    strconv_hyps -> (forall a b, quote a = quote b -> a = b) ->
    forall (t : gotype) (v : goval F), dom t -> typed frep t v ->
    exists l v', value_lit fzero ffmt gfmt fbig quote local true false t v = Ok l /\
                 denote fparse f0 t l = Some v' /\ deep_eq feq v v'.
  Proof.
    intros (H1 & H2 & H3 & H4 & H5) Hq.
    exact (roundtrip_top fzero ffmt gfmt fbig fparse f0 quote local frep feq H1 H2 H3 H4 H5 Hq).
  Qed.

  (* Deterministic text: the literal of a map does not depend on the iteration order. *)
  Theorem C10_map_order :
    (forall a b, quote a = quote b -> a = b) ->
    forall sub t n1 n2 (m1 m2 : list (goval F * goval F)),
      dom t -> typed frep t (VMap n1 m1) -> Permutation m1 m2 ->
      value_lit fzero ffmt gfmt fbig quote local true sub t (VMap n1 m1) =
      value_lit fzero ffmt gfmt fbig quote local true sub t (VMap n2 m2).
  Proof. intros Hq. exact (map_order fzero ffmt gfmt fbig fparse f0 quote local frep Hq). Qed.

  (* ... for all types and values, before and after the repairs, as soon as the rendered key texts are
     pairwise distinct *)
  Theorem C10_map_order_general :
    forall fx sub t n1 n2 (m1 m2 : list (goval F * goval F)),
      Permutation m1 m2 ->
      (forall kt et tbl, under t = TMap kt et ->
         mapr (row fzero ffmt gfmt fbig quote local fx (if fx then false else sub) kt et) m1 = Ok tbl ->
         NoDup (map fst tbl)) ->
      value_lit fzero ffmt gfmt fbig quote local fx sub t (VMap n1 m1) =
      value_lit fzero ffmt gfmt fbig quote local fx sub t (VMap n2 m2).
  Proof. exact (map_order_gen fzero ffmt gfmt fbig quote local). Qed.

  (* The type prefix of a composite literal is the type literal of the value's type; the pointer
     closure is typed by the type literal of the pointee.  No domain restriction; since every nested
     literal is itself [value_lit] of a sub-value at its type, this covers every composite. *)
  Theorem C10_type_prefix :
    forall fx sub t (v : goval F) ty es,
      value_lit fzero ffmt gfmt fbig quote local fx sub t v = Ok (LComposite ty es) -> ty = type_lit t.
  Proof. exact (type_prefix fzero ffmt gfmt fbig quote local). Qed.

  Theorem C10_closure_prefix :
    forall sub t (v : goval F) ty a,
      value_lit fzero ffmt gfmt fbig quote local true sub t v = Ok (LPtrClosure ty a) ->
      exists e, under t = TPtr e /\ ty = type_lit e.
  Proof. exact (closure_prefix fzero ffmt gfmt fbig quote local). Qed.

  (* History: the code before the repairs (fixed = false) fails the round trip on in-domain values. *)
  Theorem C10_roundtrip_refuted_before_fix :
    fails fzero ffmt gfmt fbig fparse f0 quote local frep false (TPtr TString) (VPtr (VStr (bs "x"))) /\
    fails fzero ffmt gfmt fbig fparse f0 quote local frep false (TPtr T_Color) (VPtr (VInt 3)) /\
    fails fzero ffmt gfmt fbig fparse f0 quote local frep false
          (TStruct [(bs "Z", TPtr T_In)]) (VStruct [VPtr (VStruct [VInt 0])]) /\
    fails fzero ffmt gfmt fbig fparse f0 quote local frep false
          (TStruct [(bs "M", TMap TString T_In)]) (VStruct [VMap false [(VStr (bs "a"), VStruct [VInt 0])]]) /\
    fails fzero ffmt gfmt fbig fparse f0 quote local frep false (TInt KUintptr) (VInt 3) /\
    (forall x, frep KF64 x -> ffmt KF64 x = max_float64_f ->
               fails fzero ffmt gfmt fbig fparse f0 quote local frep false (TFloat KF64) (VFloat x)).
  Proof.
    exact (conj (old_ptr_string fzero ffmt gfmt fbig fparse f0 quote local frep)
          (conj (old_ptr_named fzero ffmt gfmt fbig fparse f0 quote local frep)
          (conj (old_ptr_zero_struct fzero ffmt gfmt fbig fparse f0 quote local frep)
          (conj (old_map_zero_struct fzero ffmt gfmt fbig fparse f0 quote local frep)
          (conj (old_uintptr fzero ffmt gfmt fbig fparse f0 quote local frep)
                (old_big_float fzero ffmt gfmt fbig fparse f0 quote local frep)))))).
  Qed.
End Statements.

Print Assumptions C10_roundtrip.
Print Assumptions C10_map_order.
Print Assumptions C10_map_order_general.
Print Assumptions C10_type_prefix.
Print Assumptions C10_closure_prefix.
Print Assumptions C10_roundtrip_refuted_before_fix.

(* non-vacuity 1: the hypotheses are satisfiable.  This is the MINIMAL instance (integers below 2^53 as
   "floats", printed in decimal, quote = identity): its [fbig] is constantly false, so the last clause of
   [strconv_hyps] holds vacuously in it.  The instances below it do not have that defect. *)
Theorem C10_hypotheses_satisfiable :
  @strconv_hyps Z (fun x => Z.eqb x 0) (fun _ => dec) (fun _ => dec) (fun _ => false)
                (fun _ => parse_int) 0%Z z_frep eq /\
  (forall a b : bytes, (fun s => s) a = (fun s => s) b -> a = b) /\ z_frep KF64 42%Z.
Proof.
  destruct z_instance as (H1 & H2 & H3 & H4 & H5 & H6).
  exact (conj (conj H1 (conj H2 (conj H2 (conj H3 H4)))) (conj H5 H6)).
Qed.
Print Assumptions C10_hypotheses_satisfiable.

(* non-vacuity 1b: decimal floats (m, e) = m * 10^e (Proofs/ValueLitWitness.v).  [d_fbig x] is |x| >= 1e21;
   the 'f' format writes all the digits, the 'g' format is scientific ("15e+20") exactly when the value is big,
   and the constant conversion [d_fparse] reads INT and INT "e+" INT.  The quote function escapes backslash,
   double quote and newline.  The concrete facts: a big value, one that is not, a big float32, zero with an
   exponent, and three values [d_frep] rejects. *)
Theorem C10_hypotheses_satisfiable_decimal_floats :
  @strconv_hyps df d_fzero d_ffmt d_gfmt d_fbig d_fparse d_f0 d_frep d_feq /\
  (forall a b, esc_quote a = esc_quote b -> a = b) /\
  (d_frep KF64 (15%Z, 20) /\ d_fbig (15%Z, 20) = true /\ d_gfmt KF64 (15%Z, 20) = bs "15e+20" /\
   d_ffmt KF64 (15%Z, 20) = bs "1500000000000000000000" /\
   parse_int (bs "15e+20") = None /\ d_fparse KF64 (bs "15e+20") = Some (15%Z, 20)) /\
  (d_frep KF64 (42%Z, 1) /\ d_fbig (42%Z, 1) = false /\ d_gfmt KF64 (42%Z, 1) = bs "420" /\
   d_ffmt KF64 (42%Z, 1) = bs "420" /\ d_fparse KF64 (bs "420") = Some (420%Z, 0)) /\
  (d_frep KF32 ((-1)%Z, 30) /\ d_fbig ((-1)%Z, 30) = true /\ d_gfmt KF32 ((-1)%Z, 30) = bs "-1e+30") /\
  (d_frep KF64 (0%Z, 5) /\ d_fzero (0%Z, 5) = true /\ d_fzero (42%Z, 1) = false) /\
  (d_frepb KF32 (1%Z, 39) = false /\ d_frepb KF64 ((2 ^ 53)%Z, 0) = false /\ d_frepb KF64 (2%Z, 308) = false).
Proof.
  refine (conj d_instance (conj esc_quote_inj (conj _ (conj _ (conj _ (conj _ (conj _ (conj _ d_frepb_2e308))))))));
    vm_compute; repeat split; reflexivity.
Qed.
Print Assumptions C10_hypotheses_satisfiable_decimal_floats.

Example C10_esc_quote_example :
  esc_quote ["a"%char; dq; bsl; nl] = ["""" ; "a"; "\"; """"; "\"; "\"; "\"; "n"; """"]%char.
Proof. vm_compute. reflexivity. Qed.

(* non-vacuity 1c: the harness's own float record [fl] (the texts strconv produced) with a finite table of real
   strconv data ([fl_tab64], [fl_tab32]: 1.5, 1e21, -3.5e22, 0, -0, 100, 2.5e-7, 123456789, 9.99999999999999e20,
   MaxFloat64; MaxFloat32, float32(0.1) ...), [fl_frep k x] = x is a row of the table of that bit size,
   [fl_feq] = [i_feqb], [fl_ptab] = ParseFloat of every text of the tables. *)
Theorem C10_hypotheses_satisfiable_strconv_table :
  @strconv_hyps fl i_fzero i_ffmt i_gfmt i_fbig (i_fparse fl_ptab) i_f0 fl_frep fl_feq /\
  fl_frep KF64 (fl_mk "1e+21" "1000000000000000000000" "1e+21" true) /\
  fl_frep KF32 (fl_mk "3.4028235e+38" "340282350000000000000000000000000000000" "3.4028235e+38" true) /\
  parse_int (bs "1000000000000000000000") = Some (10 ^ 21)%Z /\ parse_int (bs "1e+21") = None /\
  fl_feq (fl_mk "-0" "-0" "-0" false) i_f0 /\
  i_fparse fl_ptab KF64 (bs "0.00000025") = Some (mk_fl (bs "2.5e-07") [] [] false) /\
  i_fparse fl_ptab KF32 max_float64_f = None.
Proof.
  split; [exact fl_instance|]. split; [apply in_cons, in_eq|]. split; [do 6 apply in_cons; apply in_eq|].
  vm_compute. repeat split; reflexivity.
Qed.
Print Assumptions C10_hypotheses_satisfiable_strconv_table.

(* ... and the main theorem on all the rows of the 64-bit table as a []float64, with the text *)
Example C10_strconv_table_roundtrip :
  forall local,
  exists l v', value_lit i_fzero i_ffmt i_gfmt i_fbig esc_quote local true false (TSlice (TFloat KF64)) fl_slice = Ok l /\
               denote (i_fparse fl_ptab) i_f0 (TSlice (TFloat KF64)) l = Some v' /\ deep_eq fl_feq fl_slice v'.
Proof.
  exact (fun local => C10_roundtrip i_fzero i_ffmt i_gfmt i_fbig (i_fparse fl_ptab) i_f0 esc_quote local fl_frep fl_feq
                        fl_instance esc_quote_inj (TSlice (TFloat KF64)) fl_slice (DSlice _ (DFloat KF64)) fl_slice_typed).
Qed.
Print Assumptions C10_strconv_table_roundtrip.

Example C10_strconv_table_text :
  option_map (print_lit esc_quote wit_local)
    (match value_lit i_fzero i_ffmt i_gfmt i_fbig esc_quote wit_local true false (TSlice (TFloat KF64)) fl_slice with
     | Ok l => Some l | _ => None end)
  = Some (concat (map (fun s => bs s ++ [nl])
            ["[]float64{"; "1.5,"; "1e+21,"; "-3.5e+22,"; "0,"; "-0,"; "100,"; "0.00000025,"; "123456789,";
             "999999999999999000000,"; "1.7976931348623157e+308,"]%string) ++ bs "}").
Proof. vm_compute. reflexivity. Qed.

(* non-vacuity 2: a concrete nested value, its literal under the repaired code, and the round trip *)
Definition ex_S : gotype :=
  TNamed (bs "m") (bs "S")
    (TStruct [(bs "Z", TPtr T_In); (bs "M", TMap TString T_In); (bs "P", TPtr TString);
              (bs "C", TPtr T_Color); (bs "L", TSlice (TInt KInt32))]).
Definition ex_v : goval fl :=
  VStruct [VPtr (VStruct [VInt 0]);
           VMap false [(VStr (bs "b"), VStruct [VInt 0]); (VStr (bs "a"), VStruct [VInt 7])];
           VPtr (VStr (bs "x")); VPtr (VInt 3); VSlice false [VInt 97; VInt 39]].

(* the example is in the domain and well typed, whatever the float carrier is *)
Example C10_example_dom : dom ex_S.
Proof. exact wit_S_dom. Qed.
Example C10_example_typed : forall frep, @typed fl frep ex_S ex_v.
Proof. exact (wit_v_typed fl). Qed.

(* the main theorem instantiated: the decimal floats and the escaping quote of non-vacuity 1b, this type and
   this value (over [df]: [wit_S] = [ex_S], [wit_v df] = the term of [ex_v]), every import tracker *)
Example C10_example_roundtrip_instantiated :
  forall local,
  exists l v', value_lit d_fzero d_ffmt d_gfmt d_fbig esc_quote local true false ex_S (wit_v df) = Ok l /\
               denote d_fparse d_f0 ex_S l = Some v' /\ deep_eq d_feq (wit_v df) v'.
Proof. exact (fun local => d_roundtrip local wit_S (wit_v df) wit_S_dom (wit_v_typed df d_frep)). Qed.
Print Assumptions C10_example_roundtrip_instantiated.

(* ... and on [ex_v] itself, with the harness's float record and the table of real strconv data of non-vacuity 1c *)
Example C10_example_roundtrip_on_ex_v :
  forall local,
  exists l v', value_lit i_fzero i_ffmt i_gfmt i_fbig esc_quote local true false ex_S ex_v = Ok l /\
               denote (i_fparse fl_ptab) i_f0 ex_S l = Some v' /\ deep_eq fl_feq ex_v v'.
Proof.
  exact (fun local => C10_roundtrip i_fzero i_ffmt i_gfmt i_fbig (i_fparse fl_ptab) i_f0 esc_quote local fl_frep fl_feq
                        fl_instance esc_quote_inj ex_S ex_v wit_S_dom (wit_v_typed fl fl_frep)).
Qed.

Definition ex_q := [(bs "a", bs """a"""); (bs "b", bs """b"""); (bs "x", bs """x""")].

Definition ex_l : list (bytes * bytes) := [(bs "m", [])].   (* "m" is the package being generated *)

Example C10_example_text :
  option_map (fun l => to_string (i_print ex_q ex_l l))
             (match i_value_lit ex_q ex_l true false ex_S ex_v with Ok l => Some l | _ => None end)
  = Some ("S{" ++ String nl "Z:&(In{})," ++ String nl "M:map[string]In{" ++ String nl
          """a"":In{" ++ String nl "A:7," ++ String nl "}," ++ String nl """b"":In{}," ++ String nl "}," ++ String nl
          "P:func(v string) *string { return &v }(""x"")," ++ String nl
          "C:func(v Color) *Color { return &v }(3)," ++ String nl
          "L:[]int32{" ++ String nl "'a'," ++ String nl "39," ++ String nl "}," ++ String nl "}")%string.
Proof. vm_compute. reflexivity. Qed.

Example C10_example_roundtrip :
  match i_value_lit ex_q ex_l true false ex_S ex_v with
  | Ok l => option_map (deep_eqb ex_v) (i_denote [] ex_S l)
  | _ => None
  end = Some true.
Proof. vm_compute. reflexivity. Qed.

Example C10_example_before_fix :
  match i_value_lit ex_q ex_l false false ex_S ex_v with
  | Ok l => option_map (deep_eqb ex_v) (i_denote [] ex_S l)
  | _ => None
  end = None.
Proof. vm_compute. reflexivity. Qed.

(* non-vacuity 3: a nested value WITH floats ([wit_T], [wit_fv] in Proofs/ValueLitWitness.v): a named struct
   m.Rec { Rows []map[string]float64; C *Color; K Color; X float32; P, Q *string; Z0 float64; In In; A [2]float64 }
   holding 1.5e21 (big), 420, 0 (in a map), an empty and a nil map, a non-nil *Color, a big float32, a *string
   whose text needs all three escapes, a nil pointer, a zero float and a zero struct (omitted), 1e21 and -2.5e20. *)
Example C10_float_example_dom : dom wit_T.
Proof. exact wit_T_dom. Qed.
Example C10_float_example_typed : typed d_frep wit_T wit_fv.
Proof. exact wit_fv_typed. Qed.

Example C10_float_example_roundtrip :
  forall local,
  exists l v', value_lit d_fzero d_ffmt d_gfmt d_fbig esc_quote local true false wit_T wit_fv = Ok l /\
               denote d_fparse d_f0 wit_T l = Some v' /\ deep_eq d_feq wit_fv v'.
Proof. exact (fun local => d_roundtrip local wit_T wit_fv wit_T_dom wit_fv_typed). Qed.
Print Assumptions C10_float_example_roundtrip.

(* its text, computed ([wit_local]: "m" is the package being generated): big floats in scientific form, the
   others with all their digits, escaped strings *)
Example C10_float_example_text :
  option_map (print_lit esc_quote wit_local)
    (match value_lit d_fzero d_ffmt d_gfmt d_fbig esc_quote wit_local true false wit_T wit_fv with
     | Ok l => Some l | _ => None end)
  = Some (concat (map (fun s => bs s ++ [nl])
    ["Rec{";
     "Rows:[]map[string]float64{";
     "map[string]float64{";
     """big"":15e+20,";
     """k\""\\"":420,";
     """zero"":0,";
     "},";
     "map[string]float64{},";
     "map[string]float64{},";
     "},";
     "C:func(v Color) *Color { return &v }(3),";
     "K:-7,";
     "X:-1e+30,";
     "P:func(v string) *string { return &v }(""say \""hi\""\\\n""),";
     "A:[2]float64{";
     "1e+21,";
     "-250000000000000000000,";
     "},"]%string) ++ bs "}").
Proof. vm_compute. reflexivity. Qed.

(* ... and what that literal denotes, computed: 420 comes back as (420, 0), the nil map as an empty one, the
   omitted fields as zero values — a different term, deeply equal *)
Example C10_float_example_denote :
  match value_lit d_fzero d_ffmt d_gfmt d_fbig esc_quote wit_local true false wit_T wit_fv with
  | Ok l => denote d_fparse d_f0 wit_T l
  | _ => None
  end = Some wit_fv'
  /\ deep_eq d_feq wit_fv wit_fv' /\ wit_fv <> wit_fv'.
Proof. split; [vm_compute; reflexivity | exact wit_fv_deep_eq]. Qed.

(* RenderStack: which imports a value literal registers.
   [local] of this file is no longer a free function: in the composed rendering (Model/RenderStack.v [value_frag]) it is
   the table of C03's tracker after the packages of the literal's type prefixes were handed to it, in the order
   Dumper.ValueLit asks for them ([value_regs]: a composite's type literal first, then its parts).
   [vlit local sub t v] = [value_lit] of the repaired code;  [fx6 = true]: with fixes/C10-6-zero-struct-import.diff. *)
Require Import Gengo.Model.RenderStack Gengo.Proofs.RenderStackTracker Gengo.Proofs.RenderStackLeaves Gengo.Proofs.RenderStack.

(* none missing (both code versions): every package the literal mentions was registered — so the literal, and its
   text, depend on the names of registered packages only, and a later rendering in a grown tracker gives the same text *)
Theorem C10_literal_packages_registered :
  forall (F : Type) (fzero : F -> bool) (ffmt gfmt : fkind -> F -> bytes) (fbig : F -> bool) (quote : bytes -> bytes)
         (fx6 : bool) (v : goval F) (local : bytes -> bytes) (sub : bool) (t : gotype) (l : lit),
    vlit fzero ffmt gfmt fbig quote local sub t v = Ok l ->
    incl (lit_pkgs l) (value_regs fzero ffmt gfmt fbig quote fx6 sub t v).
Proof. exact @value_lit_pkgs. Qed.
Print Assumptions C10_literal_packages_registered.

Theorem C10_value_leaf_stable :
  forall (F : Type) (fzero : F -> bool) (ffmt gfmt : fkind -> F -> bytes) (fbig : F -> bool) (quote : bytes -> bytes)
         (pre : list bytes) (std : option Tk.tracker) (self : bytes) (fx6 : bool)
         (t : gotype) (v : goval F) (e : TL.renv) (txt : bytes) (e1 : TL.renv),
    value_frag fzero ffmt gfmt fbig quote (pick_c03 pre std) self fx6 t v e = Ok (txt, e1) ->
    e1 = add_all (pick_c03 pre std) (filter (is_foreign self) (value_regs fzero ffmt gfmt fbig quote fx6 false t v)) e /\
    forall e2, ext e1 e2 -> value_frag fzero ffmt gfmt fbig quote (pick_c03 pre std) self fx6 t v e2 = Ok (txt, e2).
Proof.
  exact (fun F fzero ffmt gfmt fbig quote pre std self fx6 =>
           value_frag_spec fzero ffmt gfmt fbig quote (pick_c03 pre std) (pick_total pre std) self fx6).
Qed.
Print Assumptions C10_value_leaf_stable.

(* none unused (repaired code): exactly the foreign packages the literal mentions are registered.  Side condition
   [keys_distinct]: in every map of the value the key texts are pairwise distinct (true of the keys of this file's
   domain: key_text_inj) — two keys with one text share one entry of the Go table keyValues. *)
Theorem C10_literal_packages_exact :
  forall (F : Type) (fzero : F -> bool) (ffmt gfmt : fkind -> F -> bytes) (fbig : F -> bool) (quote : bytes -> bytes)
         (self : bytes) (fx6 : bool) (local : bytes -> bytes) (t : gotype) (v : goval F) (l : lit),
    fx6 = true ->
    vlit fzero ffmt gfmt fbig quote local false t v = Ok l ->
    keys_distinct fzero ffmt gfmt fbig quote local t v = true ->
    forall p, In p (leaf_value_regs fzero ffmt gfmt fbig quote self fx6 t v) <-> In p (filter (is_foreign self) (lit_pkgs l)).
Proof. exact @value_regs_exact. Qed.
Print Assumptions C10_literal_packages_exact.

(* History: before fixes/C10-6 the type literal of a struct field was asked for BEFORE finding out that the field renders
   as nothing: Box{} with Box struct{ P image.Point; N int } imported "image" for the text Box{} (found by the composed
   correspondence check; the generated file does not compile: imported and not used). *)
Definition t_point : gotype := TNamed (bs "image") (bs "Point") (TStruct [(bs "X", TInt KInt); (bs "Y", TInt KInt)]).
Definition t_box : gotype := TNamed (bs "c10types") (bs "Box") (TStruct [(bs "P", t_point); (bs "N", TInt KInt)]).
Definition v_box_zero : goval unit := VStruct [VStruct [VInt 0; VInt 0]; VInt 0].

Theorem C10_unused_import_refuted_before_fix :
  let vl := vlit (fun _ : unit => true) (fun _ _ => []) (fun _ _ => []) (fun _ => false) (fun s => s) (fun _ => []) false t_box v_box_zero in
  vl = Ok (LComposite (YName (bs "c10types") (bs "Box")) [])
  /\ value_regs (fun _ : unit => true) (fun _ _ => []) (fun _ _ => []) (fun _ => false) (fun s => s) false false t_box v_box_zero
     = [bs "c10types"; bs "image"]
  /\ value_regs (fun _ : unit => true) (fun _ _ => []) (fun _ _ => []) (fun _ => false) (fun s => s) true false t_box v_box_zero
     = [bs "c10types"].
Proof. vm_compute. repeat split; reflexivity. Qed.
Print Assumptions C10_unused_import_refuted_before_fix.

(* Two models of Dumper.TypeLit: this file's [type_lit] / [print_ty local] (a tree with package paths, printed with a
   free [local]) and C11's [TL.type_lit] (rawNamer, ParseTypeRef, the tracker).  On the universe of this file they
   agree: C11's model, run on the view [gview t] of a type through C03's tracker, registers exactly the foreign
   packages of this file's tree, left to right, and its text is — in that state and every later one — what this
   file's printer gives with the tracker's names.  Side condition [ty_okb]: named types have a package path and an
   identifier as name, and the two decimal printers agree on the array lengths that occur (decidable; see the Example). *)
Require Import Gengo.Proofs.RenderStackTypes.

Theorem C10_C11_type_literal_agree :
  forall (pre : list bytes) (std : option Tk.tracker) (self : bytes) (cbq : bytes -> bool) (fe ft : bool)
         (quote : bytes -> bytes) (t : gotype) (e : TL.renv),
    ty_okb t = true -> Forall (fun n => n <> []) (map snd e) ->
    let e1 := add_all (pick_c03 pre std) (filter (is_foreign self) (ty_pkgs (type_lit t))) e in
    exists a, TL.type_lit (pick_c03 pre std) parse_c15 self cbq fe ft (gview t) e = Ok (a, e1) /\
              forall e2, ext e1 e2 -> TL.print quote a = print_ty (local_of self e2) (type_lit t).
Proof.
  exact (fun pre std self cbq fe ft quote t e Hok Hn =>
           type_lit_agree (pick_c03 pre std) (pick_total pre std) (proj1 (proj2 (tracker_hyps_c03 pre std)))
             self cbq fe ft quote t Hok e Hn).
Qed.
Print Assumptions C10_C11_type_literal_agree.

Example C10_C11_side_condition :
  forallb (fun n => bytes_eqb (TL.dec (N.of_nat n)) (dec_nat n)) (seq 0 2000) = true
  /\ ty_okb (TMap TString (TArray 16 (TStruct [(bs "P", t_point); (bs "B", TPtr t_box)]))) = true.
Proof.
  split; [|vm_compute; reflexivity].
  apply ValueLitBase.dec_nat_agree_seq. vm_compute. discriminate.
Qed.
