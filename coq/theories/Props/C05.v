(* C05 — output for a package does not depend on what else is generated in the same run.
   Statements only; every proof is [exact <lemma>] (the last part: of Proofs/GeneratorsPipe.v), but C05_localised, which
   keeps only the first half of [world_ok w] ([intros ... [Hd _]]): the lemma quoted needs distinct directories only, so
   the statement does not need the rest.  Model: Model/Pipeline.v (see Props/C07.v for the parameters);
   generators are arbitrary state machines with any state type, created afresh ([g_new g p]) for every package. *)
Require Import Gengo.Base.Bytes Gengo.Model.Pipeline Gengo.Proofs.Pipeline Gengo.Proofs.PipelinePkg
  Gengo.Proofs.PipelineC05 Gengo.Proofs.PipelineWitness Gengo.Corr.Pipe.
From Coq Require Import Permutation.

(* Two runs from the same tree whose worlds both contain package p (same module root; in each world directories and
   import paths are distinct; p is selected in both, directly or through All; under All each run has a direct package,
   i.e. loads the same previous gengo.sum): if both succeed, every file of p's directory other than gengo.sum is the
   same afterwards.  For every env, every list of stateful generators, every other content of the two worlds. *)
(* WHAT IS DEFINITIONAL: that every (package, generator) pair starts from a fresh instance and a fresh, empty buffer is
   HARD-WIRED in the model ([gen_run] starts [call_loop] from [g_new g p] with an empty body, Model/Pipeline.v 306-314,
   following context.go 191-204); it is not derived from anything, and there is no import tracker in this model at all.
   It is tied to the code by the C05 harness only (stateful scripted generators run by the real Execute, compared with
   this model on every case).  What IS proved below is the consequence: given that, no other package's effects or
   state reach a package's directory, for every env, every generator state machine, every order. *)
Theorem C05_independent :
  forall (E : env) a gens s w1 w2 p f,
    w_modroot w1 = w_modroot w2 ->
    world_ok w1 -> world_ok w2 -> In p (w_pkgs w1) -> In p (w_pkgs w2) ->
    selected a w1 p = true -> selected a w2 p = true ->
    (a_all a = true -> has_direct w1 = true /\ has_direct w2 = true) ->
    exec_outcome E a w1 gens s = Done -> exec_outcome E a w2 gens s = Done ->
    (pk_dir p, f) <> sum_path w1 ->
    fs_lookup (pk_dir p, f) (exec_fs E a w1 gens s) = fs_lookup (pk_dir p, f) (exec_fs E a w2 gens s).
Proof. exact independent. Qed.
Print Assumptions C05_independent.

(* files_of p (exec S) = files_of p (exec [p]): the run that requests only p succeeds too and leaves p's directory
   exactly as the run together with any other packages does. *)
Theorem C05_alone :
  forall (E : env) a gens s w p f,
    world_ok w -> In p (w_pkgs w) -> selected a w p = true ->
    (a_all a = true -> has_direct w = true) ->
    exec_outcome E a w gens s = Done ->
    (pk_dir p, f) <> sum_path w ->
    exec_outcome E a (alone w p) gens s = Done /\
    fs_lookup (pk_dir p, f) (exec_fs E a w gens s) = fs_lookup (pk_dir p, f) (exec_fs E a (alone w p) gens s).
Proof. exact alone_same. Qed.
Print Assumptions C05_alone.

(* any order in which the package map is presented (Go map iteration, order of the entrypoints) *)
Theorem C05_any_order :
  forall (E : env) a gens s w w' p f,
    Permutation (w_pkgs w) (w_pkgs w') -> w_modroot w = w_modroot w' -> w_direct w = w_direct w' ->
    world_ok w -> In p (w_pkgs w) -> selected a w p = true ->
    exec_outcome E a w gens s = Done ->
    (pk_dir p, f) <> sum_path w ->
    exec_outcome E a w' gens s = Done /\
    fs_lookup (pk_dir p, f) (exec_fs E a w gens s) = fs_lookup (pk_dir p, f) (exec_fs E a w' gens s).
Proof. exact order_independent. Qed.
Print Assumptions C05_any_order.

(* a package's directory after a successful run is what that package's own effects leave: no other package's
   effects reach it (the lemma the three theorems rest on) *)
Theorem C05_localised :
  forall (E : env) a w gens s p f,
    world_ok w -> In p (w_pkgs w) -> selected a w p = true ->
    exec_outcome E a w gens s = Done ->
    (pk_dir p, f) <> sum_path w ->
    fs_lookup (pk_dir p, f) (exec_fs E a w gens s)
    = fs_lookup (pk_dir p, f) (apply_all (fst (fst (pkg_execute E a w gens (load_prev E a w s) p))) s).
Proof. intros E a w gens s p f [Hd _]. exact (exec_local E a w gens s p f Hd). Qed.
Print Assumptions C05_localised.

(* non-vacuity: a generator that renders its call counter and emits a helper once per instance, on two packages
   in one All run: the second package starts from a fresh instance *)
(* (the fresh instance seen here is the model's [g_new wc_gen p], by definition; the Go side of the same scenario is
   what the C05 harness observes) *)
Example C05_example_stateful :
  exec_outcome (wit_env true) wc_args wc_world [wc_gen] wc_fs = Done /\
  fs_lookup (bs "b", bs "zz_generated.g1.go") (exec_fs (wit_env true) wc_args wc_world [wc_gen] wc_fs)
  = Some (assemble (bs "b") (bs "g1") (bs "var N_g1_T_x int" ++ nl ++ bs "func helper_g1() {}" ++ nl)) /\
  fs_lookup (bs "a", bs "zz_generated.g1.go") (exec_fs (wit_env true) wc_args wc_world [wc_gen] wc_fs)
  = Some (assemble (bs "a") (bs "g1")
           (bs "var N_g1_T_x int" ++ nl ++ bs "func helper_g1() {}" ++ nl ++ bs "var N_g1_T2_xx int" ++ nl)).
Proof. exact stateful_generator_fresh_per_package. Qed.

(* ================================================================================================================
   The REAL generators as instances of the abstract generator (Model/Generators.v): deepcopy keeps g.processed,
   runtimedoc keeps g.processed and g.helperWritten between the GenerateType calls of one package.  The theorems above
   hold of them as of every state machine; with the agreement theorems of Proofs/GeneratorsPipe.v (Pipeline.gen_run on
   the instance = the generator model's own run of ONE package from its INITIAL state) they read: whatever else is
   generated in the same process, the file of a processed package is the formatter's output for what the generator
   model renders for that package alone — the processed set and the helper flag never carry over between packages.
   The text of the templates is a parameter ([print_method], [print_item], [print_gtype]: checked per run by the
   harnesses of C17 / C16 / C18); what is covered is the IR-level content and its dependence on state.
   ================================================================================================================ *)
Require Gengo.Model.Generators Gengo.Proofs.GeneratorsPipe.
Module GN := Gengo.Model.Generators.
Module GP := Gengo.Proofs.GeneratorsPipe.

(* ("fresh per package" is the model's [g_new] per (package, generator) — definitional, see the note above
   C05_independent; the theorem proves that the pipeline's run of the instance IS the generator model's own run from
   its initial state, and what file results) *)
Theorem C05_deepcopy_fresh_per_package :
  forall (E : env) fx graph vis print_method fuel a w gens s p,
    order_ok E -> NoDup (map g_name gens) -> world_ok w ->
    exec_outcome E a w gens s = Done ->
    In p (w_pkgs w) -> processed E a w s p = true -> In (GN.deepcopy_gen fx graph vis print_method fuel) gens ->
    (* the dispatch calls the generator for declared types on which IsGeneratorEnabled says yes (one Go function) *)
    (forall t, In t (GP.called fx graph vis print_method fuel E p) ->
       exists d, GN.DC.lookup (graph p) (ty_name t) = Some d /\ GN.DC.enabled (graph p) d = true) ->
    exists ms,
      GN.DC.gen_deepcopy fuel fx (graph p) (map ty_name (GP.called fx graph vis print_method fuel E p)) (vis p) = Ok ms /\
      fs_lookup (gen_file a p (bs "deepcopy")) (exec_fs E a w gens s) =
        (if negb (is_nil (GN.print_methods print_method ms))
         then e_fmt E (assemble (pk_name p) (bs "deepcopy") (GN.print_methods print_method ms))
         else if mem_bytes (fname a (bs "deepcopy")) (pk_files p) then None
         else fs_lookup (gen_file a p (bs "deepcopy")) s).
Proof. exact GP.deepcopy_fresh_per_package. Qed.
Print Assumptions C05_deepcopy_fresh_per_package.

Theorem C05_runtimedoc_fresh_per_package :
  forall (E : env) fd fs desc print_item fuel a w gens s p,
    order_ok E -> NoDup (map g_name gens) -> world_ok w ->
    exec_outcome E a w gens s = Done ->
    In p (w_pkgs w) -> processed E a w s p = true -> In (GN.runtimedoc_gen fd fs desc print_item fuel) gens ->
    (forall t, In t (pk_types p) ->
       should_call E (GN.runtimedoc_gen fd fs desc print_item fuel) p t = GN.RD.t_enabled (desc p t)) ->
    List.length (pk_types p) <= fuel ->
    let body := GN.print_items print_item (GN.RD.gen fd fs (GN.rd_view desc p)) in
    fs_lookup (gen_file a p (bs "runtimedoc")) (exec_fs E a w gens s) =
      (if negb (is_nil body) then e_fmt E (assemble (pk_name p) (bs "runtimedoc") body)
       else if mem_bytes (fname a (bs "runtimedoc")) (pk_files p) then None
       else fs_lookup (gen_file a p (bs "runtimedoc")) s).
Proof. exact GP.runtimedoc_fresh_per_package. Qed.
Print Assumptions C05_runtimedoc_fresh_per_package.

Theorem C05_partialstruct_file_per_package :
  forall (E : env) cfg tracker tin print_gtype a w gens s p,
    order_ok E -> NoDup (map g_name gens) -> world_ok w ->
    exec_outcome E a w gens s = Done ->
    In p (w_pkgs w) -> processed E a w s p = true -> In (GN.partialstruct_gen cfg tracker tin print_gtype) gens ->
    let model := GN.PS.generate_pkg (tracker p) (pk_path p) cfg
                   (map (tin p) (GP.ps_called cfg tracker tin print_gtype E p)) [] [] in
    model <> GN.PS.OutGeneric ->
    exists ts i,
      model = GN.PS.OutFile ts i /\
      fs_lookup (gen_file a p (bs "partialstruct")) (exec_fs E a w gens s) =
        (if negb (is_nil (GN.print_gtypes print_gtype ts))
         then e_fmt E (assemble (pk_name p) (bs "partialstruct") (GN.print_gtypes print_gtype ts))
         else if mem_bytes (fname a (bs "partialstruct")) (pk_files p) then None
         else fs_lookup (gen_file a p (bs "partialstruct")) s).
Proof. exact GP.partialstruct_file_per_package. Qed.
Print Assumptions C05_partialstruct_file_per_package.

(* non-vacuity: two packages with the same declarations (Dep untagged, Root{D Dep} tagged) in one All run of the
   deepcopy instance: the package processed second gets Dep's methods too *)
Example C05_example_deepcopy_instance :
  exec_outcome (wit_env true) wc_args GP.wg_world [GP.wg_gen] wc_fs = Done /\
  map ty_name (GP.called GN.DC.all_fixed (fun _ => Gengo.Proofs.DeepCopyTop.w_dep) (fun _ => []) GP.wg_print 8 (wit_env true) GP.wg_a)
    = [bs "Root"] /\
  GN.DC.gen_deepcopy 8 GN.DC.all_fixed Gengo.Proofs.DeepCopyTop.w_dep [bs "Root"] [] =
    Ok [GN.DC.MPtrCopy (bs "Root") []; GN.DC.MPtrInto (bs "Root") [] [GN.DC.SCallInto (bs "D")];
        GN.DC.MPtrCopy (bs "Dep") []; GN.DC.MPtrInto (bs "Dep") [] [GN.DC.SCopySlice (bs "X") (bs "[]int")]] /\
  fs_lookup (bs "a", bs "zz_generated.deepcopy.go") (exec_fs (wit_env true) wc_args GP.wg_world [GP.wg_gen] wc_fs)
    = Some (assemble (bs "a") (bs "deepcopy") GP.wg_body) /\
  fs_lookup (bs "b", bs "zz_generated.deepcopy.go") (exec_fs (wit_env true) wc_args GP.wg_world [GP.wg_gen] wc_fs)
    = Some (assemble (bs "b") (bs "deepcopy") GP.wg_body).
Proof. exact GP.deepcopy_instance_witness. Qed.
