(* C20 — Inflection is total, pure and only rewrites the last word.
   Statements only; every proof of a Theorem is [exact <lemma>], the Examples at the end are evaluated.

   [inflected fixed tbl unf suffix] is the model of Rule.inflected (Model/Inflector.v): [tbl] the
   irregular table, [unf] the parsed uninflected alternatives, [suffix] the ordered regexp rules as
   an arbitrary total function (the first group of theorems holds for EVERY suffix engine);
   [fixed = true] is the code after the "fix:" commit.  [api_full] is the COMPLETE model of
   Pluralize / Singularize: the suffix engine is [suffix_fn] (Model/InflectorRegexp.v: a regexp
   matcher, ReplaceAllString and template expansion in Gallina) over the rules extracted from
   rules.go on this run; the "_concrete" theorems are about it and have no parameter left.  Purity is by
   construction: the model of Rule.inflected is a function of the string; what the cache adds is
   covered by the C20_cache_* theorems for every interleaving of concurrent callers. *)
Require Import Gengo.Base.Bytes Gengo.Model.Inflector Gengo.Model.InflectorRegexp Gengo.Gen.InflectorTables
  Gengo.Model.InflectorApi Gengo.Model.OnceCache
  Gengo.Proofs.Inflector Gengo.Proofs.InflectorRegexp Gengo.Proofs.InflectorFull Gengo.Proofs.OnceCache.

(* ---- for every table that satisfies the side conditions, every string ---- *)

(* Rule.inflected returns (no slice expression panics) on every string, whatever the uninflected
   list and the suffix rules are. *)
Theorem C20_total :
  forall tbl unf suffix, table_wf tbl = true ->
  forall s, exists r, inflected true tbl unf suffix s = Ok r.
Proof. exact inflected_total. Qed.
Print Assumptions C20_total.

(* If the input is  p ++ w  with w an irregular word (any ASCII-case variant of a table word) and p
   empty or ending in a non-word byte, the result is p, unchanged, followed by exactly what w gives
   on its own. *)
Theorem C20_prefix_preserved :
  forall tbl unf suffix, table_wf tbl = true ->
  forall p w, irregular tbl w -> at_boundary p = true ->
  exists r, inflected true tbl unf suffix w = Ok r
         /\ inflected true tbl unf suffix (p ++ w) = Ok (p ++ r).
Proof. exact inflected_prefix_preserved. Qed.
Print Assumptions C20_prefix_preserved.

(* ... and what the word gives on its own is its own first byte followed by the table's
   replacement without its first byte. *)
Theorem C20_irregular_word_alone :
  forall tbl unf suffix, table_wf tbl = true ->
  forall w, irregular tbl w ->
  exists c w' d repl, w = c :: w' /\ lookup (map to_lower w) tbl = Some (d :: repl)
    /\ inflected true tbl unf suffix w = Ok (c :: repl).
Proof. exact inflected_irregular_alone. Qed.
Print Assumptions C20_irregular_word_alone.

(* ---- the tables as they are in rules.go / rule.go today (re-extracted on every run) ---- *)

Theorem C20_tables_ok : tables_wf = true.
Proof. exact tables_ok. Qed.
Print Assumptions C20_tables_ok.

(* inflector.Pluralize ([plural = true]) and inflector.Singularize ([false]) *)
Theorem C20_api_total :
  forall plural suffix s, exists r, api true plural suffix s = Ok r.
Proof. exact api_total. Qed.
Print Assumptions C20_api_total.

Theorem C20_api_prefix_preserved :
  forall plural suffix p w, irregular (api_table plural) w -> at_boundary p = true ->
  exists r, api true plural suffix w = Ok r /\ api true plural suffix (p ++ w) = Ok (p ++ r).
Proof. exact api_prefix_preserved. Qed.
Print Assumptions C20_api_prefix_preserved.

(* ---- the suffix-rule engine (Model/InflectorRegexp.v): every pattern of the modelled language,
        every template, every rule list, every string ---- *)

(* Totality of the engine: neither the backtracking matcher (repetition counter) nor the
   ReplaceAllString loop ever runs out of fuel; [suffix_fn], the plain function the model of
   Rule.inflected takes, is exactly the result of the fuelled definition. *)
Theorem C20_suffix_fuel_suffices :
  forall rules s, suffix_res rules s = Ok (suffix_fn rules s).
Proof. exact suffix_fuel_suffices. Qed.
Print Assumptions C20_suffix_fuel_suffices.

(* What the search reports as the leftmost match lies inside the text, at or after the offset the
   search started from ... *)
Theorem C20_match_in_text :
  forall fold r s pos a0 a1 cs, pos <= length s ->
  search fold r s pos = MYes (a0, a1, cs) -> pos <= a0 /\ a0 <= a1 /\ a1 <= length s.
Proof. exact search_bounds. Qed.
Print Assumptions C20_match_in_text.

(* ... and is a match of the pattern in the declarative sense ([matches]: no priorities, no fuel). *)
Theorem C20_matcher_sound :
  forall fold r s pos a0 a1 cs,
  search fold r s pos = MYes (a0, a1, cs) -> exists t', matches fold r a0 (skipn a0 s) a1 t'.
Proof. exact search_sound. Qed.
Print Assumptions C20_matcher_sound.

(* A rule only rewrites a suffix: if no pattern matches, the string is returned as it is; otherwise
   the first rule whose pattern matches rewrites it, and the result starts with everything the input
   has before that pattern's leftmost match. *)
Theorem C20_suffix_rules_rewrite_a_suffix :
  forall rules s,
  match first_matching rules s with
  | None => suffix_fn rules s = s
  | Some (c, a0) => In c rules /\ a0 <= length s /\ exists more, suffix_fn rules s = firstn a0 s ++ more
  end.
Proof. exact suffix_fn_shape. Qed.
Print Assumptions C20_suffix_rules_rewrite_a_suffix.

(* Irregular and uninflected inputs never reach the suffix rules: an irregular word after a word
   boundary, and any string the uninflected expression matches, is not handed to them, and a string
   that is not handed to them gets the same result whatever the suffix engine is. *)
Theorem C20_suffix_rules_not_reached :
  forall tbl unf, table_wf tbl = true ->
  (forall p w, irregular tbl w -> at_boundary p = true -> reaches_suffix true tbl unf (p ++ w) = false)
  /\ (forall s, uninflected_match unf s = true -> reaches_suffix true tbl unf s = false)
  /\ (forall s, reaches_suffix true tbl unf s = false ->
       forall f g, inflected true tbl unf f s = inflected true tbl unf g s)
  /\ (forall s, reaches_suffix true tbl unf s = true -> forall f, inflected true tbl unf f s = Ok (f s)).
Proof.
  exact (fun tbl unf Hwf =>
    conj (irregular_never_reaches_suffix tbl unf Hwf)
   (conj (uninflected_never_reaches_suffix true tbl unf)
   (conj (inflected_suffix_independent true tbl unf) (inflected_reaches_suffix tbl unf)))).
Qed.
Print Assumptions C20_suffix_rules_not_reached.

(* ---- the COMPLETE model of Pluralize / Singularize: tables AND rules extracted on this run ---- *)

Theorem C20_api_total_concrete :
  forall plural s, exists r, api_full true plural s = Ok r.
Proof. exact api_full_total. Qed.
Print Assumptions C20_api_total_concrete.

Theorem C20_api_prefix_preserved_concrete :
  forall plural p w, irregular (api_table plural) w -> at_boundary p = true ->
  exists r, api_full true plural w = Ok r /\ api_full true plural (p ++ w) = Ok (p ++ r).
Proof. exact api_full_prefix_preserved. Qed.
Print Assumptions C20_api_prefix_preserved_concrete.

Theorem C20_api_irregular_word_alone_concrete :
  forall plural w, irregular (api_table plural) w ->
  exists c w' d repl, w = c :: w' /\ lookup (map to_lower w) (api_table plural) = Some (d :: repl)
    /\ api_full true plural w = Ok (c :: repl).
Proof. exact api_full_irregular_alone. Qed.
Print Assumptions C20_api_irregular_word_alone_concrete.

(* the answer to an irregular word after a boundary does not come from the suffix rules *)
Theorem C20_api_irregular_skips_suffix_rules_concrete :
  forall plural p w, irregular (api_table plural) w -> at_boundary p = true ->
  api_reaches_suffix plural (p ++ w) = false
  /\ forall engine, api_full true plural (p ++ w) = api true plural engine (p ++ w).
Proof.
  exact (fun plural p w Hi Hb =>
    conj (api_irregular_skips_suffix_rules plural p w Hi Hb)
         (api_not_reaching_is_independent plural (p ++ w) (api_irregular_skips_suffix_rules plural p w Hi Hb))).
Qed.
Print Assumptions C20_api_irregular_skips_suffix_rules_concrete.

(* every string that does reach the suffix rules: unchanged if no rule matches, otherwise the text
   before the first matching rule's leftmost match is kept *)
Theorem C20_api_suffix_shape_concrete :
  forall plural s, api_reaches_suffix plural s = true ->
  match first_matching (api_rules plural) s with
  | None => api_full true plural s = Ok s
  | Some (c, a0) => In c (api_rules plural) /\ a0 <= length s
                    /\ exists more, api_full true plural s = Ok (firstn a0 s ++ more)
  end.
Proof. exact api_full_suffix_shape. Qed.
Print Assumptions C20_api_suffix_shape_concrete.

(* ---- the memoisation (sync.Map of sync.OnceValue closures), every schedule ---- *)

(* For every function f, every assignment of arguments to (unboundedly many) concurrent calls and
   every interleaving of their atomic steps: a call that has returned has returned f of ITS argument. *)
Theorem C20_cache_consistent :
  forall (key val : Type) (key_eqb : key -> key -> bool),
  (forall a b, key_eqb a b = true -> a = b) ->
  forall (f : key -> val) (keys : nat -> key) (sched : list nat) t v,
    phases _ _ (run key val key_eqb f keys sched (init key val)) t = Done v -> v = f (keys t).
Proof. exact cache_consistent. Qed.
Print Assumptions C20_cache_consistent.

(* the same input gives the same result on every call *)
Theorem C20_cache_same_result :
  forall (key val : Type) (key_eqb : key -> key -> bool),
  (forall a b, key_eqb a b = true -> a = b) ->
  forall (f : key -> val) (keys : nat -> key) (sched : list nat) t1 t2 v1 v2,
    keys t1 = keys t2 ->
    phases _ _ (run key val key_eqb f keys sched (init key val)) t1 = Done v1 ->
    phases _ _ (run key val key_eqb f keys sched (init key val)) t2 = Done v2 -> v1 = v2.
Proof. exact cache_same_result. Qed.
Print Assumptions C20_cache_same_result.

(* no reachable state is a deadlock: every call can be driven to its return by <= 4 more steps *)
Theorem C20_cache_no_deadlock :
  forall (key val : Type) (key_eqb : key -> key -> bool),
  (forall a b, key_eqb a b = true -> a = b) ->
  forall (f : key -> val) (keys : nat -> key) (sched : list nat) t,
  exists more v, length more <= 4
    /\ phases _ _ (run key val key_eqb f keys (sched ++ more) (init key val)) t = Done v.
Proof. exact cache_can_finish. Qed.
Print Assumptions C20_cache_no_deadlock.

(* Pluralize / Singularize called from any number of goroutines: whatever a call returns is a
   value (no panic) and is the sequential result for its argument. *)
Theorem C20_concurrent_calls :
  forall plural suffix (keys : nat -> bytes) sched t v,
  phases _ _ (run bytes (res bytes) bytes_eqb (api true plural suffix) keys sched (init _ _)) t = Done v ->
  exists r, v = Ok r /\ api true plural suffix (keys t) = Ok r.
Proof. exact concurrent_api. Qed.
Print Assumptions C20_concurrent_calls.

(* the same for the complete model: no parameter left *)
Theorem C20_concurrent_calls_concrete :
  forall plural (keys : nat -> bytes) sched t v,
  phases _ _ (run bytes (res bytes) bytes_eqb (api_full true plural) keys sched (init _ _)) t = Done v ->
  exists r, v = Ok r /\ api_full true plural (keys t) = Ok r.
Proof. exact concurrent_api_full. Qed.
Print Assumptions C20_concurrent_calls_concrete.

Theorem C20_cache_same_result_concrete :
  forall plural (keys : nat -> bytes) sched t1 t2 v1 v2,
  keys t1 = keys t2 ->
  phases _ _ (run bytes (res bytes) bytes_eqb (api_full true plural) keys sched (init _ _)) t1 = Done v1 ->
  phases _ _ (run bytes (res bytes) bytes_eqb (api_full true plural) keys sched (init _ _)) t2 = Done v2 -> v1 = v2.
Proof. exact (fun plural => cache_same_result bytes (res bytes) bytes_eqb bytes_eqb_eq (api_full true plural)). Qed.
Print Assumptions C20_cache_same_result_concrete.

(* ---- history: Rule.inflected before the "fix:" commit ---- *)

Theorem C20_total_refuted_before_fix : exists s, api false true id_suffix s = Panic.
Proof. exact old_total_refuted. Qed.
Print Assumptions C20_total_refuted_before_fix.

Theorem C20_prefix_preserved_refuted_before_fix :
  exists p w, irregular plural_irregular w /\ at_boundary p = true
    /\ api false true id_suffix w = Ok (bs "sexes")
    /\ api false true id_suffix (p ++ w) = Ok (bs "my mexes").
Proof. exact old_prefix_refuted. Qed.
Print Assumptions C20_prefix_preserved_refuted_before_fix.

Theorem C20_newline_prefix_refuted_before_fix :
  exists p w, irregular plural_irregular w /\ at_boundary p = true
    /\ api false true id_suffix (p ++ w) = Ok (bs "aeople").
Proof. exact old_newline_refuted. Qed.
Print Assumptions C20_newline_prefix_refuted_before_fix.

(* ---- non-vacuity ----
   Where an example gets as far as the uninflected list, [api_unf_parsed] puts the list parsed once
   (Proofs/Inflector.v) in place of the parser's run before the example is evaluated. *)

Example C20_example_old_person :
  api true true id_suffix (bs "old-person") = Ok (bs "old-people")
  /\ api true true id_suffix (bs "person") = Ok (bs "people")
  /\ irregularb plural_irregular (bs "person") = true /\ at_boundary (bs "old-") = true.
Proof. vm_compute. repeat split. Qed.

Example C20_example_big_feet_upper :
  api true false id_suffix (bs "BIG FEET") = Ok (bs "BIG Foot").
Proof. vm_compute. reflexivity. Qed.

(* U+017F after the fix: falls through to the other rules instead of panicking *)
Example C20_example_long_s :
  api true true id_suffix (hx "61746c61c5bf") = Ok (hx "61746c61c5bf").
Proof. rewrite api_eq, api_unf_parsed. vm_compute. reflexivity. Qed.

(* uninflected list is consulted after the irregular table: "people" is only in the singular table *)
Example C20_example_people :
  api true true id_suffix (bs "people") = Ok (bs "people")
  /\ api true false id_suffix (bs "my people") = Ok (bs "my person").
Proof. rewrite !api_eq, !api_unf_parsed. vm_compute. split; reflexivity. Qed.

(* a schedule in which call 1 loads the closure stored by call 0 and waits for it *)
Example C20_example_schedule :
  let keys := fun _ : nat => bs "old-person" in
  let st := run bytes (res bytes) bytes_eqb (api true true id_suffix) keys [0;1;0;1;1;0;1;0] (init _ _) in
  phases _ _ st 0 = Done (Ok (bs "old-people")) /\ phases _ _ st 1 = Done (Ok (bs "old-people"))
  /\ length (cache _ _ st) = 1.
Proof. vm_compute. repeat split. Qed.

(* ---- non-vacuity of the complete model ----
   On the data of this run only what the repository's own test table (api_test.go) also pins, so that
   an edit of the rule data that keeps the maintainers' tests green keeps these green too. *)

Example C20_example_quiz :
  api_full true true (bs "quiz") = Ok (bs "quizzes")
  /\ api_reaches_suffix true (bs "my quiz") = true
  /\ api_full true true (bs "my quiz") = Ok (bs "my quizzes").
Proof.
  split; [|split; [exact my_quiz_reaches|]].
  - unfold api_full. rewrite api_eq, api_unf_parsed. vm_compute. reflexivity.
  - rewrite (api_full_reaches _ _ my_quiz_reaches). vm_compute. reflexivity.
Qed.

Example C20_example_matrices :
  api_full true false (bs "matrices") = Ok (bs "matrix")
  /\ api_full true false (hx "e697a5e69cac206d656e7573") = Ok (hx "e697a5e69cac206d656e75").
Proof. unfold api_full. rewrite !api_eq, !api_unf_parsed. vm_compute. repeat split. Qed.

(* the hypotheses of C20_api_suffix_shape_concrete / C20_api_irregular_skips_suffix_rules_concrete are satisfiable *)
Example C20_example_reaches :
  (exists s c a0, api_reaches_suffix true s = true /\ first_matching (api_rules true) s = Some (c, a0) /\ 0 < a0)
  /\ api_reaches_suffix true (bs "old-person") = false /\ api_reaches_suffix true (bs "salesperson") = true.
Proof.
  split.
  - exists (bs "my quiz"). eexists. eexists. split; [exact my_quiz_reaches|]. split; [reflexivity|lia].
  - unfold api_reaches_suffix. rewrite api_unf_parsed. vm_compute. split; reflexivity.
Qed.

(* ---- the engine on a FIXED rule list (source strings written here, compiled by the model): these
   do not depend on rules.go ---- *)

Definition ex_plural : list crule := rules_of_src [
  (bs "(?i)(s)tatus$", bs "${1}${2}tatuses"); (bs "(?i)([m|l])ouse$", bs "${1}ice");
  (bs "(?i)([^aeiouy]|qu)y$", bs "${1}ies"); (bs "(?i)(hive)$", bs "$1s");
  (bs "s$", bs "s"); (bs "^$", bs ""); (bs "$", bs "s") ].

Definition ex_singular : list crule := rules_of_src [
  (bs "(?i)^(.*)(menu)s$", bs "${1}${2}"); (bs "(?i)(alias)(es)*$", bs "$1");
  (bs "(?i)([ftw]ax)es", bs "$1"); (bs "([^a])uses$", bs "${1}us");
  (bs "(?i)(analy|diagno|^ba|(p)arenthe|(p)rogno|(s)ynop|(t)he)ses$", bs "${1}${2}sis");
  (bs "(?i)s$", bs "") ].

Example C20_example_engine_compiles : length ex_plural = 7 /\ length ex_singular = 6.
Proof. vm_compute. split; reflexivity. Qed.

(* U+017F matches an "(?i)s" literal and is captured; e-acute and an invalid byte are one rune each for
   "[^aeiouy]", and so is a newline; "$" alone matches the empty string at the end, exactly once *)
Example C20_example_engine_non_ascii :
  suffix_fn ex_plural (hx "6d6f75c5bf65") = bs "mice"
  /\ suffix_fn ex_plural (hx "c5bf7461747573") = hx "c5bf74617475736573"
  /\ suffix_fn ex_plural (hx "c3a979") = hx "c3a9696573"
  /\ suffix_fn ex_plural (hx "ff79") = hx "ff696573"
  /\ suffix_fn ex_plural (hx "0a79") = hx "0a696573"
  /\ suffix_fn ex_plural (bs "bus") = bs "bus" /\ suffix_fn ex_plural [] = [] /\ suffix_fn ex_plural (bs "cat") = bs "cats".
Proof. vm_compute. repeat split. Qed.

(* an unanchored pattern is replaced at every match; "(es)*" is greedy; "." stops at a newline, so the
   first rule does not match and the last one does; "^" inside an alternative; "${2}" is set by "(p)arenthe" *)
Example C20_example_engine_singular :
  suffix_fn ex_singular (bs "taxesfaxes") = bs "taxfax"
  /\ suffix_fn ex_singular (bs "aliaseses") = bs "alias"
  /\ suffix_fn ex_singular (bs "food_menus") = bs "food_menu"
  /\ suffix_fn ex_singular (hx "610a6d656e7573") = hx "610a6d656e75"
  /\ suffix_fn ex_singular (bs "bases") = bs "basis" /\ suffix_fn ex_singular (bs "abases") = bs "abase"
  /\ suffix_fn ex_singular (bs "parentheses") = bs "parenthepsis"
  /\ suffix_fn ex_singular (bs "viruses") = bs "virus" /\ suffix_fn ex_singular (bs "causes") = bs "cause".
Proof. vm_compute. repeat split. Qed.

(* "$1s" names the group "1s" (Regexp.expand takes the longest name), which does not exist *)
Example C20_example_engine_template_name :
  suffix_fn ex_plural (bs "hive") = [] /\ option_map snd (first_matching ex_plural (bs "my hive")) = Some 3.
Proof. vm_compute. split; reflexivity. Qed.
