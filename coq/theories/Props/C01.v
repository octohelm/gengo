(* C01 — Every file gengo writes is valid, canonically formatted Go for its package.
   Statements; the proofs are in Proofs/GenFile*.v (for the two parts at the end: theorems of Props/Whole.v, lemmas of
   Proofs/RenderStack.v) and are only put together here (the concrete Examples are evaluated).

   Level: PROOF, PARTIAL.  Proved for all inputs: what WriteToFile assembles and hands to the formatter
   (header, package clause, import block, body), that the repaired formatting loop returns a gofumpt fixed
   point whenever it ends by its equality test, and the composition [C01_written].  ASSUMED in
   [C01_written] (hypotheses H0, H1, H2a, H2b about go/parser, go/printer, go/format and gofumpt — about
   15k lines of Go that are not modelled) and TESTED on every generated case by the correspondence harness. *)
Require Import Gengo.Base.Bytes Gengo.Model.GenFile Gengo.Proofs.GenFile Gengo.Proofs.GenFileWitness
  Gengo.Proofs.GenFileToyWitness.
From Coq Require Import Permutation Sorted.

(* The source handed to the formatter opens with a general comment — by Go's lexical rule the text from the
   leading "/*" to the first "*/" — and that comment is exactly the header gengo wrote, which names the
   generator.  For every package name and generator name without '/' (a name with '/' cannot be a package
   name, and as a generator name it makes the destination path point into a directory that does not exist). *)
Theorem C01_header :
  forall pkg gen m body,
    no_slash pkg = true -> no_slash gen = true ->
    lead_comment (assemble pkg gen m body) = Some (header_comment pkg gen)
    /\ infix (bs "gengo:" ++ gen) (header_comment pkg gen).
Proof.
  intros pkg gen m body Hp Hg. split; [|apply header_names_generator].
  rewrite assemble_shape. now apply lead_comment_header.
Qed.
Print Assumptions C01_header.

(* Right after that comment comes a newline and the package clause of the target package's own name; then the
   import block; then the body, verbatim, and nothing after it. *)
Theorem C01_package :
  forall pkg gen m body,
    assemble pkg gen m body
    = header_comment pkg gen ++ ([nl] ++ bs "package " ++ pkg ++ [nl]) ++ import_block m ++ body.
Proof. exact assemble_shape. Qed.
Print Assumptions C01_package.

(* The import block: absent when nothing was referenced; otherwise one line  <tab>name "path"  per entry of the
   tracker's table — exactly its entries, nothing else — sorted by path in Go's string order. *)
Theorem C01_imports :
  import_block [] = []
  /\ forall m, m <> [] -> NoDup (map fst m) ->
     exists entries,
       Permutation entries m /\ StronglySorted le (map fst entries) /\
       import_block m
       = nl :: bs "import (" ++ [nl]
         ++ flat_map (fun e => tab :: snd e ++ bs " " ++ [dquote] ++ fst e ++ [dquote; nl]) entries
         ++ bs ")" ++ [nl].
Proof. exact imports_claim. Qed.
Print Assumptions C01_imports.

(* ... whatever order Go's map iteration delivers the table in. *)
Theorem C01_imports_order_independent :
  forall m m', NoDup (map fst m) -> Permutation m m' -> import_block m = import_block m'.
Proof. exact import_block_perm. Qed.
Print Assumptions C01_imports_order_independent.

(* The body is the concatenation of the fragments of all Render calls in call order (GenerateType calls, then
   deferred callbacks): rendering more appends; nil snippets and snippets whose IsNil() holds write nothing;
   a script of Blocks leaves exactly the blocks' texts, in order. *)
Theorem C01_body :
  (forall a b, body_of (a ++ b) = body_of a ++ body_of b)
  /\ (forall s, is_nil_snip s = true -> render s = [])
  /\ (forall bl, body_of (map SBlock bl) = concat bl)
  /\ (forall pkg gen m l, exists pre, assemble pkg gen m (body_of l) = pre ++ concat (render_all l)).
Proof. exact (conj body_of_app (conj render_isnil (conj body_of_blocks assemble_ends_with_body))). Qed.
Print Assumptions C01_body.

(* The repaired formatting loop, with no assumption at all about the formatter: what it returns is a fixed
   point of the function it iterates, unless it used up all its rounds (then it returns the last iterate). *)
Theorem C01_formatting_loop :
  forall (fmt2 : bytes -> option bytes) n s out,
    settle fmt2 n s = Some out -> fmt2 out = Some out \/ iter fmt2 n s = Some out.
Proof. exact settle_stable_or_exhausted. Qed.
Print Assumptions C01_formatting_loop.

(* ... and it does return a fixed point as soon as some iterate before the last round is one. *)
Theorem C01_formatting_loop_converges :
  forall (fmt2 : bytes -> option bytes) n s k q,
    k < n -> iter fmt2 k s = Some q -> fmt2 q = Some q ->
    exists out, settle fmt2 n s = Some out /\ fmt2 out = Some out.
Proof. exact settle_converges. Qed.
Print Assumptions C01_formatting_loop_converges.

(* THE PROPERTY.  For every formatter stack satisfying H0, H1, H2a, H2b (Proofs/GenFile.v, section Claim;
   assumed, and tested on every case), every order in which the retained genfiles are written, every previous
   state of the directory: if the write loop of pkgExecute ends without error, then every generator that
   rendered something has its file <base>.<gen>.go on disk, and that file
     - parses;
     - opens with a comment naming the generator (for sources outside the known-finding class
       build_constraint_in_body);
     - declares the target package's own name;
       (both for package names that are Go identifiers and generator names over [A-Za-z0-9_.:-]: names with
       ' ' or '=' cannot be enabled by a tag, names with '/' have no destination)
     - has the declarations of the assembled source (whose body is what was rendered, C01_body), in order,
       modulo formatting;
     - is a fixed point of gofmt and of gofumpt (fmt2 IS gofumpt with the module's language version). *)
(* WHAT IS ASSUMED, conjunct by conjunct: "parses", "package", "declarations" and the survival of the header words are
   H1 (with H0) applied to the one call of the formatter that produced the file, and "gofmt fixed point" is H2a applied
   to it — these four conjuncts RESTATE hypotheses about the unmodelled Go formatter stack for the file at hand; "gofumpt
   fixed point" is PROVED when the loop ends by its equality test (C01_formatting_loop) and rests on H2b only when all
   5 rounds were used.  What the theorem itself proves is the composition: that the file on disk is the output of that
   one call on the assembled source (write loop, any order, any previous directory), so that the hypotheses apply. *)
Theorem C01_written :
  forall (fmt1 fmt2 gofmt : bytes -> option bytes) (go_parses : bytes -> bool)
         (go_pkg : bytes -> option bytes) (go_decls : bool -> bytes -> option (list bytes)),
    H0 fmt1 go_pkg -> H1 fmt1 fmt2 go_parses go_pkg go_decls -> H2a fmt2 gofmt -> H2b fmt1 fmt2 ->
    forall base pkg gfs fs fs',
      NoDup (map gf_name gfs) ->
      write_all fmt1 fmt2 true base pkg gfs fs = Some fs' ->
      forall g, In g gfs -> body_of (gf_snips g) <> [] ->
        let src := assemble pkg (gf_name g) (gf_imports g) (body_of (gf_snips g)) in
        exists out,
          fs_get fs' (filename base (gf_name g)) = Some out
          /\ go_parses out = true
          /\ (ident pkg = true -> plain (gf_name g) = true -> mentions_build src = false ->
              exists c, lead_comment out = Some c /\ infix (bs "gengo:" ++ gf_name g) c)
          /\ (ident pkg = true -> plain (gf_name g) = true -> go_pkg out = Some pkg)
          /\ (forall b, go_decls b out = go_decls b src)
          /\ gofmt out = Some out
          /\ fmt2 out = Some out.
Proof. exact written_ok. Qed.
Print Assumptions C01_written.

(* History (DESIGN.md section 4 #32): WriteToFile as it was — gofumpt's AST pass once, then print — wrote a
   file gofumpt still changes; the repaired code writes one it leaves alone.  Stated on the recorded behaviour
   of the real formatter on the witness (Proofs/GenFileWitness.v; re-observed by corpus case
   gofumpt-not-fixed-point on every run). *)
Theorem C01_gofumpt_fixed_point_refuted_before_fix :
  write_file w1_fmt1 w1_fmt2 false (bs "zz_generated") (bs "p") w1_gen = WWrite (bs "zz_generated.x.go") w1_printed
  /\ w1_fmt2 w1_printed <> Some w1_printed
  /\ write_file w1_fmt1 w1_fmt2 true (bs "zz_generated") (bs "p") w1_gen = WWrite (bs "zz_generated.x.go") w1_s1
  /\ w1_fmt2 w1_s1 = Some w1_s1.
Proof. exact before_fix_not_a_gofumpt_fixed_point. Qed.
Print Assumptions C01_gofumpt_fixed_point_refuted_before_fix.

(* Why the repair is a loop and not one more pass (corpus case gofumpt-needs-three-rounds). *)
Theorem C01_one_more_pass_is_not_enough :
  fmt_src w2_fmt1 w2_fmt2 true (assemble (bs "p") (bs "x") [] (body_of w2_snips)) = Some w2_s2
  /\ w2_fmt2 w2_s2 = Some w2_s2
  /\ w2_fmt2 w2_printed = Some w2_s1 /\ w2_fmt2 w2_s1 <> Some w2_s1.
Proof. exact one_more_pass_is_not_enough. Qed.
Print Assumptions C01_one_more_pass_is_not_enough.

(* ---- non-vacuity ---- *)

(* a concrete assembly: two imports delivered in "wrong" order, a block, a nil snippet, a comment, a directive *)
Example C01_example_assemble :
  to_string (assemble (bs "p") (bs "deepcopy")
      [(bs "net/http", bs "http"); (bs "bytes", bs "bytes")]
      (body_of [SBlock (bs "var b bytes.Buffer"); SNil; SBlock [nl]; SComment (bs "two" ++ [nl] ++ bs "lines"); SBlock [nl];
                SDirective (bs "noinline") [[]; bs "x"]; SBlock [nl]; SBlock (bs "func f(c http.Client) {}")]))
  = ("/*" ++ String nl "Package p GENERATED BY gengo:deepcopy " ++ String nl "DON'T EDIT THIS FILE" ++ String nl "*/"
     ++ String nl "package p" ++ String nl (String nl "import (" ++ String nl (String tab "bytes ""bytes""")
     ++ String nl (String tab "http ""net/http""") ++ String nl ")" ++ String nl "var b bytes.Buffer"
     ++ String nl "// two" ++ String nl "// lines" ++ String nl "//go:noinline x" ++ String nl "func f(c http.Client) {}"))%string.
Proof. vm_compute. reflexivity. Qed.

(* the hypotheses of C01_written are satisfiable together: the formatter that finds its input already
   canonical, with a Gallina reader of the package clause ... *)
Example C01_hypotheses_satisfiable :
  H0 id_fmt pkg_clause_of
  /\ H1 id_fmt id_fmt (fun _ => true) pkg_clause_of (fun _ _ => None)
  /\ H2a id_fmt id_fmt
  /\ H2b id_fmt id_fmt.
Proof. exact hypotheses_satisfiable. Qed.

(* ... and by a formatter stack that DOES something (Proofs/GenFileToyWitness.v): a toy language with a general
   comment, a package clause and balanced braces; fmt1 rejects what does not parse and strips trailing spaces, fmt2
   allows one blank line in a row, gofmt two; the declarations are the non-blank lines without their spaces.  The four
   hypotheses are proved for ALL inputs of these Gallina functions. *)
Example C01_hypotheses_satisfiable_nontrivially :
  H0 toy_fmt1 pkg_clause_of
  /\ H1 toy_fmt1 toy_fmt2 toy_parses pkg_clause_of toy_decls
  /\ H2a toy_fmt2 toy_gofmt
  /\ H2b toy_fmt1 toy_fmt2.
Proof. exact (conj toy_H0 (conj toy_H1 (conj toy_H2a toy_H2b))). Qed.
Print Assumptions C01_hypotheses_satisfiable_nontrivially.

(* ... this parser rejects (no comment; a package name that is no identifier; an unclosed brace; a brace closed before
   it is opened), the declaration reader answers None on what does not parse, and gofmt is strictly weaker than fmt2 *)
Example C01_toy_parser_rejects :
  toy_parses (bs ("package p" ++ lf)) = false
  /\ toy_parses (bs ("/**/" ++ lf ++ "package p-q" ++ lf)) = false
  /\ toy_parses (bs ("/**/" ++ lf ++ "package p" ++ lf ++ "func g() {" ++ lf)) = false
  /\ toy_parses (bs ("/**/" ++ lf ++ "package p" ++ lf ++ "}{" ++ lf)) = false
  /\ toy_parses (bs ("/**/" ++ lf ++ "package p" ++ lf ++ "func g() {}" ++ lf)) = true
  /\ toy_decls false (bs ("package p" ++ lf)) = None
  /\ (let s := bs ("/**/" ++ lf ++ "package p" ++ lf ++ "var a" ++ lf ++ lf ++ lf ++ "var b" ++ lf) in
      toy_gofmt s = Some s /\ toy_fmt2 s <> Some s).
Proof. cbv zeta. repeat split; try reflexivity. vm_compute. intros H; discriminate H. Qed.

(* C01_written INSTANTIATED with that stack (its four hypotheses discharged, nothing assumed) ... *)
Example C01_written_toy_instance :
  forall base pkg gfs fs fs',
    NoDup (map gf_name gfs) ->
    write_all toy_fmt1 toy_fmt2 true base pkg gfs fs = Some fs' ->
    forall g, In g gfs -> body_of (gf_snips g) <> [] ->
      let src := assemble pkg (gf_name g) (gf_imports g) (body_of (gf_snips g)) in
      exists out,
        fs_get fs' (filename base (gf_name g)) = Some out
        /\ toy_parses out = true
        /\ (ident pkg = true -> plain (gf_name g) = true -> mentions_build src = false ->
            exists c, lead_comment out = Some c /\ infix (bs "gengo:" ++ gf_name g) c)
        /\ (ident pkg = true -> plain (gf_name g) = true -> pkg_clause_of out = Some pkg)
        /\ (forall b, toy_decls b out = toy_decls b src)
        /\ toy_gofmt out = Some out
        /\ toy_fmt2 out = Some out.
Proof. exact (C01_written _ _ _ _ _ _ toy_H0 toy_H1 toy_H2a toy_H2b). Qed.
Print Assumptions C01_written_toy_instance.

(* ... and one run of the write loop through it, computed: generator "toy" (an import, lines ending in spaces, runs of
   blank lines, a comment) next to a generator that renders nothing, into a directory with a user file and a previous
   output.  The first stage changes the source, the second changes the first stage's output (two rounds of the loop),
   the file on disk is [toy_out], differs from the assembled source, and has every property C01_written lists. *)
Example C01_written_toy_run :
  exists fs',
    write_all toy_fmt1 toy_fmt2 true (bs "zz_generated") (bs "p") [toy_gen_none; toy_gen] toy_fs0 = Some fs'
    /\ fs_get fs' (bs "zz_generated.toy.go") = Some toy_out
    /\ fs_get fs' (bs "zz_generated.none.go") = None
    /\ fs_get fs' (bs "user.go") = Some (bs "package p")
    /\ toy_out <> toy_src
    /\ (exists printed, toy_fmt1 toy_src = Some printed /\ printed <> toy_src
                        /\ toy_fmt2 printed = Some toy_out /\ printed <> toy_out)
    /\ toy_parses toy_out = true
    /\ lead_comment toy_out = Some (header_comment (bs "p") (bs "toy"))
    /\ pkg_clause_of toy_out = Some (bs "p")
    /\ toy_decls false toy_src
       = Some [bs "import("; bs "	strings""strings"""; bs ")"; bs "funcf(){"; bs "	returnstrings.ToUpper(""x"")"; bs "}";
               bs "//two"; bs "//lines"; bs "varx=struct{}{}"]
    /\ toy_decls false toy_out = toy_decls false toy_src
    /\ toy_decls true toy_out
       = Some [bs "funcf(){"; bs "	returnstrings.ToUpper(""x"")"; bs "}"; bs "//two"; bs "//lines"; bs "varx=struct{}{}"]
    /\ toy_gofmt toy_out = Some toy_out
    /\ toy_fmt2 toy_out = Some toy_out.
Proof. exact toy_run. Qed.
Print Assumptions C01_written_toy_run.

(* the bytes of that file *)
Example C01_written_toy_bytes :
  toy_out =
  bs ("/*" ++ lf ++ "Package p GENERATED BY gengo:toy " ++ lf ++ "DON'T EDIT THIS FILE" ++ lf ++ "*/" ++ lf
      ++ "package p" ++ lf ++ lf
      ++ "import (" ++ lf ++ "	strings ""strings""" ++ lf ++ ")" ++ lf
      ++ "func f() {" ++ lf ++ lf ++ "	return strings.ToUpper(""x"")" ++ lf ++ "}" ++ lf
      ++ "// two" ++ lf ++ "// lines" ++ lf ++ lf
      ++ "var x = struct{}{}" ++ lf).
Proof. reflexivity. Qed.

(* a rendering the first stage REJECTS (an unclosed brace): it does not parse, WriteToFile returns the error before the
   destination is opened, the write loop stops — no file system is returned, whatever the order of the two files *)
Example C01_rejected_rendering_not_written :
  let src := assemble (bs "p") (bs "bad") [] (body_of (gf_snips toy_gen_bad)) in
  toy_parses src = false
  /\ toy_fmt1 src = None
  /\ write_file toy_fmt1 toy_fmt2 true (bs "zz_generated") (bs "p") toy_gen_bad = WErr
  /\ write_all toy_fmt1 toy_fmt2 true (bs "zz_generated") (bs "p") [toy_gen; toy_gen_bad] toy_fs0 = None
  /\ write_all toy_fmt1 toy_fmt2 true (bs "zz_generated") (bs "p") [toy_gen_bad; toy_gen] toy_fs0 = None.
Proof.
  cbv zeta. do 2 (split; [vm_compute; reflexivity|]).
  assert (Hb : write_file toy_fmt1 toy_fmt2 true (bs "zz_generated") (bs "p") toy_gen_bad = WErr) by (vm_compute; reflexivity).
  split; [exact Hb|]. unfold write_all. rewrite toy_gen_written, Hb. split; reflexivity.
Qed.

(* ... and the write loop does write, on the recorded behaviour of the real formatter *)
Example C01_written_nonvacuous :
  exists fs', write_all w1_fmt1 w1_fmt2 true (bs "zz_generated") (bs "p") [w1_gen] [] = Some fs'
              /\ fs_get fs' (bs "zz_generated.x.go") = Some w1_s1
              /\ lead_comment w1_s1 <> None
              /\ body_of (gf_snips w1_gen) <> [].
Proof.
  exists [(bs "zz_generated.x.go", w1_s1)]. split; [|split; [|split; [|exact w1_body]]].
  - unfold write_all. now rewrite w1_written.
  - reflexivity.
  - intros H. lazy in H. discriminate H.
Qed.

(* ---- the composed system (Model/Whole.v, Props/Whole.v): this file's model and the pipeline model are one ----
   The pipeline model (C07 / C05 / C02) assembles and writes generated files too; its reading of genfile.go is the
   [imports = []] instance of this file's: same assembled source byte for byte, and with its formatter parameter
   instantiated by this file's (fmt1, then fmt2 until stable) the same decision for every WriteToFile. *)
Require Gengo.Model.Pipeline Gengo.Model.Whole Gengo.Proofs.WholeGenFile Gengo.Props.Whole.

Theorem C01_whole_pipeline_assemble_is_assemble :
  forall pkg gen body, Pipeline.assemble pkg gen body = assemble pkg gen [] body.
Proof. exact Gengo.Props.Whole.Whole_assemble_is_genfile_assemble. Qed.
Print Assumptions C01_whole_pipeline_assemble_is_assemble.

Theorem C01_whole_pipeline_write_is_write_file :
  forall (E : Pipeline.env) fmt1 fmt2, Pipeline.e_fmt E = Whole.genfile_fmt fmt1 fmt2 ->
  forall a p gf,
    write_file fmt1 fmt2 true (Pipeline.a_base a) (Pipeline.pk_name p) (Whole.genfile_of gf)
    = if is_nil (snd gf) then WNothing
      else match Pipeline.e_fmt E (Pipeline.assemble (Pipeline.pk_name p) (fst gf) (snd gf)) with
           | None => WErr
           | Some out => WWrite (Pipeline.fname a (fst gf)) out
           end.
Proof. exact Gengo.Props.Whole.Whole_write_file_is_genfile_write_file. Qed.
Print Assumptions C01_whole_pipeline_write_is_write_file.

(* ... and the write loops (context.go 223-231) leave the same package directory, or both fail *)
Theorem C01_whole_pipeline_write_loop_is_write_all :
  forall (E : Pipeline.env) fmt1 fmt2, Pipeline.e_fmt E = Whole.genfile_fmt fmt1 fmt2 ->
  forall a p gfs rem fsys s,
    WholeGenFile.dir_rel p fsys s ->
    match write_all fmt1 fmt2 true (Pipeline.a_base a) (Pipeline.pk_name p) (map Whole.genfile_of gfs) fsys,
          Pipeline.write_loop_fs E a p gfs rem s with
    | None, (_, _, Some (Pipeline.EParse _)) => True
    | Some fsys', (s', _, None) => WholeGenFile.dir_rel p fsys' s'
    | _, _ => False
    end.
Proof. exact Gengo.Props.Whole.Whole_write_loop_is_genfile_write_all. Qed.
Print Assumptions C01_whole_pipeline_write_loop_is_write_all.

(* RenderStack: the body and the import table are no longer data.  [cfile] (Model/RenderStack.v) is [assemble] over
   the composed rendering of a generator's fragments — C09's scanners over C10's value literals and C11's / C15's
   type literals and references, all through ONE tracker of C03 that starts empty — and the import block is printed
   from the state that tracker ends in.  C03's sentence, on the source handed to the formatter, for ALL fragment lists:
   the block lists exactly the packages the rendered body refers to (none missing, none extra), each once, under
   pairwise distinct valid names, sorted by path; and every fragment of the body is what C09 renders when its leaves
   are printed against THAT table — each qualifier in the body is the name the block binds to the package. *)
Require Import Gengo.Model.RenderStack Gengo.Proofs.RenderStackTracker Gengo.Proofs.RenderStackLeaves Gengo.Proofs.RenderStack.
Require Gengo.Model.Snippet.

Theorem C01_file_imports :
  forall (F : Type) (fzero : F -> bool) (ffmt gfmt : VL.fkind -> F -> bytes) (fbig : F -> bool)
         (quote : bytes -> bytes) (cbq : bytes -> bool) (pre : list bytes) (std : option Tk.tracker)
         (self : bytes) (fx6 : bool) (pkg gen : bytes) (frags : list (@csnip F)) (body : bytes) (e' : TL.renv),
    crender_all fzero ffmt gfmt fbig quote cbq (pick_c03 pre std) self fx6 frags [] = Ok (body, e') ->
    cfile fzero ffmt gfmt fbig quote cbq pre std self fx6 pkg gen frags = Ok (assemble pkg gen e' body)
    /\ assemble pkg gen e' body
       = header_comment pkg gen ++ ([nl] ++ bs "package " ++ pkg ++ [nl]) ++ import_block e' ++ body
    /\ table_ok pre e'
    /\ (forall p, In p (map fst e') <-> In p (flat_map (cpkgs fzero ffmt gfmt fbig quote self fx6) frags))
    /\ (e' = [] -> import_block e' = [])
    /\ (e' <> [] ->
        exists entries,
          Permutation entries e' /\ StronglySorted le (map fst entries) /\
          import_block e'
          = nl :: bs "import (" ++ [nl]
            ++ flat_map (fun e => tab :: snd e ++ bs " " ++ [dquote] ++ fst e ++ [dquote; nl]) entries
            ++ bs ")" ++ [nl])
    /\ exists outs,
         Forall2 (fun s o => Gengo.Model.Snippet.render Gengo.Model.Snippet.all_fixed
                               (cerase fzero ffmt gfmt fbig quote cbq (pick_c03 pre std) self fx6 e' s) = Ok o) frags outs
         /\ body = concat outs.
Proof.
  exact (fun F fzero ffmt gfmt fbig quote cbq pre std self fx6 pkg gen frags body e' H =>
           conj (f_equal (fun r => let! (b, e) := r in Ok (assemble pkg gen e b)) H)
                (file_imports fzero ffmt gfmt fbig quote cbq pre std self fx6 pkg gen frags body e' H)).
Qed.
Print Assumptions C01_file_imports.
