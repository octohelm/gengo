(* RenderStack, the use of part 1 (Proofs/RenderStackTracker.v): C11's and C15's theorems with C03's tracker and C15's
   parser plugged in — no tracker hypothesis and no parser hypothesis left, only [cbq_hyp] on strconv.CanBackquote.
   Section C11: totality, round trip and exact imports of the type-literal printer over [the_pick] and [parse_c15];
   section C15: snippet.ID over [cadd] rewrites a reference and registers exactly its foreign packages.  The proofs
   apply the general theorems of Proofs/TypeLit.v to [the_tracker_hyps] and [parse_hyp_c15], those of Proofs/TypeRef.v
   to [cadd_stable] and [cadd_registers]; only [c15_rewrite_whole_concrete] has a side condition to discharge. *)
Require Import Gengo.Base.Bytes.
Require Import Gengo.Model.GoIdent Gengo.Model.TrackerSpec Gengo.Model.RenderStack Gengo.Proofs.RenderStackTracker.
Require Gengo.Model.Tracker Gengo.Proofs.Tracker Gengo.Proofs.StdTable Gengo.Gen.StdList.
Require Import Gengo.Model.TypeLit Gengo.Spec.TypeLit Gengo.Proofs.TypeLit.
Require Gengo.Model.TypeRef Gengo.Proofs.TypeRef.

Section C11.
  Variable self : bytes.
  Variable can_backquote : bytes -> bool.
  Hypothesis Hc : cbq_hyp can_backquote.

  Notation frag := (ident_frag the_pick parse_c15 self can_backquote true true).

  Lemma c11_total_concrete : forall x g e,
    renders x g -> in_domain all_tags self g = true -> tracker_inv self e ->
    exists a e', frag x e = Ok (a, e').
  Proof. exact (total the_pick parse_c15 self can_backquote (proj1 the_tracker_hyps) parse_hyp_c15 Hc). Qed.

  Lemma c11_roundtrip_concrete : forall x g e a e',
    renders x g -> in_domain all_tags self g = true -> tracker_inv self e -> no_predeclared_names e ->
    frag x e = Ok (a, e') -> free_own_names self g e' ->
    no_predeclared_names e' /\ resolve e' self a = Some (canon g).
  Proof.
    intros x g e a e'.
    exact (roundtrip_no_predeclared_imports the_pick parse_c15 self can_backquote (proj1 the_tracker_hyps) parse_hyp_c15 Hc
             x g e a e' (proj1 (proj2 the_tracker_hyps))).
  Qed.

  Lemma c11_imports_exact_concrete : forall x g e a e',
    renders x g -> in_domain all_tags self g = true -> tracker_inv self e ->
    frag x e = Ok (a, e') ->
    (exists added, e' = e ++ added) /\ tracker_inv self e'
    /\ (forall p, In p (map fst e') <-> In p (map fst e) \/ In p (foreign_pkgs self g)).
  Proof. exact (imports_exact the_pick parse_c15 self can_backquote (proj1 the_tracker_hyps) parse_hyp_c15 Hc). Qed.

  Lemma c11_roundtrip_exported_concrete : forall x g e a e',
    renders x g -> in_domain all_tags self g = true -> locals_exported self g = true ->
    tracker_inv self e -> Forall lower_name (map snd e) ->
    frag x e = Ok (a, e') ->
    resolve e' self a = Some (canon g).
  Proof.
    intros x g e a e'.
    exact (roundtrip_exported the_pick parse_c15 self can_backquote (proj1 the_tracker_hyps) parse_hyp_c15 Hc x g e a e'
             (proj1 (proj2 the_tracker_hyps)) (proj2 (proj2 the_tracker_hyps))).
  Qed.

  (* from a fresh tracker nothing at all is asked of the state *)
  Lemma tracker_inv_nil : tracker_inv self [].
  Proof. unfold tracker_inv, inv. cbn. repeat split; try constructor. intros []. Qed.

  Lemma c11_roundtrip_fresh_concrete : forall x g a e',
    renders x g -> in_domain all_tags self g = true -> locals_exported self g = true ->
    frag x [] = Ok (a, e') ->
    resolve e' self a = Some (canon g).
  Proof.
    intros x g a e' Hx Hd Hl Hf.
    exact (c11_roundtrip_exported_concrete x g [] a e' Hx Hd Hl tracker_inv_nil (Forall_nil _) Hf).
  Qed.
End C11.

Import Gengo.Model.TypeRef.
Section C15.
  Variable pre : list bytes.
  Variable std : option Tk.tracker.
  Variable self : bytes.

  Notation cadd := (cadd pre std).
  Notation sid := (snippet_id Tk.tracker cadd cname self true).

  Lemma c15_rewrite_concrete : forall tr p n args, wf (TRef p n args) -> p <> [] ->
    let tr' := fold_left cadd (foreign self (TRef p n args)) tr in
    sid tr (print (TRef p n args)) =
    Ok ((if bytes_eqb p self then [] else cname tr' p ++ [dot])
          ++ print (map_paths (ren_paths (cname tr') self) (TRef [] n args)), tr').
  Proof. exact (Gengo.Proofs.TypeRef.rewrite_spec Tk.tracker cadd cname self (cadd_stable pre std)). Qed.

  Lemma c15_registers_exactly_concrete : forall t tr q,
    In q (cpaths (fold_left cadd (foreign self t) tr)) <->
    (In q (all_paths t) /\ q <> [] /\ q <> self) \/ In q (cpaths tr).
  Proof. exact (Gengo.Proofs.TypeRef.registers_exactly Tk.tracker cadd self cpaths (cadd_registers pre std)). Qed.

  (* names are never empty in a tracker whose names were not empty: the side condition of C15_rewrite_whole *)
  Definition names_nonempty (tr : Tk.tracker) : Prop :=
    forall q n, Tk.lookup q (Tk.p2n tr) = Some n -> n <> [].

  Lemma fold_cadd_bound : forall qs tr p, In p qs -> exists n, Tk.lookup p (Tk.p2n (fold_left cadd qs tr)) = Some n.
  Proof.
    intros qs tr p Hin. apply Gengo.Proofs.Tracker.keys_in_lookup.
    apply (Gengo.Proofs.Tracker.add_all_keys _ _ _ _ _ (fold_cadd_add_all pre std qs tr)). left. exact Hin.
  Qed.

  Lemma c15_rewrite_whole_concrete : forall tr p n args, wf (TRef p n args) -> p <> [] ->
    names_nonempty tr ->
    let tr' := fold_left cadd (foreign self (TRef p n args)) tr in
    sid tr (print (TRef p n args)) = Ok (print (map_paths (ren_paths (cname tr') self) (TRef p n args)), tr').
  Proof.
    intros tr p n args Hwf Hp Hne tr'.
    apply (Gengo.Proofs.TypeRef.rewrite_spec_print Tk.tracker cadd cname self (cadd_stable pre std)); try assumption.
    destruct (bytes_eqb p self) eqn:E; [left; reflexivity|right].
    assert (Hin : In p (foreign self (TRef p n args))).
    { unfold foreign. cbn [t_path t_args]. apply in_or_app. right. unfold is_foreign. rewrite E.
      destruct p; [congruence|]. left. reflexivity. }
    destruct (fold_cadd_bound _ tr p Hin) as [m L].
    unfold cname, Tk.lookup_or_empty. cbv zeta. rewrite L.
    (* every name a history of AddType calls binds is valid, hence non-empty *)
    exact (Gengo.Proofs.Tracker.reach_names true pre std (fun n => n <> [])
             (fun nm V _ => Gengo.Proofs.Tracker.valid_name_nonempty nm (V eq_refl)) tr _
             (Gengo.Proofs.Tracker.add_all_reach _ _ _ _ _ _ (fold_cadd_add_all pre std _ tr)) Hne p m L).
  Qed.
End C15.
