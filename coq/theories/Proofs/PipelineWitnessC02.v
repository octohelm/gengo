(* Concrete failing runs of the model (non-vacuity of the C02 theorems). *)
Require Import Gengo.Base.Bytes Gengo.Model.Pipeline Gengo.Spec.PipelineSpec Gengo.Proofs.Pipeline Gengo.Proofs.PipelinePkg
  Gengo.Proofs.PipelineWitness Gengo.Corr.Pipe.

(* parses unless the body contains an opening parenthesis followed by a newline *)
Fixpoint has_bad_from (prev_paren : bool) (b : bytes) : bool :=
  match b with
  | [] => false
  | c :: r => if prev_paren && Ascii.eqb c (ascii_of_N 10) then true else has_bad_from (Ascii.eqb c "("%char) r
  end.
Definition has_bad (b : bytes) : bool := has_bad_from false b.
Definition wf_env : env := whole_env (fun src => if has_bad src then None else Some src) (fun _ l => l) rank0 [].

(* module m, packages a (types T0 T1 T2) and b (type T0), generators g1 and g2, All; previous outputs and a sum *)
Definition wf_a : pkginfo :=
  mk_pkg (bs "m/a") (bs "a") (bs "a") [bs "a.go"; bs "zz_generated.g1.go"; bs "zz_generated.g2.go"]
    [mk_ty (bs "T0") KNamed (tag "g1" ++ tag "g2"); mk_ty (bs "T1") KNamed (tag "g1"); mk_ty (bs "T2") KNamed (tag "g1")] (bs "h1:a").
Definition wf_b : pkginfo :=
  mk_pkg (bs "m/b") (bs "b") (bs "b") [bs "b.go"; bs "zz_generated.g1.go"] [mk_ty (bs "T0") KNamed (tag "g1")] (bs "h1:b").
Definition wf_world : world := mk_world [wf_b; wf_a] [bs "m/a"; bs "m/b"].
Definition wf_args : args := {| a_all := true; a_force := false; a_base := bs "zz_generated" |}.
Definition wf_fs : fs :=
  [((bs "a", bs "a.go"), bs "A"); ((bs "a", bs "zz_generated.g1.go"), bs "old a g1"); ((bs "a", bs "zz_generated.g2.go"), bs "old a g2");
   ((bs "b", bs "b.go"), bs "B"); ((bs "b", bs "zz_generated.g1.go"), bs "old b g1"); ((bs "", bs "gengo.sum"), bs "m/a h1:old")].

Definition ok_step (b : string) : sstep := mk_step (bs b) RNil false false [].

(* g1, the first generator, is called three times in package a: it renders, skips, and does [third] at call
   index 2; its one call in package b does [b_step] *)
Definition wf_g1 (third : sstep) (b_step : sstep) : sgen :=
  mk_sgen (bs "g1") false
    [((bs "m/a", bs "T0"), ok_step "var A0 = 1"); ((bs "m/a", bs "T1"), mk_step [] RSkip false false []);
     ((bs "m/a", bs "T2"), third); ((bs "m/b", bs "T0"), b_step)].
Definition wf_g2 : sgen := mk_sgen (bs "g2") false [((bs "m/a", bs "T0"), ok_step "var G2 = 1")].

Definition wf_run (third b_step : sstep) :=
  exec wf_env wf_args wf_world [script_gen (wf_g1 third b_step); script_gen wf_g2] wf_fs.

Definition unchanged (s' : fs) (qs : list path) : bool :=
  forallb (fun q => option_eqb bytes_eqb (fs_lookup q s') (fs_lookup q wf_fs)) qs.

Definition a_g1 : path := (bs "a", bs "zz_generated.g1.go").
Definition a_g2 : path := (bs "a", bs "zz_generated.g2.go").
Definition b_g1 : path := (bs "b", bs "zz_generated.g1.go").
Definition the_sum : path := (bs "", bs "gengo.sum").

(* error at call index 2 of g1 in package a: named, nothing of a, b or the sum touched *)
Lemma witness_error_at_index_2 :
  let '(s', tr, out) := wf_run (mk_step (bs "var A2 = 1") RErr false false []) (ok_step "var B0 = 1") in
  out = Failed (EGen (bs "g1") (bs "m/a")) /\ List.length tr = 3 /\ unchanged s' [a_g1; a_g2; b_g1; the_sum] = true.
Proof. vm_compute. repeat split; reflexivity. Qed.

(* a deferred callback of g1 returns ErrSkip: an error for a callback *)
Lemma witness_deferred_error :
  let '(s', tr, out) := wf_run (mk_step (bs "var A2 = 1") RNil false false [SD [] RSkip []]) (ok_step "var B0 = 1") in
  out = Failed (EDefer (bs "g1") (bs "m/a")) /\ unchanged s' [a_g1; a_g2; b_g1; the_sum] = true.
Proof. vm_compute. repeat split; reflexivity. Qed.

(* unparseable rendering of g1 in package b, the SECOND package of the All run: a has been regenerated, b's file and
   the sum are untouched *)
Lemma witness_unparseable_second_package :
  let '(s', tr, out) := wf_run (ok_step "var A2 = 1") (ok_step "func (
") in
  out = Failed (EParse b_g1) /\ unchanged s' [b_g1; the_sum] = true /\ unchanged s' [a_g1] = false.
Proof. vm_compute. repeat split; reflexivity. Qed.

(* the process dies inside GenerateType in package b *)
Lemma witness_death :
  let '(s', tr, out) := wf_run (ok_step "var A2 = 1") (mk_step [] RDie false false []) in
  out = Died /\ unchanged s' [b_g1; the_sum] = true.
Proof. vm_compute. repeat split; reflexivity. Qed.

(* ErrSkip and ErrIgnore are swallowed: the run succeeds and the sum is rewritten *)
Lemma witness_swallowed :
  let '(s', tr, out) := wf_run (mk_step [] RIgnore false false []) (mk_step [] RSkip false false []) in
  out = Done /\ unchanged s' [the_sum] = false /\
  existsb (fun e => match e with EvCall _ _ _ _ RSkip => true | _ => false end) tr = true /\
  existsb ev_is_ignore tr = true.
Proof. vm_compute. repeat split; reflexivity. Qed.
