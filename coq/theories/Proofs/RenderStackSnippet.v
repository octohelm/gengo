(* RenderStack, part 2 (generic): the state-threading scanners are tokenise-then-substitute with
   state; a term whose leaves are STABLE (inflationary, and re-rendering in any later state gives
   the same text and leaves the state alone) renders to what C09's model / specification gives for
   the term in which every leaf is replaced by its rendering in the final state; the registered
   packages are exactly those of the rendered leaves.  The state type is generic. *)
Require Import Gengo.Base.Bytes.
Require Gengo.Base.Order.
Require Import Gengo.Model.Snippet Gengo.Model.SnippetSpec Gengo.Proofs.Snippet.
Require Import Gengo.Model.RenderStack.

Section Generic.
  Variable St : Type.
  Variable le : St -> St -> Prop.
  Hypothesis le_refl : forall e, le e e.
  Hypothesis le_trans : forall a b c, le a b -> le b c -> le a c.

  Notation rs := (rs St).
  Notation ret_st := (ret_st St).
  Notation panic_st := (panic_st St).
  Notation emit_st := (emit_st St).
  Notation emitr_st := (emitr_st St).
  Notation aview_st := (aview_st St).
  Notation sview_st := (sview_st St).

  Definition eqr (a b : rs) : Prop := forall e, a e = b e.

  Lemma eqr_refl : forall a, eqr a a. Proof. intros a e. reflexivity. Qed.
  Lemma eqr_sym : forall a b, eqr a b -> eqr b a. Proof. intros a b H e. symmetry. apply H. Qed.
  Lemma eqr_trans : forall a b c, eqr a b -> eqr b c -> eqr a c.
  Proof. intros a b c H1 H2 e. rewrite H1. apply H2. Qed.

  Lemma ret_st_inv : forall b e t e1, ret_st b e = Ok (t, e1) -> t = b /\ e1 = e.
  Proof. intros b e t e1 [= <- <-]. split; reflexivity. Qed.

  Lemma emitr_st_inv : forall o k e t e2, emitr_st o k e = Ok (t, e2) ->
    exists a e1 r, o e = Ok (a, e1) /\ k e1 = Ok (r, e2) /\ t = a ++ r.
  Proof.
    intros o k e t e2 H. unfold RenderStack.emitr_st in H.
    destruct (o e) as [[a e1]| |]; [|discriminate..]. cbn [bind] in H.
    destruct (k e1) as [[r e2']| |] eqn:Ek; [|discriminate..]. injection H as <- <-.
    exists a, e1, r. split; [|split]; [reflexivity|exact Ek|reflexivity].
  Qed.

  Lemma emitr_st_ok : forall o k e a e1 r e2,
    o e = Ok (a, e1) -> k e1 = Ok (r, e2) -> emitr_st o k e = Ok (a ++ r, e2).
  Proof. intros o k e a e1 r e2 Ho Hk. unfold RenderStack.emitr_st. rewrite Ho. cbn [bind]. rewrite Hk. reflexivity. Qed.

  Lemma emit_as_emitr : forall b k, emit_st b k = emitr_st (ret_st b) k.
  Proof. reflexivity. Qed.

  Lemma emitr_st_ext : forall o k k', eqr k k' -> eqr (emitr_st o k) (emitr_st o k').
  Proof.
    intros o k k' H e. unfold RenderStack.emitr_st. destruct (o e) as [[a e1]| |]; [|reflexivity..].
    cbn [bind]. rewrite H. reflexivity.
  Qed.

  Lemma emit_st_ext : forall b k k', eqr k k' -> eqr (emit_st b k) (emit_st b k').
  Proof. intros b k k'. rewrite !emit_as_emitr. apply emitr_st_ext. Qed.

  Lemma emitr_st_nil : forall k, eqr (emitr_st (ret_st []) k) k.
  Proof.
    intros k e. unfold RenderStack.emitr_st, RenderStack.ret_st. cbn [bind]. destruct (k e) as [[r e2]| |]; reflexivity.
  Qed.

  Lemma emitr_panic : forall k, eqr (emitr_st panic_st k) panic_st.
  Proof. intros k e. reflexivity. Qed.

  (* the template scanner = substitution into the tokens *)
  Section Tpl.
    Variable args : list (bytes * aview_st).
    Notation tail_st := (tail_st St).
    Notation after_name_st := (after_name_st St args).
    Notation scan_st := (scan_st St args).
    Notation name_loop_st := (name_loop_st St args).
    Notation subst_st := (subst_st St args).

    Lemma tail_st_ext : forall n c k k', eqr k k' -> eqr (tail_st n c k) (tail_st n c k').
    Proof.
      intros n c k k' H. unfold RenderStack.tail_st. destruct c as [c|]; [|apply eqr_refl].
      case (Ascii.eqb c c_at); [exact H|]. case (Ascii.eqb c c_apos).
      - case (negb n); [apply emit_st_ext, H|exact H].
      - apply emit_st_ext, H.
    Qed.

    Lemma after_name_st_ext : forall named c k k', eqr k k' -> eqr (after_name_st named c k) (after_name_st named c k').
    Proof.
      intros named c k k' H. unfold RenderStack.after_name_st. destruct named as [|n0 n'].
      - apply emit_st_ext, tail_st_ext, H.
      - destruct (lookup (n0 :: n') args) as [[|isnil out]|]; [apply tail_st_ext, H| |apply eqr_refl].
        destruct isnil; [apply tail_st_ext, H|apply emitr_st_ext, tail_st_ext, H].
    Qed.

    Lemma scan_st_cons : forall c r,
      scan_st (c :: r) = if Ascii.eqb c c_at then name_loop_st r [] else emit_st [c] (scan_st r).
    Proof. reflexivity. Qed.

    Lemma name_loop_st_nil : forall named, name_loop_st [] named = after_name_st named None (ret_st []).
    Proof. reflexivity. Qed.

    Lemma name_loop_st_cons : forall c r' named,
      name_loop_st (c :: r') named =
      if Ascii.eqb c c_apos then after_name_st named (Some c) (scan_st r')
      else if is_name c then name_loop_st r' (named ++ [c])
      else after_name_st named (Some c) (if Ascii.eqb c c_at then name_loop_st r' [] else scan_st r').
    Proof. reflexivity. Qed.

    Lemma tail_st_scan : forall n c r, Ascii.eqb c c_apos = false ->
      tail_st n (Some c) (if Ascii.eqb c c_at then name_loop_st r [] else scan_st r) = scan_st (c :: r).
    Proof.
      intros n c r Ea. rewrite scan_st_cons. unfold RenderStack.tail_st. rewrite Ea.
      case (Ascii.eqb c c_at); reflexivity.
    Qed.

    (* [piece_st] does not look at the apostrophe flag of a hole: any [a] will do *)
    Lemma after_name_hole_st : forall named a c k, named <> [] ->
      eqr (after_name_st named c k) (emitr_st (piece_st St args (Hole named a)) (tail_st true c k)).
    Proof.
      intros named a c k Hne. destruct named as [|n0 n']; [congruence|].
      cbn [RenderStack.after_name_st piece_st]. destruct (lookup (n0 :: n') args) as [[|[|] out]|].
      - apply eqr_sym, emitr_st_nil.
      - apply eqr_sym, emitr_st_nil.
      - apply eqr_refl.
      - apply eqr_sym, emitr_panic.
    Qed.

    Lemma name_loop_st_app : forall n s named, forallb is_name n = true ->
      name_loop_st (n ++ s) named = name_loop_st s (named ++ n).
    Proof.
      induction n as [|c n IH]; intros s named H; [rewrite app_nil_r; reflexivity|].
      cbn [forallb] in H. apply andb_true_iff in H as [Hc Hn]. cbn [app].
      rewrite name_loop_st_cons, (is_name_apos c Hc), Hc, (IH _ _ Hn), <- app_assoc. reflexivity.
    Qed.

    Lemma scan_st_tok : forall t r, wf_tok t r = true ->
      eqr (scan_st (untok1 t ++ r)) (emitr_st (piece_st St args t) (scan_st r)).
    Proof.
      intros [c|n a] r H.
      - cbn [untok1 app wf_tok] in *. rewrite scan_st_cons. destruct (Ascii.eqb c c_at) eqn:E; [|apply eqr_refl].
        chars. destruct r as [|d r']; [apply eqr_refl|].
        cbn [head_is] in H. apply negb_true_iff in H. rewrite name_loop_st_cons, H.
        destruct (Ascii.eqb d c_apos) eqn:Ea; [chars; apply eqr_refl|].
        cbn [RenderStack.after_name_st]. rewrite (tail_st_scan _ _ _ Ea). apply eqr_refl.
      - cbn [wf_tok] in H. apply andb_true_iff in H as [H Ha]. apply andb_true_iff in H as [Hne Hn].
        assert (Hne' : n <> []) by (intros ->; discriminate Hne).
        rewrite untok1_hole, scan_st_cons, Ascii.eqb_refl, (name_loop_st_app n _ [] Hn). cbn [app]. destruct a.
        + rewrite name_loop_st_cons, Ascii.eqb_refl. exact (after_name_hole_st n true (Some c_apos) _ Hne').
        + destruct r as [|d r']; [rewrite name_loop_st_nil; exact (after_name_hole_st n false None _ Hne')|].
          apply negb_true_iff, orb_false_iff in Ha as [Hd Hap].
          rewrite name_loop_st_cons, Hap, Hd, <- (tail_st_scan true d r' Hap). apply after_name_hole_st, Hne'.
    Qed.

    Lemma scan_st_toks : forall s ts, Tokens s ts -> eqr (scan_st s) (subst_st ts).
    Proof.
      intros s ts [<- Hw]. induction ts as [|t r IH]; [apply eqr_refl|].
      cbn [wf_toks] in Hw. apply andb_true_iff in Hw as [Ht Hr]. rewrite untok_cons.
      exact (eqr_trans _ _ _ (scan_st_tok t _ Ht) (emitr_st_ext _ _ _ (IH Hr))).
    Qed.

    Lemma scan_st_spec : forall s, eqr (scan_st s) (subst_st (tokenize s)).
    Proof. intros s. apply scan_st_toks, tokenize_tokens. Qed.

    Lemma tpl_st_spec : forall f, eqr (tpl_st St args f) (subst_st (tokenize (sc_view (trim_nl f)))).
    Proof. intros f. unfold tpl_st. apply scan_st_spec. Qed.
  End Tpl.

  Lemma sp_scan_st_spec : forall s args, eqr (sp_scan_st St s args) (ssubst_st St (stokenize s) args).
  Proof.
    induction s as [|c|c d r IH1 IH2] using list_ind2; intros args.
    - apply eqr_refl.
    - cbn. destruct (Ascii.eqb c c_pct); apply eqr_refl.
    - cbn [sp_scan_st stokenize]. destruct (Ascii.eqb c c_pct); [|apply emit_st_ext, IH2].
      destruct (Ascii.eqb d c_T) eqn:ET; [|destruct (Ascii.eqb d c_v) eqn:EV].
      1,2: chars; destruct args as [|a args']; [apply eqr_refl|apply emitr_st_ext, IH1].
      destruct (Ascii.eqb d c_pct); [apply emit_st_ext, IH1|apply eqr_refl].
  Qed.

  Lemma sp_st_spec : forall f args, eqr (sp_st St f args) (ssubst_st St (stokenize (sc_view f)) args).
  Proof. intros f args. apply sp_scan_st_spec. Qed.

  Definition stable (r : rs) : Prop :=
    forall e t e1, r e = Ok (t, e1) -> le e e1 /\ forall e2, le e1 e2 -> r e2 = Ok (t, e2).

  Lemma stable_ext : forall a b, eqr a b -> stable b -> stable a.
  Proof.
    intros a b H S e t e1 Ha. rewrite H in Ha. destruct (S e t e1 Ha) as [L R]. split; [exact L|].
    intros e2 L2. rewrite H. apply R, L2.
  Qed.

  Lemma stable_ret : forall b, stable (ret_st b).
  Proof. intros b e t e1 H. destruct (ret_st_inv _ _ _ _ H) as [-> ->]. split; [apply le_refl|reflexivity]. Qed.

  Lemma stable_panic : stable panic_st.
  Proof. intros e t e1 H. discriminate. Qed.

  Lemma stable_emitr : forall o k, stable o -> stable k -> stable (emitr_st o k).
  Proof.
    intros o k So Sk e t e2 H. destruct (emitr_st_inv _ _ _ _ _ H) as (a & e1 & r & Ho & Hk & ->).
    destruct (So _ _ _ Ho) as [L1 R1]. destruct (Sk _ _ _ Hk) as [L2 R2].
    split; [exact (le_trans _ _ _ L1 L2)|]. intros e3 L3.
    exact (emitr_st_ok _ _ _ _ _ _ _ (R1 e3 (le_trans _ _ _ L2 L3)) (R2 e3 L3)).
  Qed.

  Lemma stable_emit : forall b k, stable k -> stable (emit_st b k).
  Proof. intros b k S. rewrite emit_as_emitr. exact (stable_emitr _ _ (stable_ret b) S). Qed.

  Definition view_stable (v : aview_st) : Prop :=
    match v with AVNilS _ => True | AVS _ _ out => stable out end.
  Definition sview_stable (v : sview_st) : Prop :=
    match v with SVSnipS _ o => stable o | SVRawS _ a b => stable a /\ stable b end.

  Lemma piece_st_stable : forall args t, Forall (fun p => view_stable (snd p)) args -> stable (piece_st St args t).
  Proof.
    intros args t Ha. destruct t as [c|n a]; cbn [piece_st]; [apply stable_ret|].
    destruct (lookup n args) as [[|[|] out]|] eqn:E; [apply stable_ret..| |apply stable_panic].
    exact (lookup_Forall view_stable n args _ Ha E).
  Qed.

  Lemma stable_subst : forall args ts, Forall (fun p => view_stable (snd p)) args -> stable (subst_st St args ts).
  Proof.
    intros args ts Ha. induction ts as [|t r IH]; [apply stable_ret|].
    exact (stable_emitr _ _ (piece_st_stable args t Ha) IH).
  Qed.

  Lemma stable_ssubst : forall ts args, Forall sview_stable args -> stable (ssubst_st St ts args).
  Proof.
    induction ts as [|t r IH]; intros args Ha; [apply stable_ret|]. destruct t as [c| | | |c]; cbn [ssubst_st].
    1,4: apply stable_emit, IH, Ha.
    3: apply stable_panic.
    all: destruct Ha as [|a args' Ha1 Ha2]; [apply stable_panic|].
    all: apply stable_emitr; [destruct a; apply Ha1|apply IH, Ha2].
  Qed.

  Variables leaf raw : Type.
  Variable leaf_isnil : leaf -> bool.
  Variable leaf_frag : leaf -> rs.
  Variable raw_v raw_t : raw -> rs.
  Hypothesis leaf_stable : forall l, stable (leaf_frag l).
  Hypothesis raw_v_stable : forall a, stable (raw_v a).
  Hypothesis raw_t_stable : forall a, stable (raw_t a).

  Notation rsnip := (rsnip leaf raw).
  Notation risnil_of := (risnil_of leaf raw leaf_isnil).
  Notation rfrag := (rfrag St leaf raw leaf_isnil leaf_frag raw_v raw_t).
  Notation rrender := (rrender St leaf raw leaf_isnil leaf_frag raw_v raw_t).
  Notation rrender_all := (rrender_all St leaf raw leaf_isnil leaf_frag raw_v raw_t).
  Notation erase := (erase St leaf raw leaf_isnil leaf_frag raw_v raw_t).
  Notation view_of_st := (view_of_st St leaf raw leaf_isnil).
  Notation sview_of_st := (sview_of_st St leaf raw raw_v raw_t).
  Notation snippets_loop_st := (snippets_loop_st St leaf raw leaf_isnil).

  Section RsnipInd.
    Variable P : rsnip -> Prop.
    Hypothesis HNil : P (RNil _ _).
    Hypothesis HBlock : forall b, P (RBlock _ _ b).
    Hypothesis HT : forall f args, Forall (fun p => P (snd p)) args -> P (RT _ _ f args).
    Hypothesis HSp : forall f args, Forall P args -> P (RSprintf _ _ f args).
    Hypothesis HRaw : forall a, P (RRaw _ _ a).
    Hypothesis HC : forall v, P (RComment _ _ v).
    Hypothesis HD : forall d a, P (RDirective _ _ d a).
    Hypothesis HSn : forall l, Forall P l -> P (RSnippets _ _ l).
    Hypothesis HF : forall x, P x -> P (RFragments _ _ x).
    Hypothesis HL : forall l, P (RLeaf _ _ l).

    Definition rsnip_all {A} (g : A -> rsnip) (f : forall s, P s) : forall l, Forall (fun a => P (g a)) l :=
      fix go l := match l with [] => Forall_nil _ | a :: r => Forall_cons a (f (g a)) (go r) end.

    Fixpoint rsnip_ind' (s : rsnip) : P s :=
      match s with
      | RNil _ _ => HNil
      | RBlock _ _ b => HBlock b
      | RT _ _ f args => HT f args (rsnip_all snd rsnip_ind' args)
      | RSprintf _ _ f args => HSp f args (rsnip_all (fun x => x) rsnip_ind' args)
      | RRaw _ _ a => HRaw a
      | RComment _ _ v => HC v
      | RDirective _ _ d a => HD d a
      | RSnippets _ _ l => HSn l (rsnip_all (fun x => x) rsnip_ind' l)
      | RFragments _ _ x => HF x (rsnip_ind' x)
      | RLeaf _ _ l => HL l
      end.
  End RsnipInd.

  Lemma snippets_loop_st_cons : forall fr c r,
    snippets_loop_st fr (c :: r) =
    if risnil_of c then snippets_loop_st fr r else emitr_st (fr c) (snippets_loop_st fr r).
  Proof. reflexivity. Qed.

  Lemma rrender_eq : forall s, rrender s = if risnil_of s then ret_st [] else rfrag s.
  Proof. destruct s; reflexivity. Qed.

  Lemma view_of_st_stable : forall v, stable (rfrag v) -> view_stable (view_of_st rfrag v).
  Proof. intros v H. destruct v; cbn; try exact H; exact I. Qed.

  Lemma sview_of_st_stable : forall v, stable (rfrag v) -> sview_stable (sview_of_st rfrag v).
  Proof. intros v H. destruct v; cbn; try exact H. split; [apply raw_v_stable|apply raw_t_stable]. Qed.

  (* rendering from [tbl] to a state that is not above it = C09's pure rendering of the erased term *)
  Section Pure.
    Variable tbl : St.

    Definition pure_of (o : rs) (o' : res bytes) : Prop := forall t e1, o tbl = Ok (t, e1) -> le e1 tbl -> o' = Ok t.

    Definition view_rel (vs : aview_st) (vp : aview) : Prop :=
      match vs, vp with
      | AVNilS _, AVNil => True
      | AVS _ n o, AV n' o' => n = n' /\ stable o /\ pure_of o o'
      | _, _ => False
      end.

    Definition sview_rel (vs : sview_st) (vp : sview) : Prop :=
      match vs, vp with
      | SVSnipS _ o, SVSnip o' => stable o /\ pure_of o o'
      | SVRawS _ v t, SVRaw v' t' => (stable v /\ pure_of v v') /\ (stable t /\ pure_of t t')
      | _, _ => False
      end.

    (* the relation of a stateful rendering to a pure one that [view_rel] and [sview_rel] ask of the arguments *)
    Definition renders_as (o : rs) (o' : res bytes) : Prop := stable o /\ pure_of o o'.

    Lemma renders_as_ext : forall a b o', eqr a b -> renders_as b o' -> renders_as a o'.
    Proof.
      intros a b o' H [Sb Pb]. split; [exact (stable_ext _ _ H Sb)|]. intros t e1 Ha. rewrite H in Ha. exact (Pb t e1 Ha).
    Qed.

    Lemma renders_as_ret : forall b, renders_as (ret_st b) (Ok b).
    Proof. intros b. split; [apply stable_ret|]. intros t e1 H _. destruct (ret_st_inv _ _ _ _ H) as [-> _]. reflexivity. Qed.

    Lemma renders_as_panic : forall o', renders_as panic_st o'.
    Proof. intros o'. split; [apply stable_panic|]. intros t e1 H. discriminate. Qed.

    (* a sequence that ends below [tbl]: its first part ended below it as well (the second only goes up), and the
       second, being stable, renders the same from [tbl] and stays there *)
    Lemma renders_as_emitr : forall o k o' k', renders_as o o' -> renders_as k k' -> renders_as (emitr_st o k) (emitr o' k').
    Proof.
      intros o k o' k' [So Po] [Sk Pk]. split; [exact (stable_emitr _ _ So Sk)|]. intros t e2 H L.
      destruct (emitr_st_inv _ _ _ _ _ H) as (a & e1 & r & Ho & Hk & ->). destruct (Sk _ _ _ Hk) as [L1 R].
      rewrite (Po _ _ Ho (le_trans _ _ _ L1 L)), (Pk _ _ (R tbl L) (le_refl tbl)). reflexivity.
    Qed.

    Lemma renders_as_emit : forall b k k', renders_as k k' -> renders_as (emit_st b k) (emit b k').
    Proof. intros b k k' H. rewrite emit_as_emitr. exact (renders_as_emitr _ _ _ _ (renders_as_ret b) H). Qed.

    Section SubstPure.
      Variable X : Type.
      Variable G : X -> aview_st.
      Variable Fp : X -> aview.

      Notation args_s l := (map (fun p : bytes * X => (fst p, G (snd p))) l).
      Notation args_p l := (map (fun p : bytes * X => (fst p, Fp (snd p))) l).
      Notation rel_all l := (Forall (fun p : bytes * X => view_rel (G (snd p)) (Fp (snd p))) l).

      Lemma piece_pure : forall l t, rel_all l -> renders_as (piece_st St (args_s l) t) (piece (args_p l) t).
      Proof.
        intros l t Hrel. destruct t as [c|n ap]; cbn [piece_st piece]; [apply renders_as_ret|]. rewrite !lookup_map.
        destruct (lookup n l) as [x|] eqn:E; cbn [option_map]; [|apply renders_as_panic].
        pose proof (lookup_Forall (fun x => view_rel (G x) (Fp x)) n l x Hrel E) as R. cbn beta in R. unfold view_rel in R.
        destruct (G x) as [|isnil o], (Fp x) as [|isnil' o']; try contradiction; [apply renders_as_ret|].
        destruct R as [-> R]. destruct isnil'; [apply renders_as_ret|exact R].
      Qed.

      Lemma subst_pure : forall l, rel_all l -> forall ts, renders_as (subst_st St (args_s l) ts) (subst (args_p l) ts).
      Proof.
        intros l Hrel ts. induction ts as [|t r IH]; [apply renders_as_ret|].
        apply renders_as_emitr; [apply piece_pure, Hrel|exact IH].
      Qed.
    End SubstPure.

    Lemma ssubst_pure : forall ts args_s args_p,
      Forall2 sview_rel args_s args_p -> renders_as (ssubst_st St ts args_s) (ssubst ts args_p).
    Proof.
      induction ts as [|t r IH]; intros args_s args_p HR; [apply renders_as_ret|].
      destruct t as [c| | | |c]; cbn [ssubst_st ssubst].
      1,4: apply renders_as_emit, IH, HR.
      3: apply renders_as_panic.
      all: destruct HR as [|a b ra rb Hab HR]; [apply renders_as_panic|].
      all: apply renders_as_emitr; [destruct a, b; try contradiction; apply Hab|apply IH, HR].
    Qed.

    Lemma isnil_of_erase : forall s, isnil_of (erase tbl s) = risnil_of s.
    Proof. destruct s; reflexivity. Qed.

    Notation sfrag := (spec_frag sc_view Panic).

    Lemma view_rel_erase : forall v,
      renders_as (rfrag v) (sfrag (erase tbl v)) -> view_rel (view_of_st rfrag v) (view_of sfrag (erase tbl v)).
    Proof. intros v H. destruct v; try exact (conj eq_refl H). exact I. Qed.

    Lemma r2o_pure : forall (o : rs), pure_of o (o2r (r2o St (o tbl))).
    Proof. intros o t e1 H _. rewrite H. reflexivity. Qed.

    Lemma sview_rel_erase : forall v,
      renders_as (rfrag v) (sfrag (erase tbl v)) -> sview_rel (sview_of_st rfrag v) (sview_of Panic sfrag (erase tbl v)).
    Proof.
      intros v H. destruct v as [| | | |a| | | | |]; try exact H.
      exact (conj (conj (raw_v_stable a) (r2o_pure _)) (conj (raw_t_stable a) (r2o_pure _))).
    Qed.

    Lemma rfrag_pure : forall s, renders_as (rfrag s) (sfrag (erase tbl s)).
    Proof.
      induction s as [|b|f args IH|f args IH|a|v|d a|l IH|x IH|l] using rsnip_ind';
        cbn [RenderStack.rfrag RenderStack.erase spec_frag].
      - apply renders_as_panic.
      - apply renders_as_ret.
      - eapply renders_as_ext; [apply tpl_st_spec|]. rewrite map_map.
        apply (subst_pure rsnip (view_of_st rfrag) (fun v => view_of sfrag (erase tbl v))).
        revert IH. apply Forall_impl. intros p. apply view_rel_erase.
      - eapply renders_as_ext; [apply sp_st_spec|]. rewrite map_map.
        apply ssubst_pure, Order.Forall2_map. revert IH. apply Forall_impl. exact sview_rel_erase.
      - apply renders_as_panic.
      - rewrite comment_impl_spec. apply renders_as_ret.
      - rewrite directive_impl_spec. apply renders_as_ret.
      - induction IH as [|c r Hc _ IHr]; [apply renders_as_ret|].
        rewrite snippets_loop_st_cons. cbn [map]. rewrite cat_res_cons, isnil_of_erase.
        case (risnil_of c); [rewrite emitr_nil; exact IHr|]. apply renders_as_emitr; assumption.
      - rewrite isnil_of_erase. case (risnil_of x); [apply renders_as_ret|exact IH].
      - split; [apply leaf_stable|apply r2o_pure].
    Qed.

    Lemma rrender_pure : forall s, renders_as (rrender s) (render all_fixed (erase tbl s)).
    Proof.
      intros s. rewrite render_spec, rrender_eq. unfold spec_render. rewrite isnil_of_erase.
      case (risnil_of s); [apply renders_as_ret|apply rfrag_pure].
    Qed.
  End Pure.

  (* [renders_as] holds in every state, and stability is its first half *)
  Lemma rfrag_stable : forall s, stable (rfrag s).
  Proof. intros s e. exact (proj1 (rfrag_pure e s) e). Qed.

  Lemma rrender_stable : forall s, stable (rrender s).
  Proof. intros s e. exact (proj1 (rrender_pure e s) e). Qed.

  Lemma rrender_all_stable : forall l, stable (rrender_all l).
  Proof.
    induction l as [|s r IH]; [apply stable_ret|]. cbn [RenderStack.rrender_all].
    apply stable_emitr; [apply rrender_stable|exact IH].
  Qed.

  (* THE composition theorem (text): what the state-threading rendering writes is C09's rendering of the term whose
     leaves are replaced by what they render to in the final state (or any later one) *)
  Theorem rrender_erase : forall s e out e',
    rrender s e = Ok (out, e') ->
    le e e' /\ forall e2, le e' e2 -> rrender s e2 = Ok (out, e2) /\ render all_fixed (erase e2 s) = Ok out.
  Proof.
    intros s e out e' H. destruct (rrender_stable s e out e' H) as [L R]. split; [exact L|].
    intros e2 L2. split; [exact (R e2 L2)|]. exact (proj2 (rrender_pure e2 s) out e2 (R e2 L2) (le_refl e2)).
  Qed.
End Generic.

(* which packages a rendering registers: exactly those of the leaves it renders *)
Section Regs.
  Variable St : Type.
  (* [R e e1 F]: going from state e to state e1 registered the packages F, e.g. "e1 = AddType of F, in order, on e",
     or "the paths of e1 are those of e and F"; anything reflexive on [] and transitive on ++ *)
  Variable R : St -> St -> list bytes -> Prop.
  Hypothesis grows_refl : forall e, R e e [].
  Hypothesis grows_trans : forall e e1 e2 F1 F2, R e e1 F1 -> R e1 e2 F2 -> R e e2 (F1 ++ F2).

  Notation rs := (rs St).
  Notation grows := R.

  Definition regs_ok (o : rs) (F : list bytes) : Prop := forall e t e1, o e = Ok (t, e1) -> grows e e1 F.

  Lemma regs_ok_ext : forall a b F, eqr St a b -> regs_ok b F -> regs_ok a F.
  Proof. intros a b F H Rb e t e1 Ha. rewrite H in Ha. exact (Rb e t e1 Ha). Qed.

  Lemma regs_ok_ret : forall b, regs_ok (ret_st St b) [].
  Proof. intros b e t e1 H. destruct (ret_st_inv _ _ _ _ _ H) as [_ ->]. apply grows_refl. Qed.

  Lemma regs_ok_panic : forall F, regs_ok (panic_st St) F.
  Proof. intros F e t e1 H. discriminate. Qed.

  Lemma regs_ok_emitr : forall o k F1 F2, regs_ok o F1 -> regs_ok k F2 -> regs_ok (emitr_st St o k) (F1 ++ F2).
  Proof.
    intros o k F1 F2 Ro Rk e t e2 H. destruct (emitr_st_inv _ _ _ _ _ _ H) as (a & e1 & r & Ho & Hk & _).
    exact (grows_trans _ _ _ _ _ (Ro _ _ _ Ho) (Rk _ _ _ Hk)).
  Qed.

  Lemma regs_ok_emit : forall b k F, regs_ok k F -> regs_ok (emit_st St b k) F.
  Proof. intros b k F Rk. rewrite emit_as_emitr. exact (regs_ok_emitr _ _ [] F (regs_ok_ret b) Rk). Qed.
End Regs.

(* [rpkgs] is [rfrag] read in the monoid of package lists: a relation [Q] between renderings and package lists that
   the constructors of renderings respect (return and panic with no package, a sequence with the concatenation) holds
   between [rfrag s] and [rpkgs s] as soon as it holds at the leaves.  [regs_ok] is such a relation (Proofs/RenderStack.v
   uses that one); so is one that looks at the packages only ([rpkgs_forall]) *)
Section Pkgs.
  Variable St : Type.
  Notation rs := (rs St).
  Variable Q : rs -> list bytes -> Prop.
  Hypothesis Q_ext : forall a b F, eqr St a b -> Q b F -> Q a F.
  Hypothesis Q_ret : forall b, Q (ret_st St b) [].
  Hypothesis Q_panic : Q (panic_st St) [].
  Hypothesis Q_emitr : forall o k F1 F2, Q o F1 -> Q k F2 -> Q (emitr_st St o k) (F1 ++ F2).

  Section SubstRegs.
    Variable X : Type.
    Variable G : X -> aview_st St.
    Variable pk : X -> list bytes.

    Definition view_regs (x : X) : Prop :=
      match G x with
      | AVNilS _ => pk x = []
      | AVS _ isnil o => if isnil then pk x = [] else Q o (pk x)
      end.

    Definition tok_pkgs (l : list (bytes * X)) (t : tok) : list bytes :=
      match t with
      | Hole n _ => match lookup n (map (fun p => (fst p, pk (snd p))) l) with Some x => x | None => [] end
      | Lit _ => []
      end.

    Lemma subst_regs : forall l, Forall (fun p => view_regs (snd p)) l ->
      forall ts, Q (subst_st St (map (fun p => (fst p, G (snd p))) l) ts) (flat_map (tok_pkgs l) ts).
    Proof.
      intros l Hl. induction ts as [|t r IH]; [apply Q_ret|]. cbn [subst_st flat_map].
      apply Q_emitr; [|exact IH]. destruct t as [c|n a]; cbn [piece_st tok_pkgs]; [apply Q_ret|].
      rewrite !lookup_map. destruct (lookup n l) as [x|] eqn:E; cbn [option_map]; [|apply Q_panic].
      pose proof (lookup_Forall view_regs n l x Hl E) as V. unfold view_regs in V.
      destruct (G x) as [|[|] o]; [rewrite V; apply Q_ret..|exact V].
    Qed.
  End SubstRegs.

  Definition sview_regs (a : sview_st St) (pk : list bytes * list bytes) : Prop :=
    match a with
    | SVSnipS _ o => Q o (fst pk) /\ Q o (snd pk)
    | SVRawS _ v t => Q v (fst pk) /\ Q t (snd pk)
    end.

  Lemma ssubst_regs : forall ts args pks, Forall2 sview_regs args pks ->
    Q (ssubst_st St ts args) (verb_pkgs ts pks).
  Proof.
    induction ts as [|t r IH]; intros args pks HR; [apply Q_ret|].
    destruct t as [c| | | |c]; cbn [ssubst_st verb_pkgs].
    (* [emit_st b k] is [emitr_st (ret_st b) k] *)
    1,4: exact (Q_emitr _ _ [] _ (Q_ret _) (IH _ _ HR)).
    3: apply Q_panic.
    all: destruct HR as [|a pk ra rp Hab HR]; [apply Q_panic|].
    all: apply Q_emitr; [destruct a; apply Hab|apply IH, HR].
  Qed.

  Variables leaf raw : Type.
  Variable leaf_isnil : leaf -> bool.
  Variable leaf_frag : leaf -> rs.
  Variable raw_v raw_t : raw -> rs.
  Variable leaf_pkgs : leaf -> list bytes.
  Variable raw_v_pkgs raw_t_pkgs : raw -> list bytes.
  Hypothesis leaf_regs : forall l, Q (leaf_frag l) (leaf_pkgs l).
  Hypothesis raw_v_regs : forall a, Q (raw_v a) (raw_v_pkgs a).
  Hypothesis raw_t_regs : forall a, Q (raw_t a) (raw_t_pkgs a).

  Notation rsnip := (rsnip leaf raw).
  Notation risnil_of := (risnil_of leaf raw leaf_isnil).
  Notation rfrag := (rfrag St leaf raw leaf_isnil leaf_frag raw_v raw_t).
  Notation rrender := (rrender St leaf raw leaf_isnil leaf_frag raw_v raw_t).
  Notation rrender_all := (rrender_all St leaf raw leaf_isnil leaf_frag raw_v raw_t).
  Notation rpkgs := (rpkgs leaf raw leaf_isnil leaf_pkgs raw_v_pkgs raw_t_pkgs).
  Notation rpkgs_render := (rpkgs_render leaf raw leaf_isnil leaf_pkgs raw_v_pkgs raw_t_pkgs).
  Notation arg_pkgs := (fun v => if risnil_of v then [] else rpkgs v).
  Notation sarg_pkgs := (fun a => match a with RRaw _ _ x => (raw_v_pkgs x, raw_t_pkgs x) | _ => (rpkgs a, rpkgs a) end).

  Lemma rpkgs_RT : forall f args,
    rpkgs (RT _ _ f args) = flat_map (tok_pkgs rsnip arg_pkgs args) (tokenize (sc_view (trim_nl f))).
  Proof. reflexivity. Qed.

  Lemma rpkgs_RSprintf : forall f args,
    rpkgs (RSprintf _ _ f args) = verb_pkgs (stokenize (sc_view f)) (map sarg_pkgs args).
  Proof. reflexivity. Qed.

  Lemma rpkgs_RSnippets : forall l, rpkgs (RSnippets _ _ l) = flat_map arg_pkgs l.
  Proof. reflexivity. Qed.

  Lemma rpkgs_RFragments : forall x, rpkgs (RFragments _ _ x) = arg_pkgs x.
  Proof. reflexivity. Qed.

  Lemma view_of_st_regs : forall v, Q (rfrag v) (rpkgs v) ->
    view_regs rsnip (view_of_st St leaf raw leaf_isnil rfrag) arg_pkgs v.
  Proof.
    intros v H. destruct v; [reflexivity|..]; cbv beta iota delta [view_regs RenderStack.view_of_st];
      (case (risnil_of _); [reflexivity|exact H]).
  Qed.

  Lemma sview_of_st_regs : forall v, Q (rfrag v) (rpkgs v) ->
    sview_regs (sview_of_st St leaf raw raw_v raw_t rfrag v) (sarg_pkgs v).
  Proof. intros v H. destruct v; try exact (conj H H). exact (conj (raw_v_regs _) (raw_t_regs _)). Qed.

  Lemma rfrag_regs : forall s, Q (rfrag s) (rpkgs s).
  Proof.
    induction s as [|b|f args IH|f args IH|a|v|d a|l IH|x IH|l] using (rsnip_ind' leaf raw);
      cbn [RenderStack.rfrag].
    - apply Q_panic.
    - apply Q_ret.
    - eapply Q_ext; [apply tpl_st_spec|]. rewrite rpkgs_RT. apply subst_regs.
      revert IH. apply Forall_impl. intros p. apply view_of_st_regs.
    - eapply Q_ext; [apply sp_st_spec|]. rewrite rpkgs_RSprintf. apply ssubst_regs, Order.Forall2_map.
      revert IH. apply Forall_impl. exact sview_of_st_regs.
    - apply Q_panic.
    - apply Q_ret.
    - apply Q_ret.
    - rewrite rpkgs_RSnippets. induction IH as [|c r Hc _ IHr]; [apply Q_ret|].
      rewrite snippets_loop_st_cons. cbn [flat_map]. case (risnil_of c); [exact IHr|]. apply Q_emitr; assumption.
    - rewrite rpkgs_RFragments. case (risnil_of x); [apply Q_ret|exact IH].
    - apply leaf_regs.
  Qed.

  Lemma rrender_regs : forall s, Q (rrender s) (rpkgs_render s).
  Proof.
    intros s. rewrite rrender_eq. unfold RenderStack.rpkgs_render.
    case (risnil_of s); [apply Q_ret|apply rfrag_regs].
  Qed.

  Theorem rrender_all_regs : forall l, Q (rrender_all l) (flat_map rpkgs_render l).
  Proof.
    induction l as [|s r IH]; [apply Q_ret|]. cbn [RenderStack.rrender_all flat_map].
    apply Q_emitr; [apply rrender_regs|exact IH].
  Qed.
End Pkgs.

Section PkgsForall.
  Variables leaf raw : Type.
  Variable leaf_isnil : leaf -> bool.
  Variable leaf_pkgs : leaf -> list bytes.
  Variable raw_v_pkgs raw_t_pkgs : raw -> list bytes.
  Notation rpkgs := (rpkgs leaf raw leaf_isnil leaf_pkgs raw_v_pkgs raw_t_pkgs).
  Notation rpkgs_render := (rpkgs_render leaf raw leaf_isnil leaf_pkgs raw_v_pkgs raw_t_pkgs).

  (* every package of [rpkgs] comes from a leaf: [Q] looks at the packages only, so any state type and any leaf
     renderings will do *)
  Lemma rpkgs_forall : forall (P : bytes -> Prop),
    (forall l, Forall P (leaf_pkgs l)) -> (forall a, Forall P (raw_v_pkgs a)) -> (forall a, Forall P (raw_t_pkgs a)) ->
    forall s, Forall P (rpkgs s).
  Proof.
    intros P.
    exact (rfrag_regs unit (fun _ => Forall P) (fun _ _ _ _ H => H) (fun _ => Forall_nil P) (Forall_nil P)
             (fun _ _ F1 F2 H1 H2 => proj2 (Forall_app P F1 F2) (conj H1 H2))
             leaf raw leaf_isnil (fun _ => panic_st unit) (fun _ => panic_st unit) (fun _ => panic_st unit)
             leaf_pkgs raw_v_pkgs raw_t_pkgs).
  Qed.

  Lemma rpkgs_render_forall : forall (P : bytes -> Prop),
    (forall l p, In p (leaf_pkgs l) -> P p) ->
    (forall a p, In p (raw_v_pkgs a) -> P p) ->
    (forall a p, In p (raw_t_pkgs a) -> P p) ->
    forall s p, In p (rpkgs_render s) -> P p.
  Proof.
    intros P Hl Hv Ht s p Hp. unfold RenderStack.rpkgs_render in Hp. destruct (risnil_of leaf raw leaf_isnil s); [destruct Hp|].
    revert p Hp. apply Forall_forall, rpkgs_forall; intros x; apply Forall_forall; [apply Hl|apply Hv|apply Ht].
  Qed.
End PkgsForall.
