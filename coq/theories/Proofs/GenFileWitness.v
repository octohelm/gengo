(* Recorded behaviour of the Go formatter stack (go/parser, ast.SortImports, gofumpt v0.8.0, go/format of
   go1.24.2) on two sources, as finite tables; regenerate with
     vh c01-witness w1 corpus/C01/gofumpt-not-fixed-point.json
     vh c01-witness w2 corpus/C01/gofumpt-needs-three-rounds.json
   The same two inputs are corpus cases: every run of the check re-observes this behaviour on the real tools
   and on the real WriteToFile.  The tables are DATA about an external component, not a model of it. *)
Require Import Gengo.Base.Bytes Gengo.Base.Order Gengo.Model.GenFile Gengo.Proofs.GenFile.

(* input: module example.com/m, go 1.22, package p, generator x; body "func g(a int, b int) (r int, err error) { return }\nfunc h() { if true { println() } else { println() } }\n" *)
Definition w1_snips : list snip := [SBlock (hx "66756e632067286120696e742c206220696e742920287220696e742c20657272206572726f7229207b2072657475726e207d0a"); SBlock (hx "66756e6320682829207b2069662074727565207b207072696e746c6e2829207d20656c7365207b207072696e746c6e2829207d207d0a")].
Definition w1_pre : bytes := (hx "2f2a0a5061636b61676520702047454e4552415445442042592067656e676f3a78200a444f4e2754204544495420544849532046494c450a2a2f0a7061636b61676520700a66756e632067286120696e742c206220696e742920287220696e742c20657272206572726f7229207b2072657475726e207d0a66756e6320682829207b2069662074727565207b207072696e746c6e2829207d20656c7365207b207072696e746c6e2829207d207d0a").
(* parse + SortImports + gofumpt AST pass + print:
/*
Package p GENERATED BY gengo:x
DON'T EDIT THIS FILE
*/
package p

func g(a int, b int) (r int, err error) { return }
func h() {
	if true {
		println()
	} else {
		println()
	}
}
*)
Definition w1_printed : bytes := (hx "2f2a0a5061636b61676520702047454e4552415445442042592067656e676f3a780a444f4e2754204544495420544849532046494c450a2a2f0a7061636b61676520700a0a66756e632067286120696e742c206220696e742920287220696e742c20657272206572726f7229207b2072657475726e207d0a66756e6320682829207b0a0969662074727565207b0a09097072696e746c6e28290a097d20656c7365207b0a09097072696e746c6e28290a097d0a7d0a").
(* gofumpt Source, round 1:
/*
Package p GENERATED BY gengo:x
DON'T EDIT THIS FILE
*/
package p

func g(a int, b int) (r int, err error) { return }

func h() {
	if true {
		println()
	} else {
		println()
	}
}
*)
Definition w1_s1 : bytes := (hx "2f2a0a5061636b61676520702047454e4552415445442042592067656e676f3a780a444f4e2754204544495420544849532046494c450a2a2f0a7061636b61676520700a0a66756e632067286120696e742c206220696e742920287220696e742c20657272206572726f7229207b2072657475726e207d0a0a66756e6320682829207b0a0969662074727565207b0a09097072696e746c6e28290a097d20656c7365207b0a09097072696e746c6e28290a097d0a7d0a").
(* w1_s1 is stable *)

(* input: module example.com/m, go 1.19, package p, generator x; body "func m5() int { return 1 }\n/* lead */ func lc1() {}\nfunc lb4() {\nL:\n\tfor {\n\t\tbreak L\n\t}\n}\n" *)
Definition w2_snips : list snip := [SBlock (hx "66756e63206d35282920696e74207b2072657475726e2031207d0a"); SBlock (hx "2f2a206c656164202a2f2066756e63206c63312829207b7d0a"); SBlock (hx "66756e63206c62342829207b0a4c3a0a09666f72207b0a0909627265616b204c0a097d0a7d0a")].
Definition w2_pre : bytes := (hx "2f2a0a5061636b61676520702047454e4552415445442042592067656e676f3a78200a444f4e2754204544495420544849532046494c450a2a2f0a7061636b61676520700a66756e63206d35282920696e74207b2072657475726e2031207d0a2f2a206c656164202a2f2066756e63206c63312829207b7d0a66756e63206c62342829207b0a4c3a0a09666f72207b0a0909627265616b204c0a097d0a7d0a").
(* parse + SortImports + gofumpt AST pass + print:
/*
Package p GENERATED BY gengo:x
DON'T EDIT THIS FILE
*/
package p

func m5() int { return 1 }

/* lead */ func lc1() {}
func lb4() {
L:
	for {
		break L
	}
}
*)
Definition w2_printed : bytes := (hx "2f2a0a5061636b61676520702047454e4552415445442042592067656e676f3a780a444f4e2754204544495420544849532046494c450a2a2f0a7061636b61676520700a0a66756e63206d35282920696e74207b2072657475726e2031207d0a0a2f2a206c656164202a2f2066756e63206c63312829207b7d0a66756e63206c62342829207b0a4c3a0a09666f72207b0a0909627265616b204c0a097d0a7d0a").
(* gofumpt Source, round 1:
/*
Package p GENERATED BY gengo:x
DON'T EDIT THIS FILE
*/
package p

func m5() int { return 1 }

/* lead */
func lc1() {}
func lb4() {
L:
	for {
		break L
	}
}
*)
Definition w2_s1 : bytes := (hx "2f2a0a5061636b61676520702047454e4552415445442042592067656e676f3a780a444f4e2754204544495420544849532046494c450a2a2f0a7061636b61676520700a0a66756e63206d35282920696e74207b2072657475726e2031207d0a0a2f2a206c656164202a2f0a66756e63206c63312829207b7d0a66756e63206c62342829207b0a4c3a0a09666f72207b0a0909627265616b204c0a097d0a7d0a").
(* gofumpt Source, round 2:
/*
Package p GENERATED BY gengo:x
DON'T EDIT THIS FILE
*/
package p

func m5() int { return 1 }

/* lead */
func lc1() {}

func lb4() {
L:
	for {
		break L
	}
}
*)
Definition w2_s2 : bytes := (hx "2f2a0a5061636b61676520702047454e4552415445442042592067656e676f3a780a444f4e2754204544495420544849532046494c450a2a2f0a7061636b61676520700a0a66756e63206d35282920696e74207b2072657475726e2031207d0a0a2f2a206c656164202a2f0a66756e63206c63312829207b7d0a0a66756e63206c62342829207b0a4c3a0a09666f72207b0a0909627265616b204c0a097d0a7d0a").
(* w2_s2 is stable *)

Definition w1_fmt1 := table [(w1_pre, Some w1_printed)].
Definition w1_fmt2 := table [(w1_printed, Some w1_s1); (w1_s1, Some w1_s1)].
Definition w1_gen := mk_genfile (bs "x") [] w1_snips.

(* What is evaluated about w1: the model's assembly of the witness script is the recorded source (otherwise the table
   lookup would fail), and gofumpt changed the printed text.  The rest is reading the tables. *)
Lemma w1_body : body_of w1_snips <> [].
Proof. discriminate. Qed.

Lemma w1_assembled : assemble (bs "p") (bs "x") [] (body_of w1_snips) = w1_pre.
Proof. reflexivity. Qed.

(* the gofumpt round inserted a line *)
Lemma w1_s1_printed : w1_s1 <> w1_printed.
Proof. apply length_neq. discriminate. Qed.

Lemma w1_fmt2_s1 : w1_fmt2 w1_s1 = Some w1_s1.
Proof. unfold w1_fmt2. rewrite table_tl by exact w1_s1_printed. apply table_hd. Qed.

Lemma w1_written : write_file w1_fmt1 w1_fmt2 true (bs "zz_generated") (bs "p") w1_gen = WWrite (bs "zz_generated.x.go") w1_s1.
Proof.
  apply (write_file_some _ _ true (bs "zz_generated") (bs "p") w1_gen w1_s1 w1_body).
  unfold fmt_src, rounds. cbn [w1_gen gf_name gf_imports gf_snips]. rewrite w1_assembled. unfold w1_fmt1. rewrite table_hd.
  rewrite (settle_step w1_fmt2 4 w1_printed w1_s1 (table_hd _ _ _) w1_s1_printed).
  apply settle_fixed, w1_fmt2_s1.
Qed.

(* Finding #32.  Before the repair the printed text went to disk and gofumpt changes it; the repaired code writes a
   text gofumpt leaves alone. *)
Lemma before_fix_not_a_gofumpt_fixed_point :
  write_file w1_fmt1 w1_fmt2 false (bs "zz_generated") (bs "p") w1_gen = WWrite (bs "zz_generated.x.go") w1_printed
  /\ w1_fmt2 w1_printed <> Some w1_printed
  /\ write_file w1_fmt1 w1_fmt2 true (bs "zz_generated") (bs "p") w1_gen = WWrite (bs "zz_generated.x.go") w1_s1
  /\ w1_fmt2 w1_s1 = Some w1_s1.
Proof.
  split; [|split; [|split; [exact w1_written|exact w1_fmt2_s1]]].
  - apply (write_file_some _ _ false (bs "zz_generated") (bs "p") w1_gen w1_printed w1_body).
    unfold fmt_src. cbn [w1_gen gf_name gf_imports gf_snips]. rewrite w1_assembled. unfold w1_fmt1. now rewrite table_hd.
  - unfold w1_fmt2. rewrite table_hd. pose proof w1_s1_printed. congruence.
Qed.

Definition w2_fmt1 := table [(w2_pre, Some w2_printed)].
Definition w2_fmt2 := table [(w2_printed, Some w2_s1); (w2_s1, Some w2_s2); (w2_s2, Some w2_s2)].
Definition w2_gen := mk_genfile (bs "x") [] w2_snips.

Lemma w2_assembled : assemble (bs "p") (bs "x") [] (body_of w2_snips) = w2_pre.
Proof. reflexivity. Qed.

(* this round turned a space into a newline: same length, so the bytes are compared; the other two inserted a line *)
Lemma w2_s1_printed : w2_s1 <> w2_printed.
Proof. apply bytes_eqb_neq. vm_compute. reflexivity. Qed.

Lemma w2_s2_printed : w2_s2 <> w2_printed.
Proof. apply length_neq. discriminate. Qed.

Lemma w2_s2_s1 : w2_s2 <> w2_s1.
Proof. apply length_neq. discriminate. Qed.

Lemma w2_fmt2_s1 : w2_fmt2 w2_s1 = Some w2_s2.
Proof. unfold w2_fmt2. rewrite table_tl by exact w2_s1_printed. apply table_hd. Qed.

Lemma w2_fmt2_s2 : w2_fmt2 w2_s2 = Some w2_s2.
Proof. unfold w2_fmt2. rewrite !table_tl by first [exact w2_s2_printed | exact w2_s2_s1]. apply table_hd. Qed.

(* Why the repair loops: one further gofumpt pass over the printed text is still not stable here. *)
Lemma one_more_pass_is_not_enough :
  fmt_src w2_fmt1 w2_fmt2 true (assemble (bs "p") (bs "x") [] (body_of w2_snips)) = Some w2_s2
  /\ w2_fmt2 w2_s2 = Some w2_s2
  /\ w2_fmt2 w2_printed = Some w2_s1 /\ w2_fmt2 w2_s1 <> Some w2_s1.
Proof.
  split; [|split; [exact w2_fmt2_s2|split; [apply table_hd|]]].
  - unfold fmt_src, rounds. rewrite w2_assembled. unfold w2_fmt1. rewrite table_hd.
    rewrite (settle_step w2_fmt2 4 w2_printed w2_s1 (table_hd _ _ _) w2_s1_printed).
    rewrite (settle_step w2_fmt2 3 w2_s1 w2_s2 w2_fmt2_s1 w2_s2_s1).
    apply settle_fixed, w2_fmt2_s2.
  - rewrite w2_fmt2_s1. pose proof w2_s2_s1. congruence.
Qed.
