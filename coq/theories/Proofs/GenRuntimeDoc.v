(* Lemmas for C16 (runtimedoc generator): the generator's output in closed form ([gen_closed_form]), the method
   it holds for each type ([find_method_gen], [ir_shape_struct]), what that method answers on every receiver
   ([run_struct], [run_other]) and the agreement with the specification [rd_spec] ([run_spec]).
   DEFINED here and used in statements of Props/C16.v: [ranked] (delegation between the struct types of a package has a
   rank), [count_methods], [count_helper]. *)
Require Import Gengo.Base.Bytes Gengo.Model.GenRuntimeDoc.
Require Gengo.Base.Order Gengo.Base.Assoc.

Lemma existsb_eqb_false : forall (n : name) l, ~ In n l -> existsb (bytes_eqb n) l = false.
Proof. intros n l H. apply not_true_iff_false. intros E. apply H, Order.existsb_bytes_eqb_in, E. Qed.

Lemma existsb_false_in {A} (f : A -> bool) : forall l x, existsb f l = false -> In x l -> f x = false.
Proof.
  intros l x H Hx. apply not_true_iff_false. intros E. apply not_true_iff_false in H. apply H, existsb_exists. eauto.
Qed.

Lemma filter_none : forall {A} (f : A -> bool) l, existsb f l = false -> filter f l = [].
Proof.
  intros A f l H. induction l as [|x l IH]; [reflexivity|]. cbn in *. apply orb_false_iff in H as [-> H]. exact (IH H).
Qed.

(* [lookup_ty] is Base/Assoc.v's [find_by] with [t_name] (the stored name on the left of the test); [find_listed] is
   [find_by] with [f_name] among the listed fields *)
Lemma lookup_ty_eq : forall p n, lookup_ty p n = Assoc.find_by (fun a b => bytes_eqb b a) t_name n p.
Proof. intros p n. apply (Assoc.find_by_unfold _ _ (fun n p => lookup_ty p n)). intros k [|y r]; reflexivity. Qed.

Lemma find_listed_eq : forall n fs, find_listed n fs = Assoc.find_by (fun a b => bytes_eqb b a) f_name n (filter listed fs).
Proof.
  intros n fs. unfold Assoc.find_by. rewrite <- Order.find_filter.
  induction fs as [|f fs IH]; cbn; [|rewrite IH]; reflexivity.
Qed.

Lemma lookup_in : forall p n t, lookup_ty p n = Some t -> In t p /\ t_name t = n.
Proof. intros p n t. rewrite lookup_ty_eq. apply Assoc.find_by_Some, Assoc.bytes_eqbP'. Qed.

Lemma lookup_nodup : forall p t, NoDup (map t_name p) -> In t p -> lookup_ty p (t_name t) = Some t.
Proof. intros p t. rewrite lookup_ty_eq. apply Assoc.find_by_In, Assoc.bytes_eqbP'. Qed.

Lemma lookup_none : forall p n, ~ In n (map t_name p) -> lookup_ty p n = None.
Proof.
  intros p n H. rewrite lookup_ty_eq, Assoc.find_by_get. apply (Assoc.get_None _ Assoc.bytes_eqbP'). rewrite map_map. exact H.
Qed.

Lemma find_listed_some : forall n fs f,
  find_listed n fs = Some f -> In f fs /\ listed f = true /\ f_name f = n.
Proof.
  intros n fs f H. rewrite find_listed_eq in H. apply (Assoc.find_by_Some _ _ Assoc.bytes_eqbP') in H.
  rewrite filter_In in H. tauto.
Qed.

Lemma find_listed_in : forall fs f,
  NoDup (map f_name (filter listed fs)) -> In f fs -> listed f = true ->
  find_listed (f_name f) fs = Some f.
Proof.
  intros fs f ND HI Lf. rewrite find_listed_eq. apply (Assoc.find_by_In _ _ Assoc.bytes_eqbP' _ _ ND), filter_In. auto.
Qed.

Definition item_of (fd fs : bool) (p : package) (t : tydesc) : list item :=
  if covered t then
    match method_of fd fs p t with Some m => [IMethod (t_name t) m] | None => [] end
  else [].

Definition body_of (fd fs : bool) (p : package) (l : list tydesc) : list item :=
  flat_map (item_of fd fs p) l.

Lemma covered_struct_method : forall fd fs p t,
  covered t = true -> exists m, method_of fd fs p t = Some m.
Proof.
  intros fd fs p t H. unfold covered in H. unfold method_of.
  destruct (t_kind t) as [fields| |].
  - apply andb_true_iff in H. destruct H as [_ H]. rewrite H. cbn. eauto.
  - apply andb_true_iff in H. destruct H as [_ H]. discriminate.
  - eauto.
Qed.

(* doGenerate's step on a type: GenerateType gets as far as generate_type exactly on the types that [visits] holds of,
   and then registers a deferred callback unless nothing has been rendered so far *)
Definition visits (t : tydesc) : bool :=
  t_enabled t && t_exported t && match t_kind t with TInterface => false | _ => true end.

Definition register (st : gstate) : gstate :=
  match gs_body st with
  | [] => st
  | _ :: _ => mk_gs (gs_processed st) (gs_body st) (S (gs_defers st)) (gs_helper st)
  end.

Lemma step_visits : forall fd fs p t st,
  (if t_enabled t then GenerateType fd fs p t st else st) =
  if visits t then register (generate_type fd fs p t st) else st.
Proof.
  intros fd fs p t st. unfold visits, GenerateType, register.
  destruct (t_enabled t), (t_exported t), (t_kind t); reflexivity.
Qed.

(* a visited struct without an exported field is not covered, and has no method either *)
Lemma item_of_visits : forall fd fs p t,
  item_of fd fs p t =
  if visits t then match method_of fd fs p t with Some m => [IMethod (t_name t) m] | None => [] end else [].
Proof.
  intros fd fs p t. unfold item_of, covered, visits, method_of.
  destruct (t_enabled t), (t_exported t), (t_kind t) as [fields| |]; try reflexivity.
  cbn. destruct (has_expose fields); reflexivity.
Qed.

Lemma generate_type_fresh : forall fd fs p t st,
  ~ In (t_name t) (gs_processed st) ->
  generate_type fd fs p t st =
  mk_gs (t_name t :: gs_processed st)
        (gs_body st ++ match method_of fd fs p t with Some m => [IMethod (t_name t) m] | None => [] end)
        (gs_defers st) (gs_helper st).
Proof.
  intros fd fs p t st H. unfold generate_type. rewrite (existsb_eqb_false _ _ H).
  destruct (method_of fd fs p t); [reflexivity|]. rewrite app_nil_r. reflexivity.
Qed.

(* what makes the helper come out once: a callback is registered iff something has been rendered *)
Definition defers_ok (st : gstate) : Prop := is_nil (gs_body st) = Nat.eqb (gs_defers st) 0.

(* one step of doGenerate on a type whose name has not been processed yet *)
Lemma step_body : forall fd fs p t st,
  ~ In (t_name t) (gs_processed st) ->
  let st' := if t_enabled t then GenerateType fd fs p t st else st in
  gs_body st' = gs_body st ++ item_of fd fs p t
  /\ gs_helper st' = gs_helper st
  /\ (forall n, In n (gs_processed st') -> n = t_name t \/ In n (gs_processed st))
  /\ (defers_ok st -> defers_ok st').
Proof.
  intros fd fs p t st Hnp. cbn zeta. rewrite step_visits, item_of_visits.
  destruct (visits t).
  2:{ rewrite app_nil_r. split; [reflexivity|]. split; [reflexivity|]. split; [intros n H; right; exact H | intros I; exact I]. }
  rewrite (generate_type_fresh fd fs p t st Hnp). unfold register, defers_ok. cbn [gs_body].
  destruct (gs_body st ++ _) eqn:B; cbn [gs_body gs_helper gs_processed gs_defers];
    (split; [reflexivity|]); (split; [reflexivity|]); (split; [intros n [<-|H]; auto|]).
  - apply app_eq_nil in B. destruct B as [B _]. rewrite B. intros I; exact I.
  - intros _. reflexivity.
Qed.

Lemma fold_body : forall fd fs p l st,
  NoDup (map t_name l) ->
  (forall t, In t l -> ~ In (t_name t) (gs_processed st)) ->
  let st' := fold_left (fun st t => if t_enabled t then GenerateType fd fs p t st else st) l st in
  gs_body st' = gs_body st ++ body_of fd fs p l
  /\ gs_helper st' = gs_helper st
  /\ (defers_ok st -> defers_ok st').
Proof.
  intros fd fs p l. induction l as [|t l IH]; intros st ND Hnp; cbn zeta.
  - cbn. rewrite app_nil_r. auto.
  - cbn [fold_left body_of flat_map].
    cbn [map] in ND. apply NoDup_cons_iff in ND. destruct ND as [Hn ND'].
    destruct (step_body fd fs p t st (Hnp t (or_introl eq_refl))) as (B & Hh & P & D).
    cbn zeta in B, Hh, P, D.
    destruct (IH (if t_enabled t then GenerateType fd fs p t st else st) ND') as (B' & Hh' & D').
    + intros u Hu Hin. apply P in Hin. destruct Hin as [E|Hin].
      * apply Hn. rewrite <- E. apply in_map. exact Hu.
      * exact (Hnp u (or_intror Hu) Hin).
    + cbn zeta in B', Hh', D'. split; [rewrite B', B, <- app_assoc; reflexivity|].
      split; [rewrite Hh', Hh; reflexivity|]. intros X. exact (D' (D X)).
Qed.

Lemma run_defers_written : forall n st, gs_helper st = true -> run_defers n st = st.
Proof.
  induction n as [|n IH]; intros st H; cbn [run_defers]; [reflexivity|].
  unfold create_helper_once. rewrite H. apply IH. exact H.
Qed.

Lemma run_defers_helper : forall n st,
  gs_helper st = false ->
  gs_body (run_defers n st) = gs_body st ++ (match n with O => [] | S _ => [IHelper] end).
Proof.
  intros [|n] st H; cbn [run_defers].
  - rewrite app_nil_r. reflexivity.
  - unfold create_helper_once. rewrite H. rewrite run_defers_written; reflexivity.
Qed.

Theorem gen_closed_form : forall fd fs p,
  NoDup (map t_name p) ->
  gen fd fs p = body_of fd fs p p ++ (match body_of fd fs p p with [] => [] | _ :: _ => [IHelper] end).
Proof.
  intros fd fs p ND. unfold gen, do_generate.
  destruct (fold_body fd fs p p gs_init ND) as (B & Hh & D).
  { intros t _ H. exact H. }
  cbn zeta in B, Hh, D. cbn [gs_init gs_body gs_helper app] in B, Hh.
  specialize (D eq_refl). unfold defers_ok in D. rewrite B in D.
  rewrite run_defers_helper by exact Hh. rewrite B. f_equal.
  revert D. destruct (body_of fd fs p p), (gs_defers _); intros D; try reflexivity; discriminate D.
Qed.

Lemma find_method_app : forall l tail t,
  find_method (l ++ tail) t = match find_method l t with Some m => Some m | None => find_method tail t end.
Proof.
  induction l as [|[n m|] l IH]; intros tail t; cbn; [reflexivity| |apply IH].
  destruct (bytes_eqb n t); [reflexivity | apply IH].
Qed.

Lemma find_method_none : forall tail t, (forall n m, ~ In (IMethod n m) tail) -> find_method tail t = None.
Proof.
  induction tail as [|[n m|] tail IH]; intros t H; cbn; [reflexivity|exfalso; exact (H n m (or_introl eq_refl))|].
  apply IH. intros n m Hin. exact (H n m (or_intror Hin)).
Qed.

Lemma find_method_app_helper : forall l t tail,
  (forall n m, ~ In (IMethod n m) tail) ->
  find_method (l ++ tail) t = find_method l t.
Proof.
  intros l t tail H. rewrite find_method_app, (find_method_none tail t H). destruct (find_method l t); reflexivity.
Qed.

Lemma find_method_item : forall fd fs p t rest n,
  find_method (item_of fd fs p t ++ rest) n =
  if covered t && bytes_eqb (t_name t) n then method_of fd fs p t else find_method rest n.
Proof.
  intros fd fs p t rest n. unfold item_of. destruct (covered t) eqn:C; [|reflexivity].
  destruct (covered_struct_method fd fs p t C) as [m Hm]. rewrite Hm. cbn.
  destruct (bytes_eqb (t_name t) n); reflexivity.
Qed.

Lemma find_method_body_notin : forall fd fs p l n,
  ~ In n (map t_name l) -> find_method (body_of fd fs p l) n = None.
Proof.
  intros fd fs p l n. induction l as [|t l IH]; cbn [body_of flat_map map]; intros H; [reflexivity|].
  rewrite find_method_item. rewrite (proj2 (Order.bytes_eqb_neq (t_name t) n)) by (intros E; apply H; left; exact E).
  rewrite andb_false_r. apply IH. intros Hin. apply H. right. exact Hin.
Qed.

Lemma find_method_body : forall fd fs p l n,
  NoDup (map t_name l) ->
  find_method (body_of fd fs p l) n =
    match lookup_ty l n with
    | Some t => if covered t then method_of fd fs p t else None
    | None => None
    end.
Proof.
  intros fd fs p l n. induction l as [|t l IH]; cbn [body_of flat_map map lookup_ty]; intros ND; [reflexivity|].
  apply NoDup_cons_iff in ND. destruct ND as [Hn ND'].
  rewrite find_method_item. destruct (bytes_eqb (t_name t) n) eqn:E.
  - apply bytes_eqb_spec in E. subst n.
    destruct (covered t); [reflexivity|]. apply find_method_body_notin, Hn.
  - rewrite andb_false_r. apply IH. exact ND'.
Qed.

Theorem find_method_gen : forall fd fs p n,
  NoDup (map t_name p) ->
  find_method (gen fd fs p) n =
    match lookup_ty p n with
    | Some t => if covered t then method_of fd fs p t else None
    | None => None
    end.
Proof.
  intros fd fs p n ND. rewrite gen_closed_form by exact ND.
  rewrite find_method_app_helper; [exact (find_method_body fd fs p p n ND)|].
  intros k m. destruct (body_of fd fs p p); [intros []|intros [H|[]]; discriminate H].
Qed.

(* the method generated for a covered type *)
Lemma method_covered : forall fd fs p t,
  NoDup (map t_name p) -> In t p -> covered t = true ->
  find_method (gen fd fs p) (t_name t) = method_of fd fs p t.
Proof.
  intros fd fs p t ND HI C. rewrite find_method_gen by exact ND.
  rewrite (lookup_nodup p t ND HI), C. reflexivity.
Qed.

Fixpoint count_helper (e : ir) : nat :=
  match e with [] => 0 | IHelper :: r => S (count_helper r) | _ :: r => count_helper r end.

Fixpoint count_methods (e : ir) : nat :=
  match e with [] => 0 | IMethod _ _ :: r => S (count_methods r) | _ :: r => count_methods r end.

Lemma count_helper_app : forall a b, count_helper (a ++ b) = count_helper a + count_helper b.
Proof. induction a as [|x a IH]; intros b; cbn; auto. destruct x; cbn; rewrite IH; reflexivity. Qed.

Lemma count_methods_app : forall a b, count_methods (a ++ b) = count_methods a + count_methods b.
Proof. induction a as [|x a IH]; intros b; cbn; auto. destruct x; cbn; rewrite IH; reflexivity. Qed.

Lemma body_no_helper : forall fd fs p l, count_helper (body_of fd fs p l) = 0.
Proof.
  intros fd fs p l. unfold body_of. induction l as [|t l IH]; cbn [flat_map]; auto.
  rewrite count_helper_app, IH. unfold item_of.
  destruct (covered t); [destruct (method_of fd fs p t)|]; reflexivity.
Qed.

Lemma body_all_methods : forall fd fs p l, count_methods (body_of fd fs p l) = length (body_of fd fs p l).
Proof.
  intros fd fs p l. unfold body_of. induction l as [|t l IH]; cbn [flat_map]; auto.
  rewrite count_methods_app, app_length, IH. unfold item_of.
  destruct (covered t); [destruct (method_of fd fs p t)|]; reflexivity.
Qed.

Lemma body_len_zero : forall fd fs p l,
  length (body_of fd fs p l) = 0 <-> existsb covered l = false.
Proof.
  intros fd fs p l. unfold body_of. induction l as [|t l IH]; cbn [flat_map existsb].
  - cbn. split; reflexivity.
  - rewrite app_length. unfold item_of.
    destruct (covered t) eqn:C; cbn [orb].
    + destruct (covered_struct_method fd fs p t C) as [m Hm]. rewrite Hm. cbn. split; discriminate.
    + cbn. exact IH.
Qed.

Lemma helper_last : forall l a b, count_helper l = 0 -> l ++ [IHelper] = a ++ IHelper :: b -> b = [].
Proof.
  induction l as [|[n m|] l IH]; intros [|y a] b Z H; try discriminate.
  - injection H as <-. reflexivity.
  - injection H as _ H. destruct a; discriminate.
  - injection H as _ H. exact (IH a b Z H).
Qed.

Theorem helper_once : forall fd fs p,
  NoDup (map t_name p) ->
  count_helper (gen fd fs p) = (if Nat.eqb (count_methods (gen fd fs p)) 0 then 0 else 1)
  /\ (count_methods (gen fd fs p) = 0 <-> existsb covered p = false)
  /\ (forall a b, gen fd fs p = a ++ IHelper :: b -> b = []).
Proof.
  intros fd fs p ND. rewrite gen_closed_form by exact ND.
  rewrite count_helper_app, count_methods_app, body_no_helper, body_all_methods.
  pose proof (body_len_zero fd fs p p) as L. pose proof (body_no_helper fd fs p p) as Z.
  destruct (body_of fd fs p p) as [|i b0] eqn:E.
  - split; [reflexivity|]. split; [exact L|]. intros [|y a] b H; discriminate.
  - rewrite <- E in *. split; [|split].
    + rewrite E. reflexivity.
    + rewrite <- L, E. cbn. split; intros X; lia.
    + intros a b. apply helper_last. exact Z.
Qed.

Lemma cases_shape : forall fd fs,
  filter_map (case_of fd) fs =
  map (fun f => (f_name f, ctx_doc fd (f_name f) (f_doc f))) (filter listed fs).
Proof.
  intros fd fs. induction fs as [|f fs IH]; cbn [filter_map filter map]; auto.
  unfold case_of at 1. unfold listed at 1.
  destruct (f_exported f); cbn [negb andb]; auto.
  destruct (f_kind f) as [c|ptr tg]; [destruct c|]; cbn [map]; rewrite ?IH; auto.
Qed.

Lemma embeds_shape : forall fd p fs,
  filter_map (embed_of fd p) fs =
  map (fun f => mk_embed (f_name f)
                  (match f_kind f with FEmbedded ptr _ => ptr | _ => false end)
                  (first_line (ctx_doc fd (f_name f) (f_doc f))))
      (filter (delegating p) fs).
Proof.
  intros fd p fs. induction fs as [|f fs IH]; cbn [filter_map filter map]; auto.
  unfold embed_of at 1. unfold delegating at 1. destruct (f_kind f) as [c|ptr tg] eqn:K; auto.
  destruct (negb ptr && struct_without_exposed p f tg); cbn [negb map]; rewrite IH; auto.
  rewrite K. reflexivity.
Qed.

(* the switch over the listed fields finds what find_listed finds *)
Lemma assoc_listed {B} (d : field -> B) : forall n fs,
  assoc n (map (fun f => (f_name f, d f)) (filter listed fs)) = option_map d (find_listed n fs).
Proof.
  intros n fs. induction fs as [|f fs IH]; cbn [filter find_listed]; [reflexivity|].
  destruct (listed f); cbn [map assoc andb]; [|exact IH].
  destruct (bytes_eqb (f_name f) n); [reflexivity | exact IH].
Qed.

Lemma parse_embed_lit : forall d, (forall l, In l d -> re_embed l = None) -> parse_embed d = map DLit d.
Proof.
  induction d as [|l d IH]; cbn; intros H; auto.
  rewrite (H l (or_introl eq_refl)). f_equal. apply IH. intros x Hx. apply H. right. exact Hx.
Qed.

Lemma eval_parse_embed : forall files d,
  (forall l, In l d -> re_embed l = None) -> eval_doc files (parse_embed d) = d.
Proof.
  intros files d H. rewrite (parse_embed_lit d H). unfold eval_doc. rewrite map_map. apply map_id.
Qed.

Lemma no_ref_lines : forall p t fs,
  lookup_ty p (t_name t) = Some t -> t_kind t = TStruct fs -> has_embed_ref p (t_name t) = false ->
  forall l, In l (doc_of (t_name t) (t_doc t)) -> re_embed l = None.
Proof.
  intros p t fs L K H l Hl. unfold has_embed_ref in H. rewrite L, K in H.
  apply existsb_false_in with (x := l) in H; [|exact Hl]. destruct (re_embed l); [discriminate H | reflexivity].
Qed.

Lemma covered_struct_expose : forall t fs, covered t = true -> t_kind t = TStruct fs -> has_expose fs = true.
Proof.
  intros t fs C K. unfold covered in C. rewrite K in C. apply andb_true_iff in C. exact (proj2 C).
Qed.

Lemma covered_not_iface : forall t, covered t = true -> t_kind t <> TInterface.
Proof.
  intros t C K. unfold covered in C. rewrite K in C. rewrite andb_false_r in C. discriminate.
Qed.

(* the IR carries the documentation lines verbatim, in field order *)
Theorem ir_shape_struct : forall p t fs,
  NoDup (map t_name p) -> In t p -> covered t = true -> t_kind t = TStruct fs ->
  find_method (gen true true p) (t_name t) =
  Some (StructDoc (parse_embed (doc_of (t_name t) (t_doc t)))
                  (map (fun f => (f_name f, doc_of (f_name f) (f_doc f))) (filter listed fs))
                  (map (fun f => mk_embed (f_name f)
                                   (match f_kind f with FEmbedded ptr _ => ptr | _ => false end)
                                   (first_line (doc_of (f_name f) (f_doc f))))
                       (filter (delegating p) fs))).
Proof.
  intros p t fs ND HI C K. rewrite (method_covered true true p t ND HI C).
  unfold method_of. rewrite K, (covered_struct_expose t fs C K). cbn [negb].
  rewrite cases_shape, embeds_shape. reflexivity.
Qed.

Theorem ir_shape_other : forall p t,
  NoDup (map t_name p) -> In t p -> covered t = true -> t_kind t = TOther ->
  find_method (gen true true p) (t_name t) = Some (Simple true (doc_of (t_name t) (t_doc t))).
Proof.
  intros p t ND HI C K. rewrite (method_covered true true p t ND HI C).
  unfold method_of. rewrite K. reflexivity.
Qed.

Fixpoint deleg_ir (call : embed_ir -> outcome) (es : list embed_ir) : outcome :=
  match es with
  | [] => Ok None
  | em :: es' =>
      match call em with
      | Ok (Some d) => Ok (Some (patch (e_prefix em) d))
      | Ok None => deleg_ir call es'
      | Panic => Panic
      | OutOfFuel => OutOfFuel
      end
  end.

(* the searches through a receiver's embedded values that [run] and [nil_chain] spell out as local fixpoints *)
Lemma kid_fix {C} (g : rv -> C) : forall n kids,
  (fix find (ks : list (name * rv)) : C :=
     match ks with
     | [] => g RNil
     | (k, sv) :: ks' => if bytes_eqb k n then g sv else find ks'
     end) kids = g (kid kids n).
Proof.
  intros n kids. unfold kid. induction kids as [|[k sv] ks IH]; [reflexivity|].
  cbn [assoc]. destruct (bytes_eqb k n); [reflexivity | exact IH].
Qed.

Lemma find_kid : forall files e n names kids,
  (fix find (ks : list (name * rv)) : outcome :=
     match ks with
     | [] => run_nil files e n names
     | (k, sv) :: ks' => if bytes_eqb k n then run files e sv n names else find ks'
     end) kids = run files e (kid kids n) n names.
Proof. intros files e n names kids. exact (kid_fix (fun sv => run files e sv n names) n kids). Qed.

(* the answer of the embedded field n of the receiver v: reaching for the field dereferences the receiver *)
Definition run_kid (files : list (bytes * bytes)) (e : ir) (v : rv) (names : list name) (n : name) : outcome :=
  match v with RNil => Panic | RNode kids => run files e (kid kids n) n names end.

Lemma run_method : forall files e v t names,
  run files e v t names =
  match find_method e t with
  | None => Ok None
  | Some (Simple g doc) =>
      if g then match names with [] => Ok (Some doc) | _ :: _ => Ok None end else Ok (Some doc)
  | Some (StructDoc doc cases embeds) =>
      match names with
      | [] => Ok (Some (eval_doc files doc))
      | n0 :: _ =>
          match assoc n0 cases with
          | Some d => Ok (Some d)
          | None => deleg_ir (fun em => run_kid files e v names (e_name em)) embeds
          end
      end
  end.
Proof.
  intros files e [|kids] t names; cbn [run]; [unfold run_nil|];
    (destruct (find_method e t) as [[g doc|doc cases embeds]|]; [reflexivity| |reflexivity]);
    (destruct names as [|n0 rest]; [reflexivity|]); (destruct (assoc n0 cases); [reflexivity|]).
  - destruct embeds; reflexivity.
  - induction embeds as [|em es IH]; cbn [deleg_ir run_kid]; auto.
    rewrite (find_kid files e (e_name em) (n0 :: rest) kids), IH. reflexivity.
Qed.

Lemma deleg_shape : forall p (call : name -> outcome) fs,
  deleg_ir (fun em => call (e_name em))
    (map (fun f => mk_embed (f_name f)
                     (match f_kind f with FEmbedded ptr _ => ptr | _ => false end)
                     (first_line (ctx_doc true (f_name f) (f_doc f))))
         (filter (delegating p) fs))
  = deleg_fields p (fun f => call (f_name f)) fs.
Proof.
  intros p call fs. induction fs as [|f fs IH]; cbn [filter map deleg_ir deleg_fields]; auto.
  destruct (delegating p f); cbn [map deleg_ir e_name e_prefix]; auto.
  rewrite IH. reflexivity.
Qed.

(* RuntimeDoc(names...) of a covered struct type, for every receiver and every argument list: its own doc, the doc
   of the listed field named first, or the delegations *)
Theorem run_struct : forall files p t fs v names,
  NoDup (map t_name p) -> In t p -> covered t = true -> t_kind t = TStruct fs ->
  run files (gen true true p) v (t_name t) names =
  match names with
  | [] => Ok (Some (eval_doc files (parse_embed (doc_of (t_name t) (t_doc t)))))
  | n :: _ =>
      match find_listed n fs with
      | Some f => Ok (Some (doc_of (f_name f) (f_doc f)))
      | None => deleg_fields p (fun f => run_kid files (gen true true p) v names (f_name f)) fs
      end
  end.
Proof.
  intros files p t fs v names ND HI C K.
  rewrite run_method, (ir_shape_struct p t fs ND HI C K).
  destruct names as [|n rest]; [reflexivity|].
  rewrite assoc_listed. destruct (find_listed n fs) as [f|]; [reflexivity|].
  exact (deleg_shape p (run_kid files (gen true true p) v (n :: rest)) fs).
Qed.

Theorem run_other : forall files p t v names,
  NoDup (map t_name p) -> In t p -> covered t = true -> t_kind t = TOther ->
  run files (gen true true p) v (t_name t) names =
  match names with [] => Ok (Some (doc_of (t_name t) (t_doc t))) | _ :: _ => Ok None end.
Proof.
  intros files p t v names ND HI C K. rewrite run_method, (ir_shape_other p t ND HI C K). reflexivity.
Qed.

Theorem run_types : forall files p t v,
  NoDup (map t_name p) -> In t p -> covered t = true -> has_embed_ref p (t_name t) = false ->
  run files (gen true true p) v (t_name t) [] = Ok (Some (doc_of (t_name t) (t_doc t))).
Proof.
  intros files p t v ND HI C R. destruct (t_kind t) as [fs| |] eqn:K.
  - rewrite (run_struct files p t fs v [] ND HI C K), eval_parse_embed; [reflexivity|].
    exact (no_ref_lines p t fs (lookup_nodup p t ND HI) K R).
  - exfalso. exact (covered_not_iface t C K).
  - exact (run_other files p t v [] ND HI C K).
Qed.

Theorem run_fields_in : forall files p t fs f v rest,
  NoDup (map t_name p) -> In t p -> covered t = true -> t_kind t = TStruct fs ->
  NoDup (map f_name (filter listed fs)) -> In f fs -> listed f = true ->
  run files (gen true true p) v (t_name t) (f_name f :: rest) = Ok (Some (doc_of (f_name f) (f_doc f))).
Proof.
  intros files p t fs f v rest ND HI C K NDf Hf L.
  rewrite (run_struct files p t fs v _ ND HI C K), (find_listed_in fs f NDf Hf L). reflexivity.
Qed.

Lemma deleg_fields_none : forall p call fs,
  (forall f, In f fs -> delegating p f = true -> call f = Ok None) ->
  deleg_fields p call fs = Ok None.
Proof.
  intros p call fs. induction fs as [|f fs IH]; cbn [deleg_fields]; intros H; auto.
  destruct (delegating p f) eqn:D.
  - rewrite (H f (or_introl eq_refl) D). apply IH. intros g Hg. apply H. right. exact Hg.
  - apply IH. intros g Hg. apply H. right. exact Hg.
Qed.

(* on a nil receiver the first delegation panics *)
Lemma deleg_fields_nil : forall p fs,
  deleg_fields p (fun _ => Panic) fs = if existsb (delegating p) fs then Panic else Ok None.
Proof.
  intros p fs. induction fs as [|f fs IH]; cbn [deleg_fields existsb]; [reflexivity|].
  destruct (delegating p f); [reflexivity | exact IH].
Qed.

Lemma nil_chain_node : forall p tn kids,
  nil_chain p tn (RNode kids) =
  match lookup_ty p tn with
  | Some t =>
      match t_kind t with
      | TStruct fs => existsb (fun f => delegating p f && nil_chain p (f_name f) (kid kids (f_name f))) fs
      | _ => false
      end
  | None => false
  end.
Proof.
  intros p tn kids. cbn [nil_chain].
  destruct (lookup_ty p tn) as [t|]; auto.
  destruct (t_kind t) as [fs| |]; auto.
  induction fs as [|f fs IH]; cbn [existsb]; auto.
  rewrite IH. f_equal.
  destruct (delegating p f); auto.
  exact (kid_fix (nil_chain p (f_name f)) (f_name f) kids).
Qed.

Definition ranked (p : package) (rank : name -> nat) : Prop :=
  forall t fs f, In t p -> t_kind t = TStruct fs -> In f fs -> delegating p f = true ->
                 rank (f_name f) < rank (t_name t).

(* acyclicity of a concrete package is a finite check *)
Lemma ranked_check : forall p rank,
  forallb (fun t => match t_kind t with
                    | TStruct fs => forallb (fun f => negb (delegating p f) || Nat.ltb (rank (f_name f)) (rank (t_name t))) fs
                    | _ => true
                    end) p = true ->
  ranked p rank.
Proof.
  intros p rank H t fs f HI K Hf D. rewrite forallb_forall in H. specialize (H t HI). rewrite K in H.
  rewrite forallb_forall in H. specialize (H f Hf). rewrite D in H. apply PeanoNat.Nat.ltb_lt. exact H.
Qed.

Lemma first_some_no_deleg : forall p (g : field -> option (list line)) fs,
  existsb (delegating p) fs = false ->
  first_some (fun f => if delegating p f then g f else None) fs = None.
Proof.
  intros p g fs. induction fs as [|f fs IH]; cbn; auto.
  destruct (delegating p f); cbn; [discriminate|]. exact IH.
Qed.

(* delegations that all answer: the first answer wins, as in rd_spec *)
Lemma deleg_fields_spec : forall p call (g : field -> option (list line)) fs,
  (forall f, In f fs -> delegating p f = true -> call f = Ok (g f)) ->
  deleg_fields p call fs =
  Ok (first_some (fun f => if delegating p f
                           then option_map (patch (first_line (doc_of (f_name f) (f_doc f)))) (g f)
                           else None) fs).
Proof.
  intros p call g fs. induction fs as [|f fs IH]; intros H; cbn [deleg_fields first_some]; [reflexivity|].
  assert (H' : forall f', In f' fs -> delegating p f' = true -> call f' = Ok (g f')).
  { intros f' Hf'. apply H. right. exact Hf'. }
  destruct (delegating p f) eqn:D; [|exact (IH H')].
  rewrite (H f (or_introl eq_refl) D). destruct (g f); cbn [option_map]; [reflexivity | exact (IH H')].
Qed.

Theorem run_spec : forall files p rank,
  NoDup (map t_name p) -> ranked p rank ->
  forall k tn v names,
    rank tn < k -> nil_chain p tn v = false ->
    (names = [] -> has_embed_ref p tn = false) ->
    run files (gen true true p) v tn names = Ok (rd_spec k p tn names).
Proof.
  intros files p rank ND RK. induction k as [|k IH]; intros tn v names Hr Hn Hg; [lia|].
  cbn [rd_spec].
  (* no type of that name, or one that is not covered: no method, nothing is answered *)
  destruct (lookup_ty p tn) as [t|] eqn:L; [destruct (covered t) eqn:C|]; cbn [negb].
  2,3: rewrite run_method, find_method_gen, L, ?C by exact ND; reflexivity.
  destruct (lookup_in p tn t L) as [HI <-].
  destruct names as [|n0 rest]; [exact (run_types files p t v ND HI C (Hg eq_refl))|].
  destruct (t_kind t) as [fs| |] eqn:K.
  - rewrite (run_struct files p t fs v _ ND HI C K).
    destruct (find_listed n0 fs) as [f|]; [reflexivity|].
    destruct v as [|kids].
    + cbn [nil_chain] in Hn. unfold has_delegations in Hn. rewrite L, C, K in Hn. cbn [andb] in Hn.
      cbn [run_kid]. rewrite deleg_fields_nil, Hn, first_some_no_deleg by exact Hn. reflexivity.
    + rewrite nil_chain_node, L, K in Hn.
      apply (deleg_fields_spec p _ (fun f => rd_spec k p (f_name f) (n0 :: rest))). intros f Hf Df.
      apply existsb_false_in with (x := f) in Hn; [|exact Hf]. rewrite Df in Hn.
      apply IH; [|exact Hn|discriminate].
      pose proof (RK t fs f HI K Hf Df). lia.
  - exfalso. exact (covered_not_iface t C K).
  - exact (run_other files p t v _ ND HI C K).
Qed.

(* every line but the first is passed through untouched; the first yields at most one line *)
Theorem doc_of_tail : forall n l0 rest,
  doc_of n (l0 :: rest) = rest \/ exists l0', l0' <> [] /\ doc_of n (l0 :: rest) = l0' :: rest.
Proof.
  intros n l0 rest. unfold doc_of, ctx_doc.
  destruct (cut_prefix n l0) as [[|c r]|].
  - left. reflexivity.
  - destruct (Ascii.eqb c sp).
    + destruct (trim_space (c :: r)) eqn:E; [left; reflexivity|].
      right. eexists. split; [|reflexivity]. discriminate.
    + destruct l0; [left; reflexivity|]. right. eexists. split; [|reflexivity]. discriminate.
  - destruct l0; [left; reflexivity|]. right. eexists. split; [|reflexivity]. discriminate.
Qed.

Lemma cut_prefix_app : forall n r, cut_prefix n (n ++ r) = Some r.
Proof. intros n r. now apply Assoc.cut_prefix_iff. Qed.

Lemma cut_prefix_some : forall n s r, cut_prefix n s = Some r -> s = n ++ r.
Proof. intros n s r. apply Assoc.cut_prefix_iff. Qed.

(* a first line that is not the name alone and does not continue it with a blank comes back untouched: "Apple pie"
   on type A stays "Apple pie" *)
Theorem doc_of_verbatim : forall n l0 rest,
  l0 <> [] -> l0 <> n -> (forall r, l0 <> n ++ sp :: r) ->
  doc_of n (l0 :: rest) = l0 :: rest.
Proof.
  intros n l0 rest Hne Hn Hb. unfold doc_of, ctx_doc.
  destruct (cut_prefix n l0) as [[|c r]|] eqn:E.
  - apply cut_prefix_some in E. rewrite app_nil_r in E. congruence.
  - destruct (Ascii.eqb c sp) eqn:Ec.
    + apply Ascii.eqb_eq in Ec. subst c. apply cut_prefix_some in E. exfalso. exact (Hb r E).
    + destruct l0; [congruence|reflexivity].
  - destruct l0; [congruence|reflexivity].
Qed.

Definition w_field (n : string) (k : fkind) (d : list string) : field :=
  mk_field (bs n) true k (map bs d).

(* DESIGN section 4 #28 *)
Definition w_apple : package :=
  [mk_ty (bs "A") true true (TStruct [w_field "X" (FNamed FOrdinary) ["Xylophone"]]) [bs "Apple pie"]]%string.

(* a defined non-struct type answered its own doc for every name; embedded in front of a struct that
   knows the name, it hid that struct's answer *)
Definition w_name : package :=
  [mk_ty (bs "Name") true true TOther [bs "Name is a name."];
   mk_ty (bs "Other") true true (TStruct [w_field "Y" (FNamed FOrdinary) ["Y is why"]]) [];
   mk_ty (bs "S") true true (TStruct [w_field "Name" (FEmbedded false ELocal) [];
                                      w_field "Other" (FEmbedded false ELocal) []]) []]%string.

(* the known finding: a promoted field behind a nil embedded pointer *)
Definition w_chain : package :=
  [mk_ty (bs "A") true true (TStruct [w_field "B" (FEmbedded true ELocal) []]) [];
   mk_ty (bs "B") true true (TStruct [w_field "C" (FEmbedded false ELocal) []]) [];
   mk_ty (bs "C") true true (TStruct [w_field "X" (FNamed FOrdinary) ["X marks the spot"]]) []]%string.

Definition chain_rank (n : name) : nat :=
  if bytes_eqb n (bs "A") then 2 else if bytes_eqb n (bs "B") then 1 else 0.
