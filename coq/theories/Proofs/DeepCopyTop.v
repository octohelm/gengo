(* C17: the composed statements, boolean checkers for their hypotheses, and the witnesses.
   [dom_b] and [ranked_b] decide [dom] and [ranked] on concrete data ([dom_b_sound], [ranked_b_sound]); they and the
   witnesses w_... are DEFINED here and occur in theorems and Examples of Props/C17.v. *)
Require Import Gengo.Base.Bytes Gengo.Base.Order Gengo.Model.DeepCopy Gengo.Proofs.DeepCopy Gengo.Proofs.DeepCopySem.
Require Import Coq.Arith.PeanoNat.

(* decidable versions of the hypotheses; Corr/C17.v evaluates [dom_b] on every generated case *)

Fixpoint nodupb (l : list bytes) : bool :=
  match l with
  | [] => true
  | x :: r => negb (existsb (bytes_eqb x) r) && nodupb r
  end.

Lemma nodupb_sound : forall l, nodupb l = true -> NoDup l.
Proof. intros l. apply Order.nodup_bytes_NoDup. Qed.

Definition field_dom_b (G : pkg) (ft : bytes * fty) : bool :=
  match snd ft with
  | FNamed c _ => match lookup G c with Some _ => true | None => false end
  | FForeign ms =>
      match field_stmt all_fixed G [] (fst ft) (FForeign ms) with
      | Ok (SAssign g, None) => bytes_eqb g (fst ft)
      | _ => false
      end
  | _ => true
  end.

Definition decl_dom_b (G : pkg) (d : decl) : bool :=
  snd (scan (d_hand d)) &&
  match d_kind d with
  | DStruct _ fs => nodupb (map fst fs) && forallb (field_dom_b G) fs
  | _ => true
  end.

Definition dom_b (G : pkg) : bool := forallb (decl_dom_b G) (p_decls G).

Lemma find_decl_in : forall ds n d, find_decl ds n = Some d -> In d ds.
Proof.
  induction ds as [|x ds IH]; intros n d H; cbn in H; [discriminate|].
  destruct (bytes_eqb (d_name x) n); [inversion H; left; reflexivity|right; eauto].
Qed.

Lemma dom_b_sound : forall G, dom_b G = true -> dom G.
Proof.
  intros G H. unfold dom_b in H. rewrite forallb_forall in H. split.
  - intros n d Hl. apply find_decl_in, H, andb_true_iff in Hl. apply Hl.
  - intros n d tp fs Hl Hk. apply find_decl_in, H in Hl. unfold decl_dom_b in Hl. rewrite Hk in Hl.
    apply andb_true_iff in Hl. destruct Hl as [_ Hl]. apply andb_true_iff in Hl. destruct Hl as [Hn Hf].
    rewrite forallb_forall in Hf. split; [apply nodupb_sound, Hn|]. split.
    + intros f c args Hin. apply Hf in Hin. unfold field_dom_b in Hin. cbn [snd] in Hin. destruct (lookup G c); discriminate.
    + intros f ms Hin. apply Hf in Hin. unfold field_dom_b in Hin. cbn [snd fst] in Hin.
      destruct (field_stmt all_fixed G [] f (FForeign ms)) as [[[] []]| |]; try discriminate.
      apply bytes_eqb_spec in Hin. subst. reflexivity.
Qed.

Definition ranked_b (G : pkg) (r : bytes -> nat) : bool :=
  forallb (fun d => match d_kind d with
                    | DStruct _ fs => forallb (fun ft => match snd ft with
                                                         | FNamed c _ => Nat.ltb (r c) (r (d_name d))
                                                         | _ => true end) fs
                    | _ => true
                    end) (p_decls G).

Lemma ranked_b_sound : forall G r, ranked_b G r = true -> ranked G r.
Proof.
  intros G r H n d tp fs f c args Hl Hk Hin. unfold ranked_b in H. rewrite forallb_forall in H.
  pose proof (lookup_name _ _ _ Hl) as Hn. apply find_decl_in in Hl. apply H in Hl. rewrite Hk in Hl.
  rewrite forallb_forall in Hl. apply Hl in Hin. cbn [snd] in Hin. apply Nat.ltb_lt in Hin. rewrite Hn in Hin. exact Hin.
Qed.

Lemma copy_correct : forall G order fuel vis ms,
  dom G -> vis_ok G vis -> gen_deepcopy fuel all_fixed G order vis = Ok ms ->
  forall n d args v h,
    In n order -> lookup G n = Some d -> enabled G d = true ->
    (d_kind d = DScalar \/ exists tp fs, d_kind d = DStruct tp fs) ->
    wt G h (FNamed n args) v ->
    forall fuel', vdepth v < fuel' -> copy_unshared h v (exec_copy fuel' G ms n v h).
Proof.
  intros G order fuel vis ms Hdom Hv Hgen n d args v h Hin Hl He Hk Hw fuel' Hd.
  destruct (gen_well_formed G fuel order vis ms Hv Hgen) as [Hcal Hroots _ _ _].
  pose proof (Hroots n d Hin Hl He) as Hr.
  assert (has_ptr_copy ms n = true /\ find_into ms n <> None) as [Hpc Hfi]
    by (destruct Hk as [E|[tp [fs E]]]; rewrite E in Hr; exact Hr).
  apply copy_ok_unshared; [exact (wt_valid _ _ _ _ Hw)|]. eapply exec_copy_spec; eassumption.
Qed.

Lemma copy_map_correct : forall G order fuel vis ms,
  vis_ok G vis -> gen_deepcopy fuel all_fixed G order vis = Ok ms ->
  forall n d k e args v h,
    In n order -> lookup G n = Some d -> enabled G d = true -> d_kind d = DMap k e ->
    wt G h (FNamed n args) v -> copy_unshared h v (exec_copy_map ms n v h).
Proof.
  intros G order fuel vis ms Hv Hgen n d k e args v h Hin Hl He Hk Hw.
  pose proof (wf_roots _ _ _ (gen_well_formed G fuel order vis ms Hv Hgen) n d Hin Hl He) as Hr. rewrite Hk in Hr.
  apply copy_ok_unshared; [exact (wt_valid _ _ _ _ Hw)|]. eapply exec_copy_map_spec; eassumption.
Qed.

(* DeepCopy of nil is nil for every enabled type of a generated file: the guard, first statement of the declared
   method ([deep_copy], [deep_copy_map]: Model/DeepCopy.v), returns nil *)
Lemma nil_copy_generated : forall G order fuel vis ms,
  vis_ok G vis -> gen_deepcopy fuel all_fixed G order vis = Ok ms ->
  forall n d h fuel',
    In n order -> lookup G n = Some d -> enabled G d = true ->
    ((d_kind d = DScalar \/ exists tp fs, d_kind d = DStruct tp fs) -> deep_copy fuel' G ms n None h = Ok (None, h)) /\
    (forall k e, d_kind d = DMap k e -> deep_copy_map ms n (VMap None) h = Ok (VMap None, h)).
Proof.
  intros G order fuel vis ms Hv Hgen n d h fuel' Hin Hl He.
  pose proof (wf_roots _ _ _ (gen_well_formed G fuel order vis ms Hv Hgen) n d Hin Hl He) as Hr. split.
  - intros Hk. apply deep_copy_nil. destruct Hk as [E|[tp [fs E]]]; rewrite E in Hr; apply Hr.
  - intros k e Hk. rewrite Hk in Hr. apply deep_copy_map_nil_guard. exact Hr.
Qed.

Lemma run_vis_ok : forall G fuel fx order k ms, run fuel fx G order k = Ok ms -> vis_ok G ms.
Proof.
  intros G fuel fx order [|k] ms H; cbn [run] in H; [|apply bind_ok in H; destruct H as [prev [_ H]]];
    exact (gen_deepcopy_vis_ok _ _ _ _ _ _ H).
Qed.

Lemma every_run_well_formed : forall G fuel order k ms,
  run fuel all_fixed G order k = Ok ms -> well_formed G order ms.
Proof.
  intros G fuel order [|k] ms H; cbn [run] in H; [exact (gen_well_formed_first _ _ _ _ H)|].
  apply bind_ok in H. destruct H as [prev [Hp H]]. exact (gen_well_formed _ _ _ _ _ (run_vis_ok _ _ _ _ _ _ Hp) H).
Qed.

Definition tagged (n : string) (k : dkind) : decl := mk_decl (bs n) k true None [].
Definition untagged (n : string) (k : dkind) : decl := mk_decl (bs n) k false None [].

(* type S struct { A int; E error } *)
Definition w_error : pkg := mk_pkg false [tagged "S" (DStruct [] [(bs "A", FBasic (bs "int")); (bs "E", FError)])].

(* type M map[string]int; type S struct { F M } *)
Definition w_map : pkg := mk_pkg false
  [tagged "M" (DMap (bs "string") (bs "int")); tagged "S" (DStruct [] [(bs "F", FNamed (bs "M") [])])].

(* type Dep struct { X []int } (no tag); type Root struct { D Dep } *)
Definition w_dep : pkg := mk_pkg false
  [untagged "Dep" (DStruct [] [(bs "X", FSlice (EBasic (bs "int")))]);
   tagged "Root" (DStruct [] [(bs "D", FNamed (bs "Dep") [])])].

(* type Box[T any] struct { V T }; type Root struct { B Box[int] } *)
Definition w_generic : pkg := mk_pkg false
  [tagged "Box" (DStruct [bs "T"] [(bs "V", FTParam (bs "T"))]);
   tagged "Root" (DStruct [] [(bs "B", FNamed (bs "Box") [bs "int"])])].

(* type NI interface{...}; type Root struct { I NI; S []string } *)
Definition w_iface : pkg := mk_pkg false
  [untagged "NI" DIface;
   tagged "Root" (DStruct [] [(bs "I", FNamed (bs "NI") []); (bs "S", FSlice (EBasic (bs "string")))])].

(* +gengo:deepcopy:interfaces=Object on type M map[int]string *)
Definition w_mapobj : pkg := mk_pkg false
  [mk_decl (bs "M") (DMap (bs "int") (bs "string")) false (Some (bs "Object")) []; untagged "Object" DIface].

(* everything at once, nesting depth 3 *)
Definition w_all : pkg := mk_pkg false
  [tagged "Box" (DStruct [bs "T"] [(bs "V", FTParam (bs "T")); (bs "S", FSlice (EBasic (bs "int")))]);
   untagged "Dep" (DStruct [] [(bs "X", FSlice (EBasic (bs "int"))); (bs "M", FNamed (bs "M") [])]);
   tagged "M" (DMap (bs "string") (bs "int"));
   untagged "N" DScalar;
   untagged "NI" DIface;
   mk_decl (bs "Root") (DStruct [] [(bs "A", FBasic (bs "int")); (bs "D", FNamed (bs "Dep") []);
                                    (bs "B", FNamed (bs "Box") [bs "int"]); (bs "I", FNamed (bs "NI") []);
                                    (bs "E", FError); (bs "N", FNamed (bs "N") []);
                                    (bs "Q", FMap (bs "string") (EBasic (bs "bool")))])
           true (Some (bs "Object")) [];
   untagged "Object" DIface].

Definition w_all_order : list bytes := [bs "Box"; bs "Dep"; bs "M"; bs "N"; bs "NI"; bs "Object"; bs "Root"].

Definition w_all_rank (n : bytes) : nat :=
  if bytes_eqb n (bs "Root") then 2 else if bytes_eqb n (bs "Dep") then 1 else if bytes_eqb n (bs "Box") then 1 else 0.

(* a Root value: D.X -> cell 0, D.M -> cell 1, B.S -> cell 2, Q -> cell 3 *)
Definition w_heap : heap := [CSlice [1; 2; 3]%N; CMap [(7, 70)]%N; CSlice [9]%N; CMap [(4, 1); (5, 0)]%N].
Definition w_value : value :=
  VStruct [(bs "A", VScalar 42);
           (bs "D", VStruct [(bs "X", VSlice (Some 0)); (bs "M", VMap (Some 1))]);
           (bs "B", VStruct [(bs "V", VScalar 5); (bs "S", VSlice (Some 2))]);
           (bs "I", VIface 3); (bs "E", VIface 0); (bs "N", VScalar 8);
           (bs "Q", VMap (Some 3))].

(* ---- known finding type_argument_with_containers: a bare type-parameter field can only be assigned ----

   type Page[T any] struct { Item T } (no tag); type Labels map[string]string; type Root struct { L Page[Labels] }.
   The hypothesis [wt] of copy_correct gives a type-parameter field a scalar value; with a map type as argument the
   value behind Item is a map.  The repaired generator renders Page[T] from its origin (Item is assigned), so the copy
   holds the SAME cell, and a write through that map of the copy changes the original. *)
Definition w_tparg : pkg := mk_pkg false
  [untagged "Page" (DStruct [bs "T"] [(bs "Item", FTParam (bs "T"))]);
   untagged "Labels" (DMap (bs "string") (bs "string"));
   tagged "Root" (DStruct [] [(bs "L", FNamed (bs "Page") [bs "Labels"])])].

Definition w_tparg_heap : heap := [CMap [(1, 10)]%N].
Definition w_tparg_value : value := VStruct [(bs "L", VStruct [(bs "Item", VMap (Some 0))])].

