(* Agreement of two models of the same Go code (pkg/gengo/context.go 95-142):
     Model/SumCache.v  (C08: which packages are regenerated, what happens to gengo.sum; world abstract)
     Model/Pipeline.v  (C07/C05/C02: Execute on a file system; sum parser/printer abstract)
   SumCache.run, with its abstract tree instantiated by the pipeline's file system, its [gen] by the pipeline's
   package step, and its locals / hashes by the loaded world, IS Pipeline.exec. *)
Require Import Gengo.Base.Bytes Gengo.Model.Pipeline Gengo.Model.Whole.
Require Import Gengo.Proofs.Pipeline Gengo.Proofs.PipelinePkg Gengo.Proofs.PipelineC02 Gengo.Proofs.WholeTrace.
Require Gengo.Base.Order Gengo.Model.SumFile Gengo.Model.SumCache Gengo.Proofs.SumFile Gengo.Proofs.SumCache.
Require Gengo.Base.Assoc.

Lemma find_pkg_in : forall w p, NoDup (map pk_path (w_pkgs w)) -> In p (w_pkgs w) -> find_pkg w (pk_path p) = Some p.
Proof. intros w p. exact (Assoc.find_by_In _ pk_path Assoc.bytes_eqbP' (w_pkgs w) p). Qed.

Lemma sum_get_sum_sum : forall m k, Pipeline.sum_get m k = SumFile.sum_sum m k.
Proof.
  intros m k. unfold SumFile.sum_sum. now rewrite sum_get_eq, Proofs.SumFile.sum_get_eq.
Qed.

(* pkgChanged says "cached" (context.go 131-142 after 96-106): All, no Force, gengo.sum was read, and what it records for the
   package is the hash taken at load time, which is not empty *)
Lemma not_changed_inv : forall (E : env) a w s p,
  pkg_changed a w (load_prev E a w s) p = false ->
  a_all a = true /\ a_force a = false
  /\ exists b, fs_lookup (sum_path w) s = Some b
               /\ sum_get (e_sum_load E b) (pk_path p) = sum_get (current_sum w) (pk_path p)
               /\ sum_get (current_sum w) (pk_path p) <> [].
Proof.
  intros E a w s p H. unfold pkg_changed, load_prev in H.
  destruct (a_force a); [discriminate H|]. destruct (a_all a); [|discriminate H]. cbn [andb] in H.
  destruct (existsb (is_direct w) (w_pkgs w)); [|discriminate H].
  destruct (fs_lookup (sum_path w) s) as [b|]; [|discriminate H].
  apply Bool.orb_false_iff in H. destruct H as [Hne Heq]. apply Bool.negb_false_iff, bytes_eqb_spec in Heq.
  repeat split. exists b. repeat split; [exact Heq|]. intros Hx. rewrite Hx in Hne. discriminate Hne.
Qed.

Section SumAgree.
  Variable E : env.
  Variable a : args.
  Variable w : world.
  Variable gens : list generator.

  Definition locf (p : pkginfo) : bytes * bool := (pk_path p, is_direct w p).

  Notation step := (pkg_step E a w gens).
  Notation ptrace := (pkg_trace E a w gens).
  Notation ffail := (first_fail E a w gens).
  Notation feffs := (fail_effects E a w gens).

  Lemma first_fail_in : forall prev ps x, ffail prev ps = Some x -> In x (map pk_path ps).
  Proof.
    intros prev ps x. induction ps as [|p r IH]; cbn [first_fail map]; intros H; [discriminate|].
    destruct (selected a w p && pkg_changed a w prev p && pkg_fails E a gens p).
    - inversion H. left. reflexivity.
    - right. apply IH. exact H.
  Qed.

  Lemma changed_same : forall ra prev p,
    SumCache.r_force ra = a_force a ->
    SumCache.pkg_changed SumCache.fixed_all ra prev (current_sum w) (pk_path p) = pkg_changed a w prev p.
  Proof.
    intros ra prev p Hf. unfold SumCache.pkg_changed, pkg_changed. rewrite Hf.
    destruct (a_force a); [reflexivity|]. destruct prev as [d|]; [|reflexivity].
    cbn [SumCache.fx_empty SumCache.fixed_all andb]. rewrite !sum_get_sum_sum. reflexivity.
  Qed.

  (* the package loop: context.go 108-116 read twice.  SumCache threads the tree, the pipeline collects effects; what a
     failing package had written before Execute returned is [feffs] (empty when no package fails). *)
  Definition loop_rel (t : fs) (L : fs * list SumCache.ev) (R : list effect * trace * outcome) : Prop :=
    snd (fst R) = flat_map ptrace (SumCache.executed (snd L))
    /\ SumCache.failed (snd L) = match snd R with Done => false | _ => true end
    /\ apply_all (fst (fst R)) t = apply_all (feffs (snd L)) (fst L).

  Lemma loop_agree : forall ps t prev ra,
    NoDup (map pk_path ps) -> (forall p, In p ps -> find_pkg w (pk_path p) = Some p) ->
    SumCache.r_all ra = a_all a -> SumCache.r_force ra = a_force a -> SumCache.r_fail ra = ffail prev ps ->
    loop_rel t (SumCache.pkg_loop fs step SumCache.fixed_all ra prev (current_sum w) (map locf ps) t)
             (run_pkgs E a w gens prev ps).
  Proof.
    induction ps as [|p r IH]; intros t prev ra Hnd Hfind Hall Hforce Hfail; [repeat split|].
    cbn [map] in Hnd. apply NoDup_cons_iff in Hnd. destruct Hnd as [Hnotin Hnd'].
    assert (Hfind' : forall q, In q r -> find_pkg w (pk_path q) = Some q) by (intros q Hq; apply Hfind; right; exact Hq).
    pose proof (Hfind p (or_introl eq_refl)) as Hp.
    cbn [first_fail] in Hfail. rewrite run_pkgs_cons. cbn [map]. unfold locf at 1.
    rewrite Gengo.Proofs.SumCache.pkg_loop_cons. unfold Gengo.Proofs.SumCache.in_scope. cbn [snd].
    rewrite Hall, (changed_same ra prev p Hforce). fold (selected a w p). cbv zeta.
    destruct (selected a w p); cbn [andb] in Hfail |- *; [|exact (IH t prev ra Hnd' Hfind' Hall Hforce Hfail)].
    destruct (pkg_changed a w prev p); cbn [andb] in Hfail |- *; [|exact (IH t prev ra Hnd' Hfind' Hall Hforce Hfail)].
    unfold pkg_fails in Hfail.
    replace (step t (pk_path p)) with (apply_all (fst (fst (pkg_effects E a gens p))) t) by (unfold pkg_step; rewrite Hp; reflexivity).
    assert (Htr : ptrace (pk_path p) = snd (fst (pkg_effects E a gens p))) by (unfold pkg_trace; rewrite Hp; reflexivity).
    destruct (snd (pkg_effects E a gens p)) eqn:Hout.
    (* it failed or died: Execute returns here *)
    2,3: rewrite Hfail; cbn [SumCache.opt_bytes_eqb]; rewrite bytes_eqb_refl; unfold loop_rel; cbn [fst snd fail_effects];
      rewrite Hp; split; [cbn; rewrite Htr, app_nil_r; reflexivity|]; split; reflexivity.
    (* the package succeeded: it is not the one SumCache is told fails *)
    assert (Hne : SumCache.opt_bytes_eqb (SumCache.r_fail ra) (pk_path p) = false).
    { rewrite Hfail. destruct (ffail prev r) as [x|] eqn:Hff; [|reflexivity]. apply Order.bytes_eqb_neq.
      intros ->. apply Hnotin. eapply first_fail_in. exact Hff. }
    rewrite Hne.
    destruct (IH (apply_all (fst (fst (pkg_effects E a gens p))) t) prev ra Hnd' Hfind' Hall Hforce Hfail) as [IH1 [IH2 IH3]].
    unfold loop_rel. cbn [fst snd].
    split; [cbn [SumCache.executed flat_map SumCache.ev_executed app]; rewrite Htr, IH1; reflexivity|].
    split; [exact IH2|]. rewrite apply_all_app. exact IH3.
  Qed.
End SumAgree.

Lemma failed_false_no_fail_effects : forall E a w gens evs,
  SumCache.failed evs = false -> fail_effects E a w gens evs = [].
Proof.
  intros E a w gens evs. unfold SumCache.failed. induction evs as [|e r IH]; cbn [existsb fail_effects]; [reflexivity|].
  destruct e; cbn [SumCache.ev_is_fail orb]; intros H; try (apply IH; exact H). discriminate H.
Qed.

Lemma existsb_locals : forall w ps, existsb snd (map (locf w) ps) = existsb (is_direct w) ps.
Proof. intros w ps. induction ps as [|p r IH]; cbn; [|rewrite IH]; reflexivity. Qed.

Section RunAgree.
  Variable E : env.
  Variable a : args.
  Variable w : world.
  Variable gens : list generator.
  (* the pipeline is run with the byte-level sum file of Model/SumFile.v (e.g. E = whole_env ...) *)
  Hypothesis Hload : e_sum_load E = SumFile.sumfile_load.
  Hypothesis Hbytes : e_sum_bytes E = SumFile.sumfile_bytes.

  (* SumCache's world: any directory contents, hash function and package lister ... *)
  Variable content : Type.
  Variable H : content -> option bytes.
  Variable dirc : fs -> option bytes -> bytes -> content.
  Variable locals : fs -> list bytes -> list (bytes * bool).
  Variable entry : list bytes.
  Variable s : fs.
  (* ... that are THE SAME DATA as the world the pipeline was given: the local packages with their direct flag,
     and for each of them the directory hash taken at load time ("" when the directory cannot be hashed) *)
  Hypothesis Hloc : locals s entry = world_locals w.
  Hypothesis Hhash : forall p, In p (w_pkgs w) ->
    SumCache.hash_of fs content H dirc SumCache.fixed_all (abs_state w s) (pk_path p) = pk_hash p.
  Hypothesis Hnd : NoDup (map pk_path (w_pkgs w)).
  Hypothesis Hfiles : files_ok w.

  Let ra := run_args E a w gens entry s.
  Let r := SumCache.run fs content H dirc (pkg_step E a w gens) locals SumCache.fixed_all ra (abs_state w s).

  Lemma cur_same : SumCache.current_sum fs content H dirc SumCache.fixed_all (abs_state w s) (world_locals w) = current_sum w.
  Proof.
    unfold SumCache.current_sum, world_locals, current_sum. rewrite map_map. apply map_ext_in.
    intros p Hp. cbn [fst]. rewrite (Hhash p Hp). reflexivity.
  Qed.

  Lemma prev_same : SumCache.previous_sum fs ra (abs_state w s) (world_locals w) = load_prev E a w s.
  Proof.
    unfold SumCache.previous_sum, load_prev. cbn [ra run_args SumCache.r_all abs_state SumCache.st_sum].
    unfold world_locals. rewrite (existsb_locals w). destruct (a_all a && existsb (is_direct w) (w_pkgs w)); [|reflexivity].
    unfold sum_state. destruct (fs_lookup (sum_path w) s); [rewrite Hload; reflexivity | reflexivity].
  Qed.

  Lemma sorted_same : SumFile.sort_by fst (world_locals w) = map (locf w) (sorted_pkgs w).
  Proof.
    unfold world_locals, sorted_pkgs. rewrite SumFile.sort_by_eq, sort_by_eq. apply (Order.sort_by_map pk_path). reflexivity.
  Qed.

  (* SumCache's "gengo.sum unreadable" does not arise: the error, if any, is a generator's *)
  Lemma run_err : snd (snd r) = if SumCache.failed (fst (snd r)) then SumCache.EGen else SumCache.ENone.
  Proof.
    unfold r. rewrite Gengo.Proofs.SumCache.run_eq. cbn [fst snd abs_state SumCache.st_sum].
    destruct (SumCache.failed _), (SumCache.r_all ra); try reflexivity. unfold sum_state. now destruct (fs_lookup (sum_path w) s).
  Qed.

  Lemma run_loop_agree :
    loop_rel E a w gens s (Gengo.Proofs.SumCache.run_loop fs content H dirc (pkg_step E a w gens) locals SumCache.fixed_all ra (abs_state w s))
             (run_all E a w gens s).
  Proof.
    unfold Gengo.Proofs.SumCache.run_loop, Gengo.Proofs.SumCache.run_loc.
    cbn [abs_state SumCache.st_tree ra run_args SumCache.r_entry]. fold ra. rewrite Hloc, cur_same, prev_same, sorted_same.
    apply loop_agree;
      [apply sort_by_NoDup_map; exact Hnd
      |intros p Hp; apply find_pkg_in; [exact Hnd | apply (sort_by_In pk_path); exact Hp]
      |reflexivity..].
  Qed.

  Theorem run_agree :
    exec_trace E a w gens s = flat_map (pkg_trace E a w gens) (SumCache.executed (fst (snd r)))
    /\ snd (snd r) <> SumCache.ESave
    /\ (snd (snd r) = SumCache.ENone <-> exec_outcome E a w gens s = Done)
    /\ (exec_outcome E a w gens s = Done -> fail_effects E a w gens (fst (snd r)) = [])
    /\ SumCache.st_sum (fst r) = sum_state w (exec_fs E a w gens s)
    /\ (forall q, q <> sum_path w ->
          fs_lookup q (exec_fs E a w gens s)
          = fs_lookup q (apply_all (fail_effects E a w gens (fst (snd r))) (SumCache.st_tree (fst r)))).
  Proof.
    destruct run_loop_agree as [Ht [Hf Hs]].
    rewrite <- Gengo.Proofs.SumCache.run_events in Ht, Hf, Hs. rewrite <- Gengo.Proofs.SumCache.run_tree in Hs.
    fold r in Ht, Hf, Hs.
    change (snd (fst (run_all E a w gens s))) with (exec_trace E a w gens s) in Ht.
    change (snd (run_all E a w gens s)) with (exec_outcome E a w gens s) in Hf.
    change (fst (fst (run_all E a w gens s))) with (pkgs_effects E a w gens s) in Hs.
    assert (Herr : snd (snd r) = match exec_outcome E a w gens s with Done => SumCache.ENone | _ => SumCache.EGen end).
    { rewrite run_err, Hf. destruct (exec_outcome E a w gens s); reflexivity. }
    split; [exact Ht|]. rewrite Herr.
    split; [destruct (exec_outcome E a w gens s); discriminate|].
    split; [destruct (exec_outcome E a w gens s); split; intros Hx; try reflexivity; discriminate Hx|].
    split; [intros Hd; apply failed_false_no_fail_effects; rewrite Hf, Hd; reflexivity|].
    split.
    - (* gengo.sum afterwards: both sides save the load-time hashes after a successful All run and nothing else *)
      unfold r at 1. rewrite Gengo.Proofs.SumCache.run_sum. fold r. rewrite Herr.
      unfold sum_state. rewrite (exec_sum E a w gens s Hfiles), Hbytes.
      unfold Gengo.Proofs.SumCache.run_loc.
      cbn [ra run_args SumCache.r_all SumCache.r_entry abs_state SumCache.st_tree SumCache.st_sum]. rewrite Hloc, cur_same.
      destruct (exec_outcome E a w gens s), (a_all a); reflexivity.
    - intros q Hq. rewrite exec_fs_not_sum by exact Hq. rewrite Hs. reflexivity.
  Qed.
End RunAgree.

(* The hypotheses of [run_agree] can be met: for every loaded world with distinct package paths this SumCache world is the same
   data (a package's directory is named by its path, the hash function answers what the loader recorded, None where it recorded "",
   the lister answers [world_locals w], by definition). *)
Section Canonical.
  Variable w : world.
  Definition can_H (path : bytes) : option bytes :=
    match find_pkg w path with
    | Some p => if is_nil (pk_hash p) then None else Some (pk_hash p)
    | None => None
    end.
  Definition can_dirc (_ : fs) (_ : option bytes) (path : bytes) : bytes := path.
  Definition can_locals (_ : fs) (_ : list bytes) : list (bytes * bool) := world_locals w.

  Lemma can_hash : NoDup (map pk_path (w_pkgs w)) -> forall s p, In p (w_pkgs w) ->
    SumCache.hash_of fs bytes can_H can_dirc SumCache.fixed_all (abs_state w s) (pk_path p) = pk_hash p.
  Proof.
    intros Hnd s p Hin. unfold SumCache.hash_of, can_dirc, can_H. rewrite (find_pkg_in w p Hnd Hin).
    destruct (pk_hash p); reflexivity.
  Qed.
End Canonical.

Lemma nogens_done : forall E a w prev ps, (forall p, e_order E p [] = []) -> snd (run_pkgs E a w [] prev ps) = Done.
Proof.
  intros E a w prev ps Ho. destruct (run_pkgs_outcome E a w [] prev ps) as [Hd|Hs]; [exact Hd|].
  apply Exists_exists in Hs. destruct Hs as (p & _ & _ & <-). unfold pkg_effects. cbn [gen_phase]. rewrite Ho. reflexivity.
Qed.

Definition run_agree_canonical (E : env) a w gens entry s
  (Hl : e_sum_load E = SumFile.sumfile_load) (Hb : e_sum_bytes E = SumFile.sumfile_bytes)
  (Hnd : NoDup (map pk_path (w_pkgs w))) (Hf : files_ok w) :=
  run_agree E a w gens Hl Hb bytes (can_H w) can_dirc (can_locals w) entry s eq_refl (can_hash w Hnd s) Hnd Hf.

(* C08's "skipped only if", OF Pipeline.exec.  A package the pipeline leaves alone as cached (selected, not processed): All, no
   Force, gengo.sum is a file and the hash it records for the package — read by the byte-level parser — is the package's
   load-time hash, which is not empty: [not_changed_inv], with the hash read off [current_sum]. *)
Theorem pipeline_skip_only_if : forall E a w s p,
  e_sum_load E = SumFile.sumfile_load ->
  NoDup (map pk_path (w_pkgs w)) ->
  In p (w_pkgs w) -> selected a w p = true -> processed E a w s p = false ->
  a_all a = true /\ a_force a = false /\
  exists b, fs_lookup (sum_path w) s = Some b
            /\ SumFile.sum_sum (SumFile.sumfile_load b) (pk_path p) = pk_hash p
            /\ pk_hash p <> [].
Proof.
  intros E a w s p Hload Hnd Hin Hsel Hproc. unfold processed in Hproc. rewrite Hsel in Hproc.
  destruct (not_changed_inv E a w s p Hproc) as [Hall [Hforce [b [Hb [Hrec Hne]]]]].
  unfold current_sum in Hrec, Hne. rewrite (sum_get_current (w_pkgs w) p Hnd Hin) in Hrec, Hne.
  rewrite Hload, sum_get_sum_sum in Hrec.
  exact (conj Hall (conj Hforce (ex_intro _ b (conj Hb (conj Hrec Hne))))).
Qed.
