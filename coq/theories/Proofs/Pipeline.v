(* Lemmas about the pipeline model: the file system, its loops one turn at a time, exec = apply_all . effects,
   where effects may land, and the frame.  The model's two sorts are instances of the insertion sort of
   Base/Order.v.
   Props/C02.v, C05.v, C07.v and Whole.v are stated with notions DEFINED here: [processed] (the package is selected and
   its hash is not the recorded one), [in_pkg_output] and [own_output] (the paths a run may touch), [pkgs_effects] (the
   effects of the loop over the packages). *)
Require Import Gengo.Base.Bytes Gengo.Base.Order Gengo.Model.Pipeline.
Require Gengo.Base.Assoc.

Lemma path_eqb_spec : forall a b : path, path_eqb a b = true <-> a = b.
Proof.
  intros [a1 a2] [b1 b2]. unfold path_eqb. cbn [fst snd]. rewrite andb_true_iff, !bytes_eqb_spec.
  split; [intros [-> ->]; reflexivity | intros H; inversion H; auto].
Qed.

Lemma path_eqb_refl : forall a, path_eqb a a = true.
Proof. intros a. now apply path_eqb_spec. Qed.

Lemma path_eqb_neq : forall a b : path, path_eqb a b = false <-> a <> b.
Proof. intros a b. rewrite <- path_eqb_spec. destruct (path_eqb a b); split; congruence. Qed.

Lemma prefixb_app : forall p s, prefixb p (p ++ s) = true.
Proof. exact Assoc.has_prefix_app. Qed.

(* [sum_get], the stored key first in the test and [[]] for a missing key, is Base/Assoc.v's [get] *)
Lemma sum_get_eq : forall m k,
  sum_get m k = match Assoc.get (fun a b => bytes_eqb b a) k m with Some v => v | None => [] end.
Proof. intros m k. induction m as [|[k' v] r IH]; cbn; [reflexivity|]. rewrite IH. now destruct (bytes_eqb k' k). Qed.

Lemma mem_bytes_In : forall x l, mem_bytes x l = true <-> In x l.
Proof. exact existsb_bytes_eqb_in. Qed.

Lemma sort_by_eq {A} (key : A -> bytes) (l : list A) : sort_by key l = Order.sort_by key bytes_leb l.
Proof. revert l. apply (sort_by_unfold key bytes_leb (insert_by key)); intros; destruct l; reflexivity. Qed.

Lemma insert_by_eq {A} (key : A -> bytes) x l : insert_by key x l = Order.insert_by key bytes_leb x l.
Proof. induction l as [|y r IH]; cbn; [reflexivity|]. now rewrite IH. Qed.

Lemma insert_by_perm {A} (key : A -> bytes) (x : A) (l : list A) : Permutation (insert_by key x l) (x :: l).
Proof. rewrite insert_by_eq. symmetry. apply Order.insert_by_perm. Qed.

Lemma sort_by_perm {A} (key : A -> bytes) (l : list A) : Permutation (sort_by key l) l.
Proof. rewrite sort_by_eq. symmetry. apply Order.sort_by_perm. Qed.

Lemma sort_by_In {A} (key : A -> bytes) (l : list A) (x : A) : In x (sort_by key l) <-> In x l.
Proof. rewrite sort_by_eq. apply Order.sort_by_In. Qed.

Lemma sort_by_NoDup_map {A B} (key : A -> bytes) (f : A -> B) (l : list A) :
  NoDup (map f l) -> NoDup (map f (sort_by key l)).
Proof. rewrite sort_by_eq. apply Order.sort_by_NoDup_map. Qed.

Lemma rank_sort_eq : forall rk l, rank_sort rk l = Order.sort_by rk Nat.leb l.
Proof. intros rk. apply (sort_by_unfold rk Nat.leb (insert_rank rk)); intros; destruct l; reflexivity. Qed.

Lemma insert_rank_eq : forall rk x l, insert_rank rk x l = Order.insert_by rk Nat.leb x l.
Proof. intros rk x l. induction l as [|y r IH]; cbn; [reflexivity|]. now rewrite IH. Qed.

Lemma insert_rank_perm : forall rk x l, Permutation (insert_rank rk x l) (x :: l).
Proof. intros rk x l. rewrite insert_rank_eq. symmetry. apply Order.insert_by_perm. Qed.

Lemma rank_sort_In : forall rk l x, In x (rank_sort rk l) <-> In x l.
Proof. intros rk l x. rewrite rank_sort_eq. apply Order.sort_by_In. Qed.

Lemma mem_rank_sort : forall rk l x, mem_bytes x (rank_sort rk l) = mem_bytes x l.
Proof. intros rk l x. apply eq_true_iff_eq. rewrite !mem_bytes_In. apply rank_sort_In. Qed.

Lemma lookup_del_same : forall p s, fs_lookup p (fs_del p s) = None.
Proof.
  intros p s. induction s as [|[q b] r IH]; cbn; [reflexivity|].
  destruct (path_eqb q p) eqn:Hq; cbn; [exact IH|]. rewrite Hq. exact IH.
Qed.

Lemma lookup_del_other : forall p q s, q <> p -> fs_lookup q (fs_del p s) = fs_lookup q s.
Proof.
  intros p q s Hne. induction s as [|[x b] r IH]; cbn; [reflexivity|].
  destruct (path_eqb x p) eqn:Hx; cbn.
  - apply path_eqb_spec in Hx. subst x.
    assert (Hpq : path_eqb p q = false) by (apply path_eqb_neq; congruence).
    rewrite Hpq. exact IH.
  - destruct (path_eqb x q); [reflexivity | exact IH].
Qed.

Lemma lookup_set_same : forall p b s, fs_lookup p (fs_set p b s) = Some b.
Proof. intros p b s. unfold fs_set. cbn. rewrite path_eqb_refl. reflexivity. Qed.

Lemma lookup_set_other : forall p q b s, q <> p -> fs_lookup q (fs_set p b s) = fs_lookup q s.
Proof.
  intros p q b s Hne. unfold fs_set. cbn.
  assert (Hpq : path_eqb p q = false) by (apply path_eqb_neq; congruence).
  rewrite Hpq. apply lookup_del_other. exact Hne.
Qed.

Lemma apply_effect_other : forall e q s, effect_path e <> q -> fs_lookup q (apply_effect e s) = fs_lookup q s.
Proof.
  intros e q s Hne. destruct e as [p b|p|p|p b]; cbn [effect_path apply_effect] in *;
    first [apply lookup_set_other | apply lookup_del_other]; congruence.
Qed.

Lemma apply_all_cons : forall e r s, apply_all (e :: r) s = apply_all r (apply_effect e s).
Proof. reflexivity. Qed.

Lemma apply_all_app : forall e1 e2 s, apply_all (e1 ++ e2) s = apply_all e2 (apply_all e1 s).
Proof. intros. unfold apply_all. apply fold_left_app. Qed.

Lemma apply_all_other : forall effs q s,
  (forall e, In e effs -> effect_path e <> q) -> fs_lookup q (apply_all effs s) = fs_lookup q s.
Proof.
  induction effs as [|e r IH]; intros q s H; cbn; [reflexivity|].
  rewrite IH by (intros e' He'; apply H; right; exact He').
  apply apply_effect_other. apply H. left. reflexivity.
Qed.

Lemma apply_effect_congr : forall e q s1 s2,
  fs_lookup q s1 = fs_lookup q s2 -> fs_lookup q (apply_effect e s1) = fs_lookup q (apply_effect e s2).
Proof.
  intros e q s1 s2 H.
  destruct (path_eqb (effect_path e) q) eqn:Hq.
  - apply path_eqb_spec in Hq. subst q.
    destruct e as [p b|p|p|p b]; cbn [effect_path apply_effect] in *;
      rewrite ?lookup_set_same, ?lookup_del_same, ?H; reflexivity.
  - apply path_eqb_neq in Hq. rewrite !apply_effect_other by exact Hq. exact H.
Qed.

Lemma apply_all_congr : forall effs q s1 s2,
  fs_lookup q s1 = fs_lookup q s2 -> fs_lookup q (apply_all effs s1) = fs_lookup q (apply_all effs s2).
Proof.
  induction effs as [|e r IH]; intros q s1 s2 H; cbn; [exact H|].
  apply IH. apply apply_effect_congr. exact H.
Qed.

Lemma fname_prefix : forall a n, prefixb (out_prefix a) (fname a n) = true.
Proof.
  intros a n. unfold out_prefix, fname. rewrite app_assoc. apply prefixb_app.
Qed.

Lemma fname_inj : forall a n1 n2, fname a n1 = fname a n2 -> n1 = n2.
Proof.
  intros a n1 n2 H. unfold fname in H.
  apply app_inv_head in H. apply app_inv_head in H. apply app_inv_tail in H. exact H.
Qed.

Lemma fname_ne_sum : forall a n, fname a n <> sum_name.
Proof.
  intros a n H. unfold fname in H.
  change (bs ".go") with (bs ".g" ++ ["o"%char]) in H. change sum_name with (bs "gengo.su" ++ ["m"%char]) in H.
  rewrite !app_assoc in H. apply app_inj_tail in H. destruct H as [_ H]. discriminate H.
Qed.

Lemma gen_file_inj : forall a p n1 n2, gen_file a p n1 = gen_file a p n2 -> n1 = n2.
Proof. intros a p n1 n2 H. unfold gen_file in H. inversion H as [H1]. eapply fname_inj; exact H1. Qed.

Lemma strike_In : forall f l x, In x (strike f l) <-> In x l /\ x <> f.
Proof.
  intros f l x. apply (iff_trans (filter_In _ x l)), and_iff_compat_l, (iff_trans (negb_true_iff _)), bytes_eqb_neq.
Qed.

Lemma write_effects_path {f out e} : In e (write_effects f out) -> effect_path e = f.
Proof. intros [H|[H|[]]]; subst e; reflexivity. Qed.

Section WithEnv.
Variable E : env.

(* The model's loops bind the triples they return by pattern, which every proof about them would have to take apart
   again.  Each loop, and pkg_effects, is therefore given once as an equation over the components of its results;
   proofs that compute with a loop rewrite with these.  For the write loop, which threads the removal set, facts that
   hold turn by turn go by induction on the loop's graph ([wrote]), which the equation shows the loop to satisfy. *)
Lemma gen_phase_cons : forall g r p,
  gen_phase E (g :: r) p
  = let o := gen_run E g p in
    let R := gen_phase E r p in
    match go_out o with
    | Done => (if is_zero o then fst (fst R) else (g_name g, go_body o) :: fst (fst R), go_trace o ++ snd (fst R), snd R)
    | bad => ([], go_trace o, bad)
    end.
Proof.
  intros g r p. cbn [gen_phase]. destruct (go_out (gen_run E g p)); try reflexivity.
  destruct (gen_phase E r p) as [[gfs tr] out]. reflexivity.
Qed.

Lemma run_pkgs_cons : forall a w gens prev p r,
  run_pkgs E a w gens prev (p :: r)
  = let R := run_pkgs E a w gens prev r in
    if selected a w p && pkg_changed a w prev p then
      let X := pkg_effects E a gens p in
      match snd X with
      | Done => (fst (fst X) ++ fst (fst R), snd (fst X) ++ snd (fst R), snd R)
      | bad => (fst (fst X), snd (fst X), bad)
      end
    else R.
Proof.
  intros a w gens prev p r. cbn [run_pkgs]. unfold pkg_execute. destruct (selected a w p); [|reflexivity].
  destruct (pkg_changed a w prev p); cbn [andb].
  - destruct (pkg_effects E a gens p) as [[e1 t1] []]; try reflexivity.
    destruct (run_pkgs E a w gens prev r) as [[e2 t2] o2]. reflexivity.
  - destruct (run_pkgs E a w gens prev r) as [[e2 t2] o2]. reflexivity.
Qed.

Lemma write_loop_cons : forall a p n body r rem,
  write_loop E a p ((n, body) :: r) rem
  = let W := write_loop E a p r (strike (fname a n) rem) in
    if is_nil body then W
    else match e_fmt E (assemble (pk_name p) n body) with
         | None => ([], rem, Some (EParse (gen_file a p n)))
         | Some out => (write_effects (gen_file a p n) out ++ fst (fst W), snd (fst W), snd W)
         end.
Proof.
  intros a p n body r rem. cbn [write_loop]. destruct (is_nil body); [reflexivity|].
  destruct (e_fmt E (assemble (pk_name p) n body)); [|reflexivity].
  destruct (write_loop E a p r (strike (fname a n) rem)) as [[effs rem'] e]. reflexivity.
Qed.

Lemma pkg_effects_eq : forall a gens p,
  pkg_effects E a gens p
  = let R := gen_phase E gens p in
    match snd R with
    | Done =>
        let W := write_loop E a p (e_order E p (fst (fst R))) (generated_files a p) in
        match snd W with
        | Some x => (fst (fst W), snd (fst R), Failed x)
        | None => (fst (fst W) ++ map (fun f => ERemove (pk_dir p, f)) (removal_order E p (snd (fst W))), snd (fst R), Done)
        end
    | bad => ([], snd (fst R), bad)
    end.
Proof.
  intros a gens p. unfold pkg_effects. destruct (gen_phase E gens p) as [[gfs tr] []]; try reflexivity. cbn [fst snd].
  destruct (write_loop E a p (e_order E p gfs) (generated_files a p)) as [[effs rem] []]; reflexivity.
Qed.

Section Loops.
  Variables (g : generator) (p : pkginfo).

  Lemma call_loop_skip : forall st t r,
    should_call E g p t = false -> call_loop E g p st (t :: r) = call_loop E g p st r.
  Proof. intros st t r H. cbn [call_loop]. rewrite H. reflexivity. Qed.

  Lemma call_loop_stop : forall st t r st' b res ds,
    should_call E g p t = true -> g_type g st p t = (st', Build_step_out b res ds) ->
    ro_out (call_loop E g p st (t :: r)) =
      match res with
      | RErr => Failed (EGen (g_name g) (pk_path p))
      | RDie => Died
      | _ => ro_out (call_loop E g p st' r)
      end.
  Proof. intros st t r st' b res ds Hs Hg. cbn [call_loop]. rewrite Hs, Hg. destruct res; reflexivity. Qed.

  (* a run of doGenerate that returned without signalling ErrIgnore: what Execute reads of it *)
  Definition returned (c : run_out (g_state g)) (st : g_state g) (body : bytes) (defers : list nat) : Prop :=
    ro_out c = Done /\ ro_state c = st /\ ro_body c = body /\ ro_ignore c = false /\
    ro_defers c = defers.

  Lemma returned_cons : forall st t r st' b res ds stF body defers,
    should_call E g p t = true -> g_type g st p t = (st', Build_step_out b res ds) ->
    res = RNil \/ res = RSkip ->
    returned (call_loop E g p st' r) stF body defers ->
    returned (call_loop E g p st (t :: r)) stF (b ++ body) (ds ++ defers).
  Proof.
    intros st t r st' b res ds stF body defers Hs Hg Hr [H1 [H2 [H3 [H4 H5]]]].
    (* unfold and rewrite in one copy of the loop: the goal holds five *)
    remember (call_loop E g p st (t :: r)) as c eqn:Hc. cbn [call_loop] in Hc. rewrite Hs, Hg in Hc.
    destruct Hr as [-> | ->]; subst c; cbn; rewrite H3, H5; repeat split; assumption.
  Qed.

  Notation calls := (call_loop E g p (g_new g p) (sort_by ty_name (pk_types p))).

  Lemma gen_run_returned : forall st body ds, returned calls st body ds ->
    let d := defer_loop (g_fuel g) g p st ds in
    go_out (gen_run E g p) = ro_out d /\ go_body (gen_run E g p) = body ++ ro_body d /\ go_ignore (gen_run E g p) = false.
  Proof. intros st body ds [H1 [<- [<- [<- <-]]]]. unfold gen_run. rewrite H1. repeat split. Qed.

  Lemma gen_run_quiet : forall st body, returned calls st body [] ->
    go_out (gen_run E g p) = Done /\ go_body (gen_run E g p) = body /\ go_ignore (gen_run E g p) = false.
  Proof.
    intros st body H. destruct (gen_run_returned _ _ _ H) as [G1 [G2 G3]].
    rewrite G1, G2, G3. destruct (g_fuel g); cbn [defer_loop ro_out ro_body]; rewrite app_nil_r; repeat split.
  Qed.

  Lemma gen_run_stopped : forall o, ro_out calls = o -> o <> Done -> go_out (gen_run E g p) = o.
  Proof. intros o <- H. unfold gen_run. destruct (ro_out calls); [contradiction|reflexivity|reflexivity]. Qed.
End Loops.

Inductive wrote (a : args) (p : pkginfo)
  : list (bytes * bytes) -> list bytes -> list effect -> list bytes -> option err -> Prop :=
| wrote_nil : forall rem, wrote a p [] rem [] rem None
| wrote_skip : forall n r rem effs rem' e,
    wrote a p r (strike (fname a n) rem) effs rem' e -> wrote a p ((n, []) :: r) rem effs rem' e
| wrote_file : forall n body out r rem effs rem' e,
    body <> [] -> e_fmt E (assemble (pk_name p) n body) = Some out ->
    wrote a p r (strike (fname a n) rem) effs rem' e ->
    wrote a p ((n, body) :: r) rem (write_effects (gen_file a p n) out ++ effs) rem' e
| wrote_bad : forall n body r rem,
    body <> [] -> e_fmt E (assemble (pk_name p) n body) = None ->
    wrote a p ((n, body) :: r) rem [] rem (Some (EParse (gen_file a p n))).

Lemma write_loop_wrote : forall a p gfs rem,
  wrote a p gfs rem (fst (fst (write_loop E a p gfs rem))) (snd (fst (write_loop E a p gfs rem)))
    (snd (write_loop E a p gfs rem)).
Proof.
  intros a p gfs. induction gfs as [|[n body] r IH]; intros rem; [constructor|]. rewrite write_loop_cons. cbv zeta.
  specialize (IH (strike (fname a n) rem)).
  destruct body as [|c body']; [constructor; exact IH|]. cbn [is_nil].
  destruct (e_fmt E (assemble (pk_name p) n (c :: body'))) as [out|] eqn:Hf.
  - apply wrote_file; [discriminate | exact Hf | exact IH].
  - apply wrote_bad; [discriminate | exact Hf].
Qed.

Lemma apply_write_effects : forall f out s, apply_all (write_effects f out) s = write_file_fs f out s.
Proof.
  intros f out s. unfold write_effects, write_file_fs, apply_all. cbn [fold_left apply_effect].
  rewrite lookup_set_same. reflexivity.
Qed.

Lemma wrote_fs {a p gfs rem effs rem' e} :
  wrote a p gfs rem effs rem' e -> forall s, write_loop_fs E a p gfs rem s = (apply_all effs s, rem', e).
Proof.
  induction 1 as [rem|n r rem effs rem' e _ IH|n body out r rem effs rem' e Hb Hf _ IH|n body r rem Hb Hf];
    intros s; cbn [write_loop_fs].
  - reflexivity.
  - apply IH.
  - destruct body; [contradiction|]. cbn [is_nil]. rewrite Hf, IH, apply_all_app, apply_write_effects. reflexivity.
  - destruct body; [contradiction|]. cbn [is_nil]. rewrite Hf. reflexivity.
Qed.

Lemma remove_all_fs_eq : forall d names s,
  remove_all_fs d names s = apply_all (map (fun f => ERemove (d, f)) names) s.
Proof.
  intros d names. induction names as [|f r IH]; intros s; cbn; [reflexivity|]. apply IH.
Qed.

Lemma pkg_execute_fs_eq : forall a w gens prev p s,
  pkg_execute_fs E a w gens prev p s =
  (apply_all (fst (fst (pkg_execute E a w gens prev p))) s,
   snd (fst (pkg_execute E a w gens prev p)), snd (pkg_execute E a w gens prev p)).
Proof.
  intros a w gens prev p s. unfold pkg_execute_fs, pkg_execute, pkg_effects.
  destruct (pkg_changed a w prev p); [|reflexivity].
  destruct (gen_phase E gens p) as [[gfs tr] out].
  destruct out; try reflexivity.
  rewrite (wrote_fs (write_loop_wrote a p (e_order E p gfs) (generated_files a p))).
  destruct (write_loop E a p (e_order E p gfs) (generated_files a p)) as [[effs rem] e]. cbn [fst snd].
  destruct e; [reflexivity|]. cbn [fst snd]. rewrite apply_all_app, remove_all_fs_eq. reflexivity.
Qed.

Lemma run_pkgs_fs_eq : forall a w gens prev ps s,
  run_pkgs_fs E a w gens prev ps s =
  (apply_all (fst (fst (run_pkgs E a w gens prev ps))) s,
   snd (fst (run_pkgs E a w gens prev ps)), snd (run_pkgs E a w gens prev ps)).
Proof.
  intros a w gens prev ps. induction ps as [|p r IH]; intros s; cbn [run_pkgs run_pkgs_fs]; [reflexivity|].
  destruct (selected a w p); [|apply IH]. rewrite pkg_execute_fs_eq.
  destruct (pkg_execute E a w gens prev p) as [[e1 t1] []]; try reflexivity.
  rewrite IH. destruct (run_pkgs E a w gens prev r) as [[e2 t2] o2]. cbn [fst snd]. rewrite apply_all_app. reflexivity.
Qed.

Theorem exec_eq : forall a w gens s,
  exec E a w gens s = (apply_all (effects E a w gens s) s, exec_trace E a w gens s, exec_outcome E a w gens s).
Proof.
  intros a w gens s. unfold exec, effects, exec_trace, exec_outcome, run_all.
  rewrite run_pkgs_fs_eq.
  destruct (run_pkgs E a w gens (load_prev E a w s) (sorted_pkgs w)) as [[effs tr] out]. cbn [fst snd].
  destruct out; try reflexivity.
  destruct (a_all a); [|reflexivity].
  rewrite apply_all_app.
  change (save_effects E w) with (write_effects (sum_path w) (e_sum_bytes E (current_sum w))).
  rewrite apply_write_effects. reflexivity.
Qed.

Lemma exec_fs_eq : forall a w gens s, exec_fs E a w gens s = apply_all (effects E a w gens s) s.
Proof. intros. unfold exec_fs. rewrite exec_eq. reflexivity. Qed.

Lemma wrote_paths {a p gfs rem effs rem' err} :
  wrote a p gfs rem effs rem' err ->
  forall e, In e effs -> exists n body, In (n, body) gfs /\ body <> [] /\ effect_path e = gen_file a p n.
Proof.
  induction 1 as [rem|n r rem effs rem' err _ IH|n body out r rem effs rem' err Hb Hf _ IH|n body r rem Hb Hf];
    intros e He; try contradiction.
  - destruct (IH e He) as (n' & body' & Hin & Hrest). exists n', body'. split; [right; exact Hin | exact Hrest].
  - apply in_app_or in He. destruct He as [He|He].
    + exists n, body. split; [left; reflexivity|]. split; [exact Hb | exact (write_effects_path He)].
    + destruct (IH e He) as (n' & body' & Hin & Hrest). exists n', body'. split; [right; exact Hin | exact Hrest].
Qed.

Lemma wrote_rem {a p gfs rem effs rem' err} :
  wrote a p gfs rem effs rem' err -> forall f, In f rem' -> In f rem.
Proof.
  induction 1 as [rem|n r rem effs rem' err _ IH|n body out r rem effs rem' err Hb Hf _ IH|n body r rem Hb Hf];
    intros f Hin; try exact Hin; apply IH, strike_In in Hin; exact (proj1 Hin).
Qed.

Definition in_pkg_output (a : args) (p : pkginfo) (q : path) : Prop :=
  fst q = pk_dir p /\ prefixb (out_prefix a) (snd q) = true.

(* where an effect of package p may be: at <its dir>/<base>.<something>, and either at the file of one of the
   generators or at one of the package's own Go files *)
Definition pkg_target (a : args) (p : pkginfo) (q : path) : Prop :=
  in_pkg_output a p q /\ ((exists n, q = gen_file a p n) \/ In (snd q) (pk_files p)).

Lemma pkg_effects_paths : forall a gens p e,
  In e (fst (fst (pkg_effects E a gens p))) -> pkg_target a p (effect_path e).
Proof.
  intros a gens p e H. unfold pkg_effects in H.
  destruct (gen_phase E gens p) as [[gfs tr] out]. destruct out; try contradiction.
  pose proof (write_loop_wrote a p (e_order E p gfs) (generated_files a p)) as Hw.
  destruct (write_loop E a p (e_order E p gfs) (generated_files a p)) as [[effs rem] err]. cbn [fst snd] in Hw.
  assert (H' : In e effs \/ In e (map (fun f => ERemove (pk_dir p, f)) (removal_order E p rem))).
  { destruct err; cbn [fst] in H; [left; exact H | apply in_app_or; exact H]. }
  destruct H' as [H'|H'].
  - destruct (wrote_paths Hw e H') as (n & _ & _ & _ & ->). split; [|left; exists n; reflexivity].
    split; [reflexivity | apply fname_prefix].
  - apply in_map_iff in H'. destruct H' as [f [<- Hin]].
    apply rank_sort_In, (wrote_rem Hw), filter_In in Hin. destruct Hin as [Hf Hpre].
    split; [split; [reflexivity | exact Hpre] | right; exact Hf].
Qed.

Lemma pkg_execute_paths : forall a w gens prev p e,
  In e (fst (fst (pkg_execute E a w gens prev p))) ->
  pkg_changed a w prev p = true /\ pkg_target a p (effect_path e).
Proof.
  intros a w gens prev p e H. unfold pkg_execute in H.
  destruct (pkg_changed a w prev p); [|contradiction].
  split; [reflexivity | apply pkg_effects_paths with (gens := gens); exact H].
Qed.

Lemma run_pkgs_In : forall a w gens prev ps e,
  In e (fst (fst (run_pkgs E a w gens prev ps))) ->
  Exists (fun p => selected a w p && pkg_changed a w prev p = true /\ In e (fst (fst (pkg_effects E a gens p)))) ps.
Proof.
  intros a w gens prev ps e. induction ps as [|p r IH]; intros H; [contradiction|].
  rewrite run_pkgs_cons in H. cbv zeta in H.
  destruct (selected a w p && pkg_changed a w prev p) eqn:Hpr; [|exact (Exists_cons_tl p (IH H))].
  (* an effect of the rest of the loop, or one of p *)
  destruct (snd (pkg_effects E a gens p)); [apply in_app_or in H; destruct H as [H|H]|..];
    first [exact (Exists_cons_tl p (IH H)) | apply Exists_cons_hd; split; [exact Hpr | exact H]].
Qed.

Lemma run_pkgs_outcome : forall a w gens prev ps,
  snd (run_pkgs E a w gens prev ps) = Done \/
  Exists (fun p => selected a w p && pkg_changed a w prev p = true /\
                   snd (pkg_effects E a gens p) = snd (run_pkgs E a w gens prev ps)) ps.
Proof.
  intros a w gens prev ps. induction ps as [|p r IH]; [left; reflexivity|].
  rewrite run_pkgs_cons. cbv zeta.
  destruct (selected a w p && pkg_changed a w prev p) eqn:Hpr; [destruct (snd (pkg_effects E a gens p)) eqn:Hp|];
    (* p stops the loop, or the rest of the loop decides *)
    first [right; apply Exists_cons_hd; split; [exact Hpr | exact Hp]
          | destruct IH as [IH|IH]; [left; exact IH | right; exact (Exists_cons_tl p IH)]].
Qed.

Definition processed (a : args) (w : world) (s : fs) (p : pkginfo) : bool :=
  selected a w p && pkg_changed a w (load_prev E a w s) p.

Definition own_output (a : args) (w : world) (s : fs) (q : path) : Prop :=
  (exists p, In p (w_pkgs w) /\ processed a w s p = true /\ in_pkg_output a p q)
  \/ (a_all a = true /\ q = sum_path w).

Definition pkgs_effects (a : args) (w : world) (gens : list generator) (s : fs) : list effect :=
  fst (fst (run_all E a w gens s)).

Lemma effects_split : forall a w gens s,
  effects E a w gens s =
  pkgs_effects a w gens s ++
  (match exec_outcome E a w gens s with Done => if a_all a then save_effects E w else [] | _ => [] end).
Proof.
  intros a w gens s. unfold effects, pkgs_effects, exec_outcome.
  destruct (run_all E a w gens s) as [[effs tr] out]. cbn [fst snd].
  destruct out; try (rewrite app_nil_r; reflexivity).
  destruct (a_all a); [reflexivity | rewrite app_nil_r; reflexivity].
Qed.

Lemma pkgs_effects_paths {a w gens s e} :
  In e (pkgs_effects a w gens s) ->
  exists p, In p (w_pkgs w) /\ processed a w s p = true /\ pkg_target a p (effect_path e).
Proof.
  intros H. apply run_pkgs_In, Exists_exists in H. destruct H as (p & Hin & Hpr & He).
  exists p. split; [apply (sort_by_In pk_path); exact Hin|].
  split; [exact Hpr | exact (pkg_effects_paths _ _ _ _ He)].
Qed.

Lemma effects_paths_own : forall a w gens s e,
  In e (effects E a w gens s) -> own_output a w s (effect_path e).
Proof.
  intros a w gens s e H. rewrite effects_split in H. apply in_app_or in H. destruct H as [H|H].
  - destruct (pkgs_effects_paths H) as (p & Hin & Hpr & Ho & _). left. exists p. auto.
  - destruct (exec_outcome E a w gens s); try contradiction.
    destruct (a_all a) eqn:Hall; [|contradiction].
    right. split; [exact Hall | exact (write_effects_path H)].
Qed.

(* every path that is not gengo's own output is unchanged: after the run (whatever its outcome) and
   after every prefix of its effects (a process that dies part-way) *)
Theorem frame_prefix : forall a w gens s q k,
  ~ own_output a w s q ->
  fs_lookup q (apply_all (firstn k (effects E a w gens s)) s) = fs_lookup q s.
Proof.
  intros a w gens s q k Hq. apply apply_all_other. intros e He Heq.
  apply firstn_In in He. apply Hq. rewrite <- Heq. apply effects_paths_own with (gens := gens). exact He.
Qed.

Theorem frame : forall a w gens s q,
  ~ own_output a w s q -> fs_lookup q (exec_fs E a w gens s) = fs_lookup q s.
Proof.
  intros a w gens s q Hq. rewrite exec_fs_eq.
  rewrite <- (firstn_all (effects E a w gens s)). apply frame_prefix. exact Hq.
Qed.

End WithEnv.
Arguments call_loop_skip {E g p st t r}.
Arguments call_loop_stop {E g p st t r st' b res ds}.
Arguments returned_cons {E g p st t r st' b res ds stF body defers}.
