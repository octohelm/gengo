(* C07_exists_iff on a run where every case of the equivalence occurs (non-vacuity): one processed package with five
   generators and previous files, one package skipped through gengo.sum, user files.  Closed computation, plus the
   theorem applied to each generator with every hypothesis discharged. *)
Require Import Gengo.Base.Bytes Gengo.Model.Pipeline Gengo.Proofs.Pipeline Gengo.Proofs.PipelinePkg
  Gengo.Proofs.PipelineC07 Gengo.Proofs.PipelineWitness Gengo.Corr.Pipe.
From Coq Require Import Permutation.

(* package m/a: type T tagged for the generators g1, old, keep, ign; alias U tagged for the AliasGenerator keepal.
   Its compiled Go files at load time: a.go (the user's) and the previous outputs of g1, old, keep and keepal. *)
Definition we_a : pkginfo :=
  mk_pkg (bs "m/a") (bs "a") (bs "a")
    [bs "a.go"; bs "zz_generated.g1.go"; bs "zz_generated.old.go"; bs "zz_generated.keep.go"; bs "zz_generated.keepal.go"]
    [mk_ty (bs "T") KNamed (tag "g1" ++ tag "old" ++ tag "keep" ++ tag "ign"); mk_ty (bs "U") KAlias (tag "keepal")]
    (bs "h1:a").
(* package m/b: recorded in gengo.sum with its current hash: skipped *)
Definition we_b : pkginfo :=
  mk_pkg (bs "m/b") (bs "b") (bs "b") [bs "b.go"; bs "zz_generated.g1.go"] [mk_ty (bs "T") KNamed (tag "g1")] (bs "h1:b").
Definition we_world : world := mk_world [we_b; we_a] [bs "m/a"; bs "m/b"].
Definition we_args : args := {| a_all := true; a_force := false; a_base := bs "zz_generated" |}.

Definition we_gens : list generator :=
  [ (* renders: its file is (re)written *)
    script_gen (mk_sgen (bs "g1") false [((bs "m/a", bs "T"), mk_step (bs "var V = 1") RNil false false []);
                                         ((bs "m/b", bs "T"), mk_step (bs "var W = 1") RNil false false [])]);
    (* is called, renders nothing, no ErrIgnore: its previous file is STALE and is removed *)
    script_gen (mk_sgen (bs "old") false [((bs "m/a", bs "T"), mk_step [] RNil false false [])]);
    (* signals ErrIgnore and renders nothing, has a previous file: kept *)
    script_gen (mk_sgen (bs "keep") false [((bs "m/a", bs "T"), mk_step [] RIgnore false false [])]);
    (* signals ErrIgnore and renders nothing, has NO previous file: none appears *)
    script_gen (mk_sgen (bs "ign") false [((bs "m/a", bs "T"), mk_step [] RIgnore false false [])]);
    (* the same from GenerateAliasType (the case repaired by fix #26) *)
    script_gen (mk_sgen (bs "keepal") true [((bs "m/a", bs "U"), mk_step [] RIgnore false false [])]) ].

Definition we_fs : fs :=
  [((bs "a", bs "a.go"), bs "package a"); ((bs "a", bs "notes.txt"), bs "mine");
   ((bs "a", bs "zz_generated.g1.go"), bs "old a g1"); ((bs "a", bs "zz_generated.old.go"), bs "old a old");
   ((bs "a", bs "zz_generated.keep.go"), bs "old a keep"); ((bs "a", bs "zz_generated.keepal.go"), bs "old a keepal");
   ((bs "b", bs "b.go"), bs "package b"); ((bs "b", bs "zz_generated.g1.go"), bs "old b g1");
   ((bs "", bs "README.md"), bs "R");
   ((bs "", bs "gengo.sum"), bs "m/a h1:old" ++ nl ++ bs "m/b h1:b" ++ nl)].

Definition we_E : env := wit_env true.
Definition we_after : fs := exec_fs we_E we_args we_world we_gens we_fs.

Lemma we_names : NoDup (map g_name we_gens).
Proof. cbn. nodup. Qed.

Lemma we_world_ok : world_ok we_world.
Proof. split; cbn; nodup. Qed.

(* the side condition of C07_exists_iff, decided: a file at g's path before the run is one of p.Files() *)
Lemma listed_b : forall (a : args) (p : pkginfo) (g : generator) (s : fs),
  negb (is_some (fs_lookup (gen_file a p (g_name g)) s)) || mem_bytes (fname a (g_name g)) (pk_files p) = true ->
  fs_lookup (gen_file a p (g_name g)) s <> None -> In (fname a (g_name g)) (pk_files p).
Proof.
  intros a p g s H Hne. destruct (fs_lookup (gen_file a p (g_name g)) s); [|now contradiction Hne].
  now apply mem_bytes_In.
Qed.

(* the hypotheses of C07_exists_iff hold for package m/a and each of the five generators *)
Lemma we_hypotheses :
  e_fixed we_E = true /\ order_ok we_E /\ NoDup (map g_name we_gens) /\ world_ok we_world
  /\ exec_outcome we_E we_args we_world we_gens we_fs = Done
  /\ In we_a (w_pkgs we_world) /\ processed we_E we_args we_world we_fs we_a = true
  /\ processed we_E we_args we_world we_fs we_b = false
  /\ Forall (fun g => fs_lookup (gen_file we_args we_a (g_name g)) we_fs <> None ->
                      In (fname we_args (g_name g)) (pk_files we_a)) we_gens.
Proof.
  split; [reflexivity|]. split; [apply wit_order_ok|]. split; [exact we_names|]. split; [exact we_world_ok|].
  split; [vm_compute; reflexivity|]. split; [right; left; reflexivity|].
  split; [vm_compute; reflexivity|]. split; [vm_compute; reflexivity|].
  repeat (apply Forall_cons; [apply listed_b; vm_compute; reflexivity|]). apply Forall_nil.
Qed.

(* per generator (g1, old, keep, ign, keepal):
     had a file before / rendered something / signalled ErrIgnore / has a file afterwards *)
Lemma we_table :
  map (fun g => (g_name g,
                 (is_some (fs_lookup (gen_file we_args we_a (g_name g)) we_fs),
                  negb (is_nil (go_body (gen_run we_E g we_a))),
                  signalled_ignore we_E g we_a,
                  is_some (fs_lookup (gen_file we_args we_a (g_name g)) we_after)))) we_gens
  = [(bs "g1",     (true,  true,  false, true));
     (bs "old",    (true,  false, false, false));     (* the stale listed file is removed *)
     (bs "keep",   (true,  false, true,  true));      (* kept by ErrIgnore *)
     (bs "ign",    (false, false, true,  false));
     (bs "keepal", (true,  false, true,  true))].
Proof. vm_compute. reflexivity. Qed.

(* the bytes: g1's file rewritten, the kept files byte-identical, the user's files and the whole directory of the
   skipped package as they were, gengo.sum rewritten *)
Lemma we_files :
  map (fun q => fs_lookup q we_after)
      [(bs "a", bs "zz_generated.g1.go"); (bs "a", bs "zz_generated.old.go"); (bs "a", bs "zz_generated.keep.go");
       (bs "a", bs "zz_generated.ign.go"); (bs "a", bs "zz_generated.keepal.go");
       (bs "a", bs "a.go"); (bs "a", bs "notes.txt"); (bs "", bs "README.md");
       (bs "b", bs "b.go"); (bs "b", bs "zz_generated.g1.go"); (bs "", bs "gengo.sum")]
  = [Some (assemble (bs "a") (bs "g1") (bs "var V = 1")); None; Some (bs "old a keep");
     None; Some (bs "old a keepal");
     Some (bs "package a"); Some (bs "mine"); Some (bs "R");
     Some (bs "package b"); Some (bs "old b g1"); Some (bs "m/a h1:a" ++ nl ++ bs "m/b h1:b" ++ nl)].
Proof. vm_compute. reflexivity. Qed.

(* C07_exists_iff applied to each of the five generators *)
Lemma we_exists_iff_instances :
  Forall (fun g =>
            fs_lookup (gen_file we_args we_a (g_name g)) we_after <> None
            <-> go_body (gen_run we_E g we_a) <> [] \/
                (signalled_ignore we_E g we_a = true /\ fs_lookup (gen_file we_args we_a (g_name g)) we_fs <> None))
         we_gens.
Proof.
  destruct we_hypotheses as (Hf & Ho & Hn & Hw & Hd & Hp & Hpr & _ & Hl).
  apply Forall_forall. intros g Hg.
  apply (exists_iff we_E we_args we_world we_gens we_fs we_a g Hf Ho Hn (proj1 Hw) Hd Hp Hpr Hg).
  rewrite Forall_forall in Hl. now apply Hl.
Qed.

Print Assumptions we_exists_iff_instances.
