(* A torn gengo.sum, read by the REAL parser (Model/SumFile.v: bytes.Lines + bytes.Fields + map assignment).
   sumfile.Save opens the file with O_TRUNC and then writes; a process that dies in between leaves a PREFIX of
   the bytes.  Whatever the cut: every answer of File.Sum on the torn file is a prefix of the answer on the whole
   file — the recorded hash itself, a strictly shorter string, or "" — so with hashes of one length a torn file can
   only cause regeneration, never a wrong skip.
   [prefix_of], DEFINED here, occurs in the statements of Props/C08.v and Props/Whole.v. *)
Require Import Gengo.Base.Bytes Gengo.Model.SumFile Gengo.Proofs.SumFile.
Require Gengo.Base.Order Gengo.Base.Assoc.
From Coq Require Import Permutation PeanoNat.

Definition prefix_of (a b : bytes) : Prop := exists t, b = a ++ t.

Lemma prefix_nil : forall b, prefix_of [] b.
Proof. intros b. exists b. reflexivity. Qed.
Lemma prefix_refl : forall b, prefix_of b b.
Proof. intros b. exists []. rewrite app_nil_r. reflexivity. Qed.
Lemma prefix_firstn : forall i (b : bytes), prefix_of (firstn i b) b.
Proof. intros i b. exists (skipn i b). symmetry. apply firstn_skipn. Qed.

Lemma prefix_same_length : forall a b, prefix_of a b -> List.length a = List.length b -> a = b.
Proof.
  intros a b [t Ht] Hl. subst b. rewrite app_length in Hl. destruct t; [rewrite app_nil_r; reflexivity|].
  cbn [List.length] in Hl. lia.
Qed.

Lemma lines_no_nl : forall p, ~ In nl p -> lines p = match p with [] => [] | _ => [p] end.
Proof.
  induction p as [|c p IH]; intros Hn; [reflexivity|].
  cbn [lines]. rewrite byte_eqb_neq by (intros E; apply Hn; left; exact E).
  rewrite IH by (intros Hin; apply Hn; right; exact Hin). destruct p; reflexivity.
Qed.

Lemma load_no_nl : forall p acc, ~ In nl p -> fold_left load_line (lines p) acc = load_line acc p.
Proof. intros p acc Hn. rewrite lines_no_nl by exact Hn. destruct p; reflexivity. Qed.

Lemma fields_plain : forall w, forallb plain w = true -> fields w = match w with [] => [] | _ => [w] end.
Proof.
  intros w Hw. pose proof (fields_go_last w [] [] Hw eq_refl) as E. rewrite app_nil_r in E.
  unfold fields. rewrite E. destruct w; reflexivity.
Qed.

Lemma fields_key_piece : forall k v,
  token_ok k = true -> forallb plain v = true ->
  fields (k ++ sp :: v) = if is_nil v then [k] else [k; v].
Proof. intros k v Hk Hv. rewrite <- (fields_kv k v [] Hk Hv eq_refl), app_nil_r. reflexivity. Qed.

Lemma forallb_firstn {A} (f : A -> bool) : forall n l, forallb f l = true -> forallb f (firstn n l) = true.
Proof.
  intros n l H. apply forallb_forall. intros x Hx. exact (proj1 (forallb_forall f l) H x (Order.firstn_In l n x Hx)).
Qed.

(* a proper prefix of the line "k v\n": a piece of the key, or the key, a space and a piece of the value *)
Lemma line_piece : forall k v j, j < List.length (k ++ sp :: v ++ [nl]) ->
  firstn j (k ++ sp :: v ++ [nl]) = firstn j k \/ exists i, firstn j (k ++ sp :: v ++ [nl]) = k ++ sp :: firstn i v.
Proof.
  intros k v j Hj. rewrite firstn_app. destruct (j - List.length k) as [|i] eqn:Hd.
  - left. apply app_nil_r.
  - right. exists i. rewrite !app_length in Hj. cbn [List.length] in Hj. rewrite app_length in Hj. cbn [List.length] in Hj.
    rewrite firstn_all2 by lia. cbn [firstn]. rewrite firstn_app. replace (i - List.length v) with 0 by lia.
    rewrite app_nil_r. reflexivity.
Qed.

Lemma sum_sum_set : forall m k v key, sum_sum (sum_set m k v) key = if bytes_eqb k key then v else sum_sum m key.
Proof.
  intros m k v key. unfold sum_sum. rewrite !sum_get_eq, sum_set_eq, (Assoc.get_set _ Assoc.bytes_eqbP'). now destruct (bytes_eqb k key).
Qed.

(* the line that was being written: it does not count, or it sets the key to a piece of its value *)
Lemma load_torn_line : forall k v j acc,
  token_ok k = true -> forallb plain v = true -> j < List.length (k ++ sp :: v ++ [nl]) ->
  exists i, fold_left load_line (lines (firstn j (k ++ sp :: v ++ [nl]))) acc
            = if is_nil (firstn i v) then acc else sum_set acc k (firstn i v).
Proof.
  intros k v j acc Hk Hv Hj. pose proof (token_plain k Hk) as Hkp.
  destruct (line_piece k v j Hj) as [Hp | [i Hp]]; rewrite Hp.
  - exists 0. rewrite load_no_nl by (intros Hin; exact (token_no_nl k Hkp (Order.firstn_In _ _ _ Hin))).
    unfold load_line. rewrite fields_plain by (apply forallb_firstn; exact Hkp). destruct (firstn j k); reflexivity.
  - exists i. pose proof (forallb_firstn plain i v Hv) as Hvi.
    rewrite load_no_nl by (apply key_value_no_nl; assumption).
    now rewrite <- (load_line_kv acc k (firstn i v) [] Hk Hvi eq_refl), app_nil_r.
Qed.

Lemma NoDup_app_l {A} : forall (a b : list A), NoDup (a ++ b) -> NoDup a.
Proof. intros a b. induction b as [|x b IH]; [now rewrite app_nil_r|]. intros H. exact (IH (NoDup_remove_1 a b x H)). Qed.

(* While a prefix of the bytes of [m] is read line by line, every answer of the map read so far is a prefix of the
   answer of [m]: a complete line sets its key to the recorded hash, the line that was cut to a piece of it. *)
Definition below (m acc : sum) : Prop := forall key, prefix_of (sum_sum acc key) (sum_sum m key).

Lemma below_set : forall m acc k v, below m acc -> prefix_of v (sum_sum m k) ->
  below m (if is_nil v then acc else sum_set acc k v).
Proof.
  intros m acc k v H Hv key. destruct (is_nil v); [apply H|].
  rewrite sum_sum_set. destruct (Order.bytes_eqbP k key) as [<-|_]; [exact Hv | apply H].
Qed.

Lemma torn_fold : forall m ks n acc,
  Forall (fun k => token_ok k = true /\ forallb plain (sum_sum m k) = true) ks -> below m acc ->
  below m (fold_left load_line (lines (firstn n (flat_map (sum_line m) ks))) acc).
Proof.
  intros m. induction ks as [|k ks IH]; intros n acc HF Hacc.
  - rewrite firstn_nil. exact Hacc.
  - apply Forall_cons_iff in HF as [[Hk Hv] HF]. cbn [flat_map]. rewrite firstn_app.
    destruct (Nat.lt_ge_cases n (List.length (sum_line m k))) as [Hlt|Hge].
    + (* the cut falls inside this line *)
      replace (n - _) with 0 by lia. cbn [firstn]. rewrite app_nil_r.
      destruct (load_torn_line k (sum_sum m k) n acc Hk Hv Hlt) as [i Hi]. unfold sum_line. rewrite Hi.
      apply below_set; [exact Hacc | apply prefix_firstn].
    + rewrite firstn_all2 by exact Hge. rewrite sum_line_shape, <- app_assoc. cbn [app].
      rewrite (lines_block _ _ (key_value_no_nl k _ (token_plain k Hk) Hv)). cbn [fold_left].
      apply IH; [exact HF|]. rewrite <- sum_line_shape. unfold sum_line. rewrite load_line_kv by (assumption || reflexivity).
      apply below_set; [exact Hacc | apply prefix_refl].
Qed.

Theorem torn_sum_prefix : forall m n key, kv_ok m ->
  prefix_of (sum_sum (sumfile_load (firstn n (sumfile_bytes m))) key) (sum_sum m key).
Proof.
  intros m n key Hok. apply (torn_fold m (sort_keys (map fst m)) n []); [apply (kv_ok_sorted_keys m Hok)|].
  intros k. apply prefix_nil.
Qed.

Lemma sum_set_keys : forall m k v x, In x (map fst (sum_set m k v)) -> x = k \/ In x (map fst m).
Proof. intros m k v x. rewrite sum_set_eq. apply Assoc.set_keys_in, Assoc.bytes_eqbP'. Qed.

Lemma sum_set_keys_nodup : forall m k v, NoDup (map fst m) -> NoDup (map fst (sum_set m k v)).
Proof. intros m k v. rewrite sum_set_eq. apply Assoc.set_NoDup, Assoc.bytes_eqbP'. Qed.

Lemma load_keys_nodup : forall data, NoDup (map fst (sumfile_load data)).
Proof.
  intros data. unfold sumfile_load.
  assert (Hgen : forall ls acc, NoDup (map fst acc) -> NoDup (map fst (fold_left load_line ls acc))).
  { induction ls as [|l ls IH]; intros acc ND; [exact ND|]. cbn [fold_left]. apply IH.
    unfold load_line. destruct (fields l) as [|k [|v r]]; try exact ND. apply sum_set_keys_nodup. exact ND. }
  apply Hgen. constructor.
Qed.

(* every entry read from the torn file: its hash is the recorded one or a strictly shorter string *)
Theorem torn_sum_entries : forall m n k v, kv_ok m ->
  In (k, v) (sumfile_load (firstn n (sumfile_bytes m))) ->
  v = sum_sum m k \/ (prefix_of v (sum_sum m k) /\ List.length v < List.length (sum_sum m k)).
Proof.
  intros m n k v Hok Hin.
  pose proof (torn_sum_prefix m n k Hok) as Hp.
  rewrite (sum_sum_in _ k v (load_keys_nodup _) Hin) in Hp.
  destruct (Nat.eq_dec (List.length v) (List.length (sum_sum m k))) as [He|Hne].
  - left. apply prefix_same_length; assumption.
  - right. split; [exact Hp|]. destruct Hp as [t Ht]. rewrite Ht, app_length in *. lia.
Qed.
