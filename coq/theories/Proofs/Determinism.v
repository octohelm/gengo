(* Lemmas for C04 (Model/Determinism.v): every range over a map is consumed through a sort_strings, through a lookup,
   or through inserts / effects on distinct keys, so the result of a run does not depend on the order oracle
   ([run_order_independent], [generator_order_independent]); a further run on the tree a run left, the packages loaded
   again, changes nothing ([second_run_fixed_point], [settled_forever]).
   Props/C04.v is stated with notions DEFINED here: the records [wf_pkg], [wf_world] and [wf_args] (what Go maps and
   go/types guarantee of the loaded data); the equivalences of results [feq], [out_equiv], [log_equiv],
   [out_equiv_log], read through [log_of] and [file_of]; for the further runs [is_gen_name], [generated], [selected],
   [src_eq], [reload], [reads_sources_only] (the hypothesis on generators), [settled], [loaded], [regen_all],
   [runs_to]; [sum_line]; and the witness [wit_world], [wit_args], [wit_gens], [wit_render], [wit_fs] with
   [rev_oracle], on which the code before the repairs depends on the oracle.
   Used by the proofs only: [meq] (two maps answer every lookup alike), [aeq] (two effect lists take [feq] trees to [feq]
   trees), [eff_result] (what an effect leaves at its path), [eff_id] (the tree already holds what the effect would
   leave), [lrel R] (two results of a package step or loop: both fail, or the call logs are related by R and the effect
   lists are [aeq]), [prel] ([lrel eq]) and [prel_log] ([lrel log_equiv]). *)
Require Import Gengo.Base.Bytes Gengo.Base.Order Gengo.Model.Determinism.
Require Gengo.Base.Assoc.

(* statements talk about [map fst]; goals coming from the model are normalised with [unfold Determinism.keys] *)
Local Notation keys := (map fst) (only parsing).
Ltac ukeys := unfold Gengo.Model.Determinism.keys in *.

Lemma bytes_leb_refl : forall a, bytes_leb a a = true.
Proof. exact Order.bytes_leb_refl. Qed.

(* the model's [insert_by] writes [x :: l] where Order's writes [x :: y :: r]: equal on every list, not convertible *)
Lemma insert_by_eq {A K} (key : A -> K) leb : forall x l, insert_by key leb x l = Order.insert_by key leb x l.
Proof. intros x l. induction l as [|y r IH]; cbn; [|rewrite IH]; reflexivity. Qed.

Lemma insert_by_perm {A K} (key : A -> K) leb : forall x l, Permutation (x :: l) (insert_by key leb x l).
Proof. intros x l. rewrite insert_by_eq. apply Order.insert_by_perm. Qed.

Lemma insert_by_sorted {A K} (key : A -> K) leb :
  (forall a b, leb a b = true \/ leb b a = true) -> (forall a b c, leb a b = true -> leb b c = true -> leb a c = true) ->
  forall x l, StronglySorted (ordR key leb) l -> StronglySorted (ordR key leb) (insert_by key leb x l).
Proof. intros Ht Htr x l. rewrite insert_by_eq. now apply Order.insert_by_sorted. Qed.

Lemma sort_by_eq {A K} (key : A -> K) leb : forall l, sort_by key leb l = Order.sort_by key leb l.
Proof. apply (Order.sort_by_unfold key leb (insert_by key leb)); intros; destruct l; reflexivity. Qed.

Lemma sort_by_perm {A K} (key : A -> K) leb : forall l, Permutation l (sort_by key leb l).
Proof. intros l. rewrite sort_by_eq. apply Order.sort_by_perm. Qed.

Lemma sort_by_sorted {A K} (key : A -> K) leb :
  (forall a b, leb a b = true \/ leb b a = true) -> (forall a b c, leb a b = true -> leb b c = true -> leb a c = true) ->
  forall l, StronglySorted (ordR key leb) (sort_by key leb l).
Proof. intros Ht Htr l. rewrite sort_by_eq. now apply Order.sort_by_sorted. Qed.

Lemma sort_by_N_perm_eq {A} (key : A -> N) : forall l1 l2,
    NoDup (map key l1) -> Permutation l1 l2 -> sort_by key N.leb l1 = sort_by key N.leb l2.
Proof. intros l1 l2 HN HP. rewrite !sort_by_eq. now apply Order.sort_by_N_perm_eq. Qed.

Lemma sort_perm_eq : forall l1 l2, Permutation l1 l2 -> sort_strings l1 = sort_strings l2.
Proof. intros l1 l2 HP. unfold sort_strings. rewrite !sort_by_eq. exact (sort_bytes_perm_eq l1 l2 HP). Qed.

Lemma sort_perm : forall l, Permutation l (sort_strings l).
Proof. intros l. apply sort_by_perm. Qed.

Lemma sort_sorted : forall l, StronglySorted (fun a b => bytes_leb a b = true) (sort_strings l).
Proof. exact (sort_by_sorted (fun x : bytes => x) bytes_leb Order.bytes_leb_total Order.bytes_leb_trans). Qed.

(* the model's [lookup], [aset] are Base/Assoc.v's [get], [set] on byte-string keys *)
Section AList.
  Context {V : Type}.
  Implicit Types m : alist V.

  Lemma lookup_eq : forall k m, lookup k m = Assoc.get bytes_eqb k m.
  Proof. apply Assoc.get_unfold. intros k [|[k' v] r]; reflexivity. Qed.

  Lemma aset_eq : forall k (v : V) m, aset k v m = Assoc.set bytes_eqb k v m.
  Proof. apply (Assoc.set_unfold _ bytes_eqbP _ (fun k _ => k)); [reflexivity|]. intros k v [|[k' v'] r]; reflexivity. Qed.

  Lemma fold_aset_eq {X} (kf : X -> bytes) (vf : X -> V) : forall l m,
      fold_left (fun m x => aset (kf x) (vf x) m) l m = Assoc.sets bytes_eqb kf vf l m.
  Proof. unfold Assoc.sets. induction l as [|x r IH]; intros m; cbn; [reflexivity|]. now rewrite aset_eq. Qed.

  Lemma in_keys : forall m k, In k (keys m) <-> exists v, In (k, v) m.
  Proof.
    intros m k. rewrite in_map_iff. split; [|intros [v H]; now exists (k, v)].
    intros [[k' v] [E H]]. cbn in E. subst k'. now exists v.
  Qed.

  Lemma lookup_aset : forall m k k' v, lookup k (aset k' v m) = if bytes_eqb k k' then Some v else lookup k m.
  Proof. intros m k k' v. rewrite !lookup_eq, aset_eq. apply Assoc.get_set, bytes_eqbP. Qed.

  Lemma keys_aset_in : forall m k k' v, In k (keys (aset k' v m)) <-> k = k' \/ In k (keys m).
  Proof. intros m k k' v. rewrite aset_eq. apply Assoc.set_keys_in, bytes_eqbP. Qed.

  Lemma In_aset : forall m k v k' v', In (k, v) (aset k' v' m) -> (k = k' /\ v = v') \/ In (k, v) m.
  Proof. intros m k v k' v' H. rewrite aset_eq in H. apply Assoc.In_set in H. destruct H as [[= -> ->]|H]; auto. Qed.

  Lemma In_fold_aset {X} (kf : X -> bytes) (vf : X -> V) : forall l m k v,
      In (k, v) (fold_left (fun m x => aset (kf x) (vf x) m) l m) ->
      (exists x, In x l /\ k = kf x /\ v = vf x) \/ In (k, v) m.
  Proof. intros l m k v. rewrite fold_aset_eq. apply Assoc.In_sets. Qed.

  Lemma aset_notin : forall m k v, ~ In k (keys m) -> aset k v m = m ++ [(k, v)].
  Proof. intros m k v. rewrite aset_eq. apply Assoc.set_notin, bytes_eqbP. Qed.

  Lemma NoDup_keys_aset : forall m k v, NoDup (keys m) -> NoDup (keys (aset k v m)).
  Proof. intros m k v. rewrite aset_eq. apply Assoc.set_NoDup, bytes_eqbP. Qed.

  Lemma lookup_in_keys : forall m k, In k (keys m) <-> lookup k m <> None.
  Proof. intros m k. rewrite lookup_eq. apply Assoc.get_keys, bytes_eqbP. Qed.

  Lemma lookup_In : forall m k v, NoDup (keys m) -> In (k, v) m -> lookup k m = Some v.
  Proof. intros m k v. rewrite lookup_eq. apply Assoc.get_In, bytes_eqbP. Qed.

  Lemma lookup_Some_In : forall m k v, lookup k m = Some v -> In (k, v) m.
  Proof. intros m k v. rewrite lookup_eq. apply Assoc.get_Some_In, bytes_eqbP. Qed.

  Lemma lookup_perm : forall m1 m2 k, NoDup (keys m1) -> Permutation m1 m2 -> lookup k m1 = lookup k m2.
  Proof. intros m1 m2 k. rewrite !lookup_eq. apply Assoc.get_perm, bytes_eqbP. Qed.

  Lemma lookup_app : forall m1 m2 k,
      lookup k (m1 ++ m2) = match lookup k m1 with Some v => Some v | None => lookup k m2 end.
  Proof. intros m1 m2 k. rewrite !lookup_eq. apply Assoc.get_app. Qed.

  Lemma lookup_fold_aset {X} (kf : X -> bytes) (vf : X -> V) : forall l m k,
      lookup k (fold_left (fun m x => aset (kf x) (vf x) m) l m)
      = match lookup k (rev (map (fun x => (kf x, vf x)) l)) with Some v => Some v | None => lookup k m end.
  Proof. intros l m k. rewrite !lookup_eq, fold_aset_eq. apply Assoc.get_sets, bytes_eqbP. Qed.

  Lemma keys_fold_aset_in {X} (kf : X -> bytes) (vf : X -> V) : forall l m k,
      In k (keys (fold_left (fun m x => aset (kf x) (vf x) m) l m)) <-> In k (map kf l) \/ In k (keys m).
  Proof. intros l m k. rewrite fold_aset_eq. apply Assoc.sets_keys_in, bytes_eqbP. Qed.

  Lemma NoDup_keys_fold_aset {X} (kf : X -> bytes) (vf : X -> V) : forall l m,
      NoDup (keys m) -> NoDup (keys (fold_left (fun m x => aset (kf x) (vf x) m) l m)).
  Proof. intros l m. rewrite fold_aset_eq. apply Assoc.sets_NoDup, bytes_eqbP. Qed.

  Lemma fold_aset_nodup {X} (kf : X -> bytes) (vf : X -> V) : forall l m,
      NoDup (keys m ++ map kf l) ->
      fold_left (fun m x => aset (kf x) (vf x) m) l m = m ++ map (fun x => (kf x, vf x)) l.
  Proof. intros l m. rewrite fold_aset_eq. apply Assoc.sets_fresh, bytes_eqbP. Qed.

  Lemma adel_filter : forall m k, adel k m = filter (fun kv => negb (bytes_eqb k (fst kv))) m.
  Proof. induction m as [|[k0 v0] r IH]; intros k; cbn; [reflexivity|]. rewrite IH. now destruct (bytes_eqb k k0). Qed.

  Lemma In_adel : forall m k v k', In (k, v) (adel k' m) <-> In (k, v) m /\ k <> k'.
  Proof.
    intros m k v k'. rewrite adel_filter, filter_In. cbn. rewrite negb_true_iff, bytes_eqb_neq.
    split; intros [H N]; auto.
  Qed.

  Lemma keys_adel_in : forall m k k', In k (keys (adel k' m)) <-> In k (keys m) /\ k <> k'.
  Proof.
    intros m k k'. rewrite !in_keys. split.
    - intros [v H]. apply In_adel in H. destruct H as [H N]. split; [now exists v|exact N].
    - intros [[v H] N]. exists v. apply In_adel. now split.
  Qed.

  Lemma In_fold_adel {X} (h : X -> bytes) : forall l (s : alist V) k v,
      In (k, v) (fold_left (fun s x => adel (h x) s) l s) <-> In (k, v) s /\ forall x, In x l -> k <> h x.
  Proof.
    induction l as [|x l IH]; intros s k v; cbn; [split; [intros H; split; [exact H|intros x []]|intros [H _]; exact H]|].
    rewrite IH, In_adel. split.
    - intros [[H Hne] Hall]. split; [exact H|]. intros y [<-|Hy]; auto.
    - intros [H Hall]. split; [split; [exact H|apply Hall; now left]|]. intros y Hy. apply Hall. now right.
  Qed.

  Lemma NoDup_keys_adel : forall m k, NoDup (keys m) -> NoDup (keys (adel k m)).
  Proof. intros m k. rewrite adel_filter. apply NoDup_map_filter. Qed.

  Lemma NoDup_keys_fold_adel {X} (h : X -> bytes) : forall l (s : alist V),
      NoDup (keys s) -> NoDup (keys (fold_left (fun s x => adel (h x) s) l s)).
  Proof. induction l as [|x l IH]; intros s H; cbn; [exact H|]. now apply IH, NoDup_keys_adel. Qed.

  Lemma adel_comm : forall m k1 k2, adel k1 (adel k2 m) = adel k2 (adel k1 m).
  Proof. intros m k1 k2. rewrite !adel_filter, !filter_filter. apply filter_ext. intros kv. apply andb_comm. Qed.

  Lemma adel_perm : forall m1 m2 k, Permutation m1 m2 -> Permutation (adel k m1) (adel k m2).
  Proof. intros m1 m2 k. rewrite !adel_filter. apply Permutation_filter. Qed.
End AList.

Lemma fold_left_comm_perm {S X} (f : S -> X -> S) :
  (forall s a b, f (f s a) b = f (f s b) a) ->
  forall l1 l2, Permutation l1 l2 -> forall s, fold_left f l1 s = fold_left f l2 s.
Proof.
  intros Hc l1 l2 HP. induction HP as [|x l l' HP IH|x y l|l l' l'' HP1 IH1 HP2 IH2]; intros s; cbn.
  - reflexivity.
  - apply IH.
  - now rewrite Hc.
  - now rewrite IH1.
Qed.

Lemma mem_perm : forall k l1 l2, Permutation l1 l2 -> mem k l1 = mem k l2.
Proof. intros k l1 l2 HP. apply existsb_ext_in. intros x. now rewrite HP. Qed.

Lemma forallb_perm {A} (f : A -> bool) : forall l1 l2, Permutation l1 l2 -> forallb f l1 = forallb f l2.
Proof.
  intros l1 l2 HP. apply eq_true_iff_eq. rewrite !forallb_forall.
  split; intros H x Hx; apply H; [apply Permutation_sym in HP|]; exact (Permutation_in x HP Hx).
Qed.

Lemma forallb_ext' {A} (f g : A -> bool) : (forall x, f x = g x) -> forall l, forallb f l = forallb g l.
Proof. intros H. induction l as [|x l IH]; cbn; [reflexivity|]. now rewrite H, IH. Qed.

Lemma map_pair_eta {A B} : forall l : list (A * B), map (fun x => (fst x, snd x)) l = l.
Proof. induction l as [|[a b] l IH]; cbn; [reflexivity|now rewrite IH]. Qed.

Lemma NoDup_flat_map_key {A B K} (name : A -> K) (key : B -> K) (F : A -> list B) :
  (forall a, F a = [] \/ exists b, F a = [b] /\ key b = name a) ->
  forall l, NoDup (map name l) -> NoDup (map key (flat_map F l)).
Proof.
  intros HF l HN.
  replace (map key (flat_map F l)) with (map name (filter (fun a => match F a with [] => false | _ => true end) l));
    [now apply NoDup_map_filter|].
  clear HN. induction l as [|a l IH]; cbn; [reflexivity|]. rewrite map_app, <- IH.
  destruct (HF a) as [->|[b [-> Hk]]]; cbn; [reflexivity|now rewrite Hk].
Qed.

Lemma NoDup_map_snd_dir : forall (dir : bytes) (l : alist path),
    NoDup (keys l) -> (forall kv, In kv l -> snd kv = (dir, fst kv)) -> NoDup (map snd l).
Proof.
  intros dir l HN H. rewrite (map_ext_in _ _ l H), <- (map_map fst (fun k => (dir, k) : path)).
  apply FinFun.Injective_map_NoDup; [intros x y [= E]; exact E|exact HN].
Qed.

Definition meq {V} (m1 m2 : alist V) : Prop := forall k, lookup k m1 = lookup k m2.

Lemma meq_refl {V} (m : alist V) : meq m m.
Proof. intros k. reflexivity. Qed.

Lemma meq_keys_in {V} (m1 m2 : alist V) : meq m1 m2 -> forall k, In k (keys m1) <-> In k (keys m2).
Proof. intros H k. now rewrite !lookup_in_keys, H. Qed.

Lemma perm_meq {V} (m1 m2 : alist V) : NoDup (keys m1) -> Permutation m1 m2 -> meq m1 m2.
Proof. intros HN HP k. now apply lookup_perm. Qed.

Lemma path_eqb_spec : forall p q, path_eqb p q = true <-> p = q.
Proof.
  intros [a b] [c d]. unfold path_eqb. cbn. rewrite andb_true_iff, !bytes_eqb_spec.
  split; [intros [-> ->]; reflexivity|intros [= -> ->]; now split].
Qed.

Lemma path_eqb_refl : forall p, path_eqb p p = true.
Proof. intros p. now apply path_eqb_spec. Qed.

Definition feq (f f' : fs) : Prop := forall q, f q = f' q.
Definition aeq (es1 es2 : list effect) : Prop := forall f f', feq f f' -> feq (apply es1 f) (apply es2 f').

Lemma apply_cons : forall e es f, apply (e :: es) f = apply es (apply1 f e).
Proof. reflexivity. Qed.

Lemma apply_app : forall a b f, apply (a ++ b) f = apply b (apply a f).
Proof. intros a b f. unfold apply. apply fold_left_app. Qed.

Definition eff_result (e : effect) : option bytes := match e with EWrite _ b => Some b | ERemove _ => None end.

Lemma apply1_at : forall e f, apply1 f e (eff_path e) = eff_result e.
Proof. intros [p b|p] f; cbn; now rewrite path_eqb_refl. Qed.

(* what a list of effects does at one path: the last effect that names it decides, whatever the tree; if none names
   it, the path is left alone *)
Lemma apply_at : forall es q,
    (exists e, In e es /\ eff_path e = q /\ forall f, apply es f q = eff_result e)
    \/ ((forall e, In e es -> eff_path e <> q) /\ forall f, apply es f q = f q).
Proof.
  induction es as [|x es IH]; intros q; [right; split; [intros e []|reflexivity]|].
  destruct (IH q) as [[e [Hin [Hp H]]]|[Hno H]]; [left; exists e; split; [now right|split; [exact Hp|intros f; apply H]]|].
  destruct (path_eqb q (eff_path x)) eqn:E.
  - apply path_eqb_spec in E. subst q. left. exists x. split; [now left|]. split; [reflexivity|]. intros f. rewrite apply_cons, H. apply apply1_at.
  - right. split.
    + intros e [<-|Hin]; [|now apply Hno]. intros Hp. rewrite <- Hp, path_eqb_refl in E. discriminate E.
    + intros f. rewrite apply_cons, H. destruct x as [p b|p]; cbn in *; now rewrite E.
Qed.

Lemma apply_local : forall es f f' q, f q = f' q -> apply es f q = apply es f' q.
Proof. intros es f f' q H. destruct (apply_at es q) as [[e [_ [_ E]]]|[_ E]]; now rewrite !E. Qed.

Lemma apply_feq : forall es f f', feq f f' -> feq (apply es f) (apply es f').
Proof. intros es f f' H q. apply apply_local, H. Qed.

Lemma aeq_refl : forall es, aeq es es.
Proof. exact apply_feq. Qed.

Lemma aeq_app : forall a a' b b', aeq a a' -> aeq b b' -> aeq (a ++ b) (a' ++ b').
Proof. intros a a' b b' Ha Hb f f' H. rewrite !apply_app. apply Hb. now apply Ha. Qed.

Lemma apply_untouched : forall es f q, (forall e, In e es -> eff_path e <> q) -> apply es f q = f q.
Proof. intros es f q H. destruct (apply_at es q) as [[e [Hin [Hp _]]]|[_ E]]; [now contradiction (H e Hin)|apply E]. Qed.

Lemma apply_In : forall es f e, NoDup (map eff_path es) -> In e es -> apply es f (eff_path e) = eff_result e.
Proof.
  intros es f e HN Hin. destruct (apply_at es (eff_path e)) as [[e' [Hin' [Hp E]]]|[Hno _]]; [|now contradiction (Hno e Hin)].
  now rewrite E, (NoDup_map_inj_in eff_path es e' e HN Hin' Hin Hp).
Qed.

Lemma apply_restrict : forall es es1 f q, NoDup (map eff_path es1) -> incl es1 es ->
    (forall e, In e es -> eff_path e = q -> In e es1) -> apply es f q = apply es1 f q.
Proof.
  intros es es1 f q HN Hi Hq. destruct (apply_at es q) as [[e [Hin [Hp E]]]|[Hno E]]; rewrite E; symmetry.
  - subst q. apply apply_In; [exact HN|now apply Hq].
  - apply apply_untouched. intros e He. apply Hno, Hi, He.
Qed.

Lemma aeq_perm_distinct : forall es1 es2, NoDup (map eff_path es1) -> Permutation es1 es2 -> aeq es1 es2.
Proof.
  intros es1 es2 HN HP f f' H q. rewrite (apply_restrict es2 es1 f' q HN).
  - apply apply_local, H.
  - intros e. apply Permutation_in, HP.
  - intros e He _. exact (Permutation_in e (Permutation_sym HP) He).
Qed.

Lemma apply_removes : forall ps f q,
    apply (map ERemove ps) f q = if existsb (path_eqb q) ps then None else f q.
Proof.
  induction ps as [|p ps IH]; intros f q; [reflexivity|]. cbn [map existsb]. rewrite apply_cons, IH. cbn.
  destruct (path_eqb q p); cbn; [|reflexivity]. destruct (existsb (path_eqb q) ps); reflexivity.
Qed.

(* Execute's last step, the write of gengo.sum, is seen at that one path only *)
Lemma apply_then_write : forall (c : bool) es sp b f q,
    q <> sp -> apply (if c then es ++ [EWrite sp b] else es) f q = apply es f q.
Proof.
  intros [] es sp b f q H; [|reflexivity]. rewrite apply_app. cbn.
  destruct (path_eqb q sp) eqn:E; [|reflexivity]. apply path_eqb_spec in E. contradiction.
Qed.

Definition eff_id (f : fs) (e : effect) : Prop :=
  match e with EWrite q b => f q = Some b | ERemove r => f r = None end.

Lemma apply_id : forall es f, (forall e, In e es -> eff_id f e) -> feq (apply es f) f.
Proof.
  intros es f H q. destruct (apply_at es q) as [[e [Hin [<- E]]]|[_ E]]; rewrite E; [|reflexivity].
  apply H in Hin. destruct e; cbn in *; congruence.
Qed.

(* what Go maps and go/types guarantee of the loaded data *)

Record wf_pkg (p : pkg) : Prop := {
  wf_names : NoDup (map td_name (filter td_pkgscope (pk_defs p)));     (* go/types: one object per name in the package scope *)
  wf_filetags : Forall (fun ft => NoDup (keys (snd ft))) (pk_filetags p);   (* tags are Go maps *)
  wf_decltags : Forall (fun d => NoDup (keys (td_tags d))) (pk_defs p);
  wf_meths : NoDup (map m_pos (pk_meths p))                             (* distinct positions *)
}.

Record wf_world (w : world) : Prop := {
  wf_paths : NoDup (map pk_path (w_pkgs w));
  wf_pkgs : Forall wf_pkg (w_pkgs w)
}.

Definition wf_args (a : args) : Prop := NoDup (keys (a_globals a)).

Lemma oracle_perm (o1 o2 : oracle) {A} (s1 s2 : list bytes) (l1 l2 : list A) :
  shuffles o1 -> shuffles o2 -> Permutation l1 l2 -> Permutation (o1 A s1 l1) (o2 A s2 l2).
Proof. intros H1 H2 HP. rewrite <- (H1 A s1 l1), <- (H2 A s2 l2). exact HP. Qed.

Lemma shuffled_In (o : oracle) {A} s (l : list A) x : shuffles o -> In x (o A s l) <-> In x l.
Proof. intros Hs. split; apply Permutation_in; [apply Permutation_sym|]; apply Hs. Qed.

Lemma shuffled_keys (o : oracle) {A B} (f : A -> B) s l : shuffles o -> Permutation (map f l) (map f (o A s l)).
Proof. intros Hs. apply Permutation_map, Hs. Qed.

Lemma shuffled_NoDup (o : oracle) {A B} (f : A -> B) s l : shuffles o -> NoDup (map f l) -> NoDup (map f (o A s l)).
Proof. intros Hs. apply Permutation_NoDup, shuffled_keys, Hs. Qed.

(* a range whose keys are sorted before they are used: the order of the range is gone *)
Lemma sort_shuffled (o : oracle) {A} (f : A -> bytes) s l :
  shuffles o -> sort_strings (map f (o A s l)) = sort_strings (map f l).
Proof. intros Hs. apply sort_perm_eq, Permutation_sym, shuffled_keys, Hs. Qed.

Definition lrel (R : calllog -> calllog -> Prop) (r1 r2 : option (list effect * calllog)) : Prop :=
  match r1, r2 with
  | None, None => True
  | Some (e1, l1), Some (e2, l2) => R l1 l2 /\ aeq e1 e2
  | _, _ => False
  end.

Definition prel := lrel eq.

Section Loop.
  Variable render : gfile -> option bytes.
  Variable parse_sum : bytes -> alist bytes.
  Variables o1 o2 : oracle.
  Variable R : calllog -> calllog -> Prop.
  Hypothesis R_app : forall l1 l1' l2 l2', R l1 l1' -> R l2 l2' -> R (l1 ++ l2) (l1' ++ l2').
  Variables (a : args) (w : world) (gens1 gens2 : list gen).
  Hypothesis Hpkg : forall k p, find_pkg k w = Some p ->
      lrel R (pkg_execute true true render o1 a gens1 p) (pkg_execute true true render o2 a gens2 p).

  Lemma pkgs_loop_lrel : forall prev cur1 cur2 l es1 es2 log1 log2,
      meq cur1 cur2 -> aeq es1 es2 -> R log1 log2 ->
      lrel R (pkgs_loop true true render o1 a w gens1 prev cur1 l es1 log1)
             (pkgs_loop true true render o2 a w gens2 prev cur2 l es2 log2).
  Proof.
    intros prev cur1 cur2. induction l as [|[k direct] r IH]; intros es1 es2 log1 log2 Hc He Hl; cbn.
    - split; assumption.
    - destruct (negb (a_all a) && negb direct); [now apply IH|].
      assert (Hch : pkg_changed a prev cur1 k = pkg_changed a prev cur2 k).
      { unfold pkg_changed, sum_get. now rewrite (Hc k). }
      rewrite Hch. destruct (negb (pkg_changed a prev cur2 k)); [now apply IH|].
      destruct (find_pkg k w) as [p|] eqn:F; [|exact I].
      pose proof (Hpkg k p F) as HX. unfold lrel in HX.
      destruct (pkg_execute true true render o1 a gens1 p) as [[e1 l1]|],
               (pkg_execute true true render o2 a gens2 p) as [[e2 l2]|]; try contradiction; [|exact I].
      destruct HX as [HL HA]. apply IH; [exact Hc|now apply aeq_app|now apply R_app].
  Qed.

  Lemma run_lrel : forall e1 e2 f,
      R [] [] -> sorted_local o1 e1 w = sorted_local o2 e2 w -> meq (sum_data o1 w) (sum_data o2 w) ->
      sum_bytes o1 (sum_data o1 w) = sum_bytes o2 (sum_data o2 w) ->
      match run true true render parse_sum o1 a e1 w gens1 f, run true true render parse_sum o2 a e2 w gens2 f with
      | Some (f1, l1), Some (f2, l2) => feq f1 f2 /\ R l1 l2
      | None, None => True
      | _, _ => False
      end.
  Proof.
    intros e1 e2 f H0 Hsl Hsd Hsb. unfold run, plan. rewrite Hsl, Hsb.
    set (prev := if a_all a && existsb snd (sorted_local o2 e2 w) then _ else None).
    pose proof (pkgs_loop_lrel prev _ _ (sorted_local o2 e2 w) [] [] [] [] Hsd (aeq_refl []) H0) as HX. unfold lrel in HX.
    destruct (pkgs_loop true true render o1 _ _ _ _ _ _ _ _) as [[es1 l1]|],
             (pkgs_loop true true render o2 _ _ _ _ _ _ _ _) as [[es2 l2]|]; try contradiction; [|exact I].
    destruct HX as [HL HA]. split; [|exact HL].
    destruct (a_all a); [apply (aeq_app _ _ _ _ HA (aeq_refl _))|apply HA]; intros q; reflexivity.
  Qed.
End Loop.

Definition is_gen_name (a : args) (b : bytes) : bool := has_prefix (a_base a ++ bs ".") b.
Definition generated (a : args) (q : path) : bool := is_gen_name a (snd q).
Definition selected (a : args) (direct : bool) : bool := a_all a || direct.

Lemma filename_inj : forall a g1 g2, filename a g1 = filename a g2 -> g1 = g2.
Proof.
  intros a g1 g2 H. unfold filename in H. apply app_inv_head in H. apply app_inv_head in H.
  now apply app_inv_tail in H.
Qed.

(* context.go:229-245: generatedFiles after the names of this run's generator files are deleted, in the order the
   removal loop ranges over it *)
Definition stale_of (o : oracle) (a : args) (p : pkg) (gfs : alist genout) : alist path :=
  o _ [bs "stale"; pk_path p]
    (fold_left (fun s (kv : bytes * genout) => adel (filename a (fst kv)) s) (o _ [bs "gfs"; pk_path p] gfs) (generated_files a p)).

(* generatedFiles: every listed file named <base>.*, mapped to its full name *)
Lemma generated_files_filter : forall a p,
    generated_files a p = fold_left (fun m f => aset f (pk_dir p, f) m) (filter (is_gen_name a) (pk_files p)) [].
Proof.
  intros a p. unfold generated_files. apply (fold_left_filter (is_gen_name a)). reflexivity.
Qed.

Lemma generated_files_In : forall a p k v,
    In (k, v) (generated_files a p) <-> v = (pk_dir p, k) /\ In k (pk_files p) /\ is_gen_name a k = true.
Proof.
  intros a p k v. rewrite generated_files_filter. split.
  - intros H. apply (In_fold_aset (fun f => f) (fun f => (pk_dir p, f))) in H.
    destruct H as [[x [Hx [-> ->]]]|[]]. apply filter_In in Hx. now split.
  - intros [-> Hk].
    pose proof (proj2 (keys_fold_aset_in (fun f => f) (fun f => (pk_dir p, f)) (filter (is_gen_name a) (pk_files p)) [] k)) as H.
    rewrite map_id, filter_In in H. specialize (H (or_introl Hk)). apply in_keys in H. destruct H as [v H]. pose proof H as H'.
    apply (In_fold_aset (fun f => f) (fun f => (pk_dir p, f))) in H'. now destruct H' as [[x [_ [-> ->]]]|[]].
Qed.

Lemma generated_files_spec : forall a p,
    (forall k v, In (k, v) (generated_files a p) -> v = (pk_dir p, k) /\ is_gen_name a k = true)
    /\ NoDup (keys (generated_files a p))
    /\ (forall k, In k (pk_files p) -> is_gen_name a k = true -> In (k, (pk_dir p, k)) (generated_files a p)).
Proof.
  intros a p. split; [intros k v H; apply generated_files_In in H; tauto|]. split; [|intros k Hk Hg; now apply generated_files_In].
  rewrite generated_files_filter. apply (NoDup_keys_fold_aset (fun f => f)). constructor.
Qed.

(* the stale map is the listed files named <base>.* that no generator file of this run is named like *)
Lemma stale_of_In : forall (o : oracle) a p gfs k v, shuffles o ->
    In (k, v) (stale_of o a p gfs)
    <-> v = (pk_dir p, k) /\ (In k (pk_files p) /\ is_gen_name a k = true) /\ forall g, In g (keys gfs) -> k <> filename a g.
Proof.
  intros o a p gfs k v Hs. unfold stale_of. rewrite (shuffled_In o) by exact Hs.
  rewrite (In_fold_adel (fun kv : bytes * genout => filename a (fst kv))), generated_files_In, and_assoc.
  apply and_iff_compat_l, and_iff_compat_l. split.
  - intros H g Hin. apply in_keys in Hin. destruct Hin as [out Hin]. apply (H (g, out)). now apply shuffled_In.
  - intros H [g out] Hin. apply (shuffled_In o) in Hin; [|exact Hs]. apply H, (in_map fst _ _ Hin).
Qed.

Lemma has_prefix_app : forall p s, has_prefix p (p ++ s) = true.
Proof. exact Assoc.has_prefix_app. Qed.

Lemma filename_is_gen : forall a g, is_gen_name a (filename a g) = true.
Proof.
  intros a g. unfold is_gen_name, filename. rewrite app_assoc. apply has_prefix_app.
Qed.

Section Sites.
  Variable render : gfile -> option bytes.
  Variables o1 o2 : oracle.
  Hypothesis Hs1 : shuffles o1.
  Hypothesis Hs2 : shuffles o2.

  Lemma table_add_fold : forall l t,
      fold_left (table_add true) l t = fold_left (fun m d => aset (td_name d) d m) (filter td_pkgscope l) t.
  Proof. apply fold_left_filter. intros t d. unfold table_add. cbn. now destruct (td_pkgscope d). Qed.

  Lemma names_shuffled : forall (o : oracle) s p, shuffles o -> wf_pkg p ->
      NoDup (map td_name (filter td_pkgscope (o _ s (pk_defs p)))).
  Proof.
    intros o s p Hs Hw. eapply Permutation_NoDup; [apply Permutation_map, Permutation_filter, Hs|exact (wf_names p Hw)].
  Qed.

  Lemma type_table_eq : forall (o : oracle) p, shuffles o -> wf_pkg p ->
      type_table true o p = map (fun d => (td_name d, d)) (filter td_pkgscope (o _ [bs "defs"; pk_path p] (pk_defs p))).
  Proof.
    intros o p Hs Hw. unfold type_table. rewrite table_add_fold, fold_aset_nodup; [reflexivity|]. now apply names_shuffled.
  Qed.

  Lemma type_table_perm : forall p, wf_pkg p -> Permutation (type_table true o1 p) (type_table true o2 p).
  Proof. intros p Hw. rewrite !type_table_eq by assumption. now apply Permutation_map, Permutation_filter, oracle_perm. Qed.

  Lemma type_table_nodup : forall (o : oracle) p, shuffles o -> wf_pkg p -> NoDup (keys (type_table true o p)).
  Proof. intros o p Hs Hw. rewrite type_table_eq, map_map by assumption. now apply names_shuffled. Qed.

  Lemma table_in_defs : forall (o : oracle) p n d, shuffles o -> wf_pkg p ->
      lookup n (type_table true o p) = Some d -> In d (pk_defs p).
  Proof.
    intros o p n d Hs Hw H. rewrite type_table_eq in H by assumption.
    apply lookup_Some_In, in_map_iff in H. destruct H as [x [[= _ ->] Hin]].
    apply filter_In, proj1 in Hin. now apply (shuffled_In o) in Hin.
  Qed.

  Lemma methods_of_eq : forall p uid, wf_pkg p -> methods_of true o1 p uid = methods_of true o2 p uid.
  Proof.
    intros p uid Hw. unfold methods_of. f_equal. apply sort_by_N_perm_eq.
    - apply NoDup_map_filter, shuffled_NoDup; [exact Hs1|exact (wf_meths p Hw)].
    - now apply Permutation_filter, oracle_perm.
  Qed.

  Lemma meth_view_eq : forall p, wf_pkg p -> meth_view true o1 p = meth_view true o2 p.
  Proof.
    intros p Hw. unfold meth_view. apply map_ext. intros d. f_equal. now apply methods_of_eq.
  Qed.

  Lemma lookup_set_all : forall (o : oracle) s tags m k, shuffles o -> NoDup (keys tags) ->
      lookup k (set_all o s tags m) = match lookup k tags with Some v => Some v | None => lookup k m end.
  Proof.
    intros o s tags m k Hs HN. unfold set_all. rewrite (lookup_fold_aset fst snd), map_pair_eta.
    now rewrite <- (lookup_perm tags (rev (o _ s tags)) k HN) by (eapply perm_trans; [apply Hs|apply Permutation_rev]).
  Qed.

  Lemma set_all_nodup : forall (o : oracle) s tags m, NoDup (keys m) -> NoDup (keys (set_all o s tags m)).
  Proof. intros o s tags m H. unfold set_all. now apply NoDup_keys_fold_aset. Qed.

  Lemma enabled_loop_spec : forall pre l en,
      enabled_loop pre l en
      = match lookup pre l with
        | Some v => negb (bytes_eqb v (bs "false"))
        | None => en || existsb (has_prefix (pre ++ bs ":")) (keys l)
        end.
  Proof.
    intros pre. induction l as [|[k v] r IH]; intros en; cbn.
    - now rewrite orb_false_r.
    - rewrite (bytes_eqb_sym pre k). destruct (bytes_eqb k pre); [reflexivity|].
      rewrite IH. destruct (lookup pre r); [reflexivity|].
      destruct (has_prefix _ k), en; cbn; auto.
  Qed.

  Lemma enabled_loop_meq : forall pre l l', meq l l' -> enabled_loop pre l false = enabled_loop pre l' false.
  Proof.
    intros pre l l' H. rewrite !enabled_loop_spec, (H pre). destruct (lookup pre l'); [reflexivity|].
    cbn [orb]. apply existsb_ext_in, meq_keys_in, H.
  Qed.

  Lemma enabled_meq : forall (o o' : oracle) s s' g m m',
      shuffles o -> shuffles o' -> NoDup (keys m) -> NoDup (keys m') -> meq m m' ->
      enabled o s g m = enabled o' s' g m'.
  Proof.
    intros o o' s s' g m m' Hs Hs' HN HN' Hm. unfold enabled. apply enabled_loop_meq. intros k.
    rewrite <- (lookup_perm m _ k HN (Hs _ _ m)), <- (lookup_perm m' _ k HN' (Hs' _ _ m')). apply Hm.
  Qed.

  Lemma lookup_tags_fold : forall (o : oracle) (site : bytes * alist bytes -> list bytes) fts m k,
      shuffles o -> Forall (fun ft => NoDup (keys (snd ft))) fts ->
      lookup k (fold_left (fun m ft => set_all o (site ft) (snd ft) m) fts m)
      = fold_left (fun acc ft => match lookup k (snd ft) with Some v => Some v | None => acc end) fts (lookup k m).
  Proof.
    intros o site fts. induction fts as [|ft fts IH]; intros m k Hs HF; cbn; [reflexivity|].
    apply Forall_cons_iff in HF. destruct HF as [H1 H2]. rewrite IH by assumption. now rewrite lookup_set_all.
  Qed.

  Lemma pkg_tags_nodup : forall (o : oracle) p, NoDup (keys (pkg_tags o p)).
  Proof.
    intros o p. unfold pkg_tags.
    assert (H : forall fts m, NoDup (keys m) ->
                  NoDup (keys (fold_left (fun m ft => set_all o [bs "ftags"; pk_path p; fst ft] (snd ft) m) fts m))).
    { induction fts as [|ft fts IH]; intros m Hm; cbn; [exact Hm|]. now apply IH, set_all_nodup. }
    apply H. constructor.
  Qed.

  Lemma pkg_tags_meq : forall p, wf_pkg p -> meq (pkg_tags o1 p) (pkg_tags o2 p).
  Proof.
    intros p Hw k. unfold pkg_tags.
    now rewrite !(lookup_tags_fold _ (fun ft => [bs "ftags"; pk_path p; fst ft])) by (assumption || exact (wf_filetags p Hw)).
  Qed.

  Lemma merge_nodup : forall (o : oracle) s g p d, NoDup (keys (merge o s g p d)).
  Proof. intros o s g p d. unfold merge. repeat apply set_all_nodup. constructor. Qed.

  Lemma merge_meq : forall (o o' : oracle) s s' g p p' d,
      shuffles o -> shuffles o' -> NoDup (keys g) -> NoDup (keys p) -> NoDup (keys p') -> NoDup (keys d) -> meq p p' ->
      meq (merge o s g p d) (merge o' s' g p' d).
  Proof. intros o o' s s' g p p' d Hs Hs' Hg Hp Hp' Hd Hm k. unfold merge. now rewrite !lookup_set_all, Hm. Qed.

  Lemma dispatch_one_eq : forall a p pt pt' g d,
      wf_args a -> NoDup (keys (td_tags d)) -> NoDup (keys pt) -> NoDup (keys pt') -> meq pt pt' ->
      dispatch_one o1 a p pt g d = dispatch_one o2 a p pt' g d.
  Proof.
    intros a p pt pt' g d Ha Hd Hp Hp' Hm. unfold dispatch_one.
    now rewrite (enabled_meq o1 o2 _ [pk_path p; g_name g; td_name d] (g_name g) _ _ Hs1 Hs2
                   (merge_nodup _ _ _ _ _) (merge_nodup _ _ _ _ _)
                   (merge_meq o1 o2 _ [pk_path p; g_name g; td_name d] _ pt pt' _ Hs1 Hs2 Ha Hp Hp' Hd Hm)).
  Qed.

  Lemma dispatch_eq : forall a p g, wf_args a -> wf_pkg p ->
      dispatch true o1 a p (pkg_tags o1 p) g = dispatch true o2 a p (pkg_tags o2 p) g.
  Proof.
    intros a p g Ha Hw. unfold dispatch. ukeys.
    pose proof (pkg_tags_meq p Hw) as M. pose proof (pkg_tags_nodup o1 p) as N1. pose proof (pkg_tags_nodup o2 p) as N2.
    pose proof (type_table_perm p Hw) as HT. pose proof (type_table_nodup o1 p Hs1 Hw) as HN.
    rewrite !sort_shuffled, (sort_perm_eq _ _ (Permutation_map fst HT)) by assumption.
    apply flat_map_ext. intros n. rewrite (lookup_perm _ _ n HN HT).
    destruct (lookup n (type_table true o2 p)) as [d|] eqn:E; [|reflexivity].
    apply dispatch_one_eq; try assumption.
    pose proof (wf_decltags p Hw) as HF. rewrite Forall_forall in HF. apply HF.
    eapply table_in_defs; eassumption.
  Qed.

  Lemma gen_one_eq : forall a p g, wf_args a -> wf_pkg p ->
      gen_one true true o1 a p (pkg_tags o1 p) g = gen_one true true o2 a p (pkg_tags o2 p) g.
  Proof.
    intros a p g Ha Hw. unfold gen_one. now rewrite dispatch_eq, meth_view_eq.
  Qed.

  Lemma gens_loop_eq : forall a p gs gfs log, wf_args a -> wf_pkg p ->
      gens_loop true true o1 a p (pkg_tags o1 p) gs gfs log = gens_loop true true o2 a p (pkg_tags o2 p) gs gfs log.
  Proof.
    intros a p gs. induction gs as [|g gs IH]; intros gfs log Ha Hw; cbn; [reflexivity|].
    rewrite gen_one_eq by assumption.
    destruct (gen_one true true o2 a p (pkg_tags o2 p) g) as [[calls og]|]; [|reflexivity]. now apply IH.
  Qed.

  Definition g_ok (o : oracle) (a : args) (p : pkg) (pt : alist bytes) (g : gen) : bool :=
    match gen_one true true o a p pt g with Some _ => true | None => false end.
  Definition g_entry (o : oracle) (a : args) (p : pkg) (pt : alist bytes) (g : gen) : alist genout :=
    match gen_one true true o a p pt g with Some (_, Some out) => [(g_name g, out)] | _ => [] end.
  Definition g_log (o : oracle) (a : args) (p : pkg) (pt : alist bytes) (g : gen) : calllog :=
    match gen_one true true o a p pt g with Some (calls, _) => [(pk_path p, g_name g, calls)] | None => [] end.

  Lemma gens_loop_spec : forall (o : oracle) a p pt gs gfs log,
      gens_loop true true o a p pt gs gfs log
      = if forallb (g_ok o a p pt) gs
        then Some (fold_left (fun m (kv : bytes * genout) => aset (fst kv) (snd kv) m) (flat_map (g_entry o a p pt) gs) gfs,
                   log ++ flat_map (g_log o a p pt) gs)
        else None.
  Proof.
    intros o a p pt. induction gs as [|g gs IH]; intros gfs log; cbn.
    - now rewrite app_nil_r.
    - unfold g_ok at 1, g_entry at 1, g_log at 1.
      destruct (gen_one true true o a p pt g) as [[calls og]|]; cbn; [|reflexivity].
      rewrite IH. destruct (forallb (g_ok o a p pt) gs); [|reflexivity]. rewrite <- app_assoc. now destruct og.
  Qed.

  Lemma gens_loop_nodup : forall (o : oracle) a p pt gs gfs log gfs' log',
      NoDup (keys gfs) -> gens_loop true true o a p pt gs gfs log = Some (gfs', log') -> NoDup (keys gfs').
  Proof.
    intros o a p pt gs gfs log gfs' log' HN H. rewrite gens_loop_spec in H. destruct (forallb _ _); [|discriminate].
    injection H as <- _. now apply (NoDup_keys_fold_aset fst snd).
  Qed.

  Lemma sorted_entries_eq : forall (o o' : oracle) s s' m m',
      shuffles o -> shuffles o' -> meq m m' -> Permutation (keys m) (keys m') ->
      sorted_entries o s m = sorted_entries o' s' m'.
  Proof.
    intros o o' s s' m m' Hs Hs' Hm HP. unfold sorted_entries. ukeys.
    rewrite !sort_shuffled, (sort_perm_eq _ _ HP) by assumption. apply map_ext. intros k. now rewrite Hm.
  Qed.

  Lemma mk_file_eq : forall p g out, mk_file o1 p g out = mk_file o2 p g out.
  Proof.
    intros p g out. unfold mk_file. f_equal.
    apply sorted_entries_eq; try assumption; [apply meq_refl|apply Permutation_refl].
  Qed.

  Definition wl_ok (o : oracle) (p : pkg) (kv : bytes * genout) : bool :=
    is_nil (go_body (snd kv)) || match render (mk_file o p (fst kv) (snd kv)) with Some _ => true | None => false end.

  Definition wl_eff (o : oracle) (a : args) (p : pkg) (kv : bytes * genout) : list effect :=
    if is_nil (go_body (snd kv)) then []
    else match render (mk_file o p (fst kv) (snd kv)) with
         | Some b => [EWrite (pk_dir p, filename a (fst kv)) b]
         | None => []
         end.

  Lemma write_loop_spec : forall (o : oracle) a p l stale acc,
      write_loop render o a p l stale acc
      = if forallb (wl_ok o p) l
        then Some (acc ++ flat_map (wl_eff o a p) l, fold_left (fun s (kv : bytes * genout) => adel (filename a (fst kv)) s) l stale)
        else None.
  Proof.
    intros o a p. induction l as [|[g out] r IH]; intros stale acc; cbn.
    - now rewrite app_nil_r.
    - unfold wl_ok at 1, wl_eff at 1. cbn. destruct (is_nil (go_body out)) eqn:E; cbn.
      + apply IH.
      + destruct (render (mk_file o p g out)); cbn; [|reflexivity].
        rewrite IH. destruct (forallb (wl_ok o p) r); [|reflexivity]. now rewrite <- app_assoc.
  Qed.

  Lemma wl_ok_eq : forall p kv, wl_ok o1 p kv = wl_ok o2 p kv.
  Proof. intros p kv. unfold wl_ok. now rewrite mk_file_eq. Qed.

  Lemma wl_eff_in : forall (o : oracle) a p l e, In e (flat_map (wl_eff o a p) l) ->
      exists g out b, In (g, out) l /\ is_nil (go_body out) = false /\ render (mk_file o p g out) = Some b
                      /\ e = EWrite (pk_dir p, filename a g) b.
  Proof.
    intros o a p l e H. apply in_flat_map in H. destruct H as [[g out] [Hin He]]. unfold wl_eff in He. cbn in He.
    destruct (is_nil (go_body out)) eqn:E; [contradiction|].
    destruct (render (mk_file o p g out)) as [b|] eqn:R; [|contradiction]. destruct He as [<-|[]].
    exists g, out, b. auto.
  Qed.

  Lemma wl_eff_paths : forall (o : oracle) a p l,
      NoDup (keys l) -> NoDup (map eff_path (flat_map (wl_eff o a p) l)).
  Proof.
    intros o a p l HN. apply (NoDup_flat_map_key (fun kv => (pk_dir p, filename a (fst kv)))).
    - intros [g out]. unfold wl_eff. cbn. destruct (is_nil (go_body out)); [now left|].
      destruct (render (mk_file o p g out)); [right; eauto|now left].
    - rewrite <- (map_map fst (fun g => (pk_dir p, filename a g))). apply FinFun.Injective_map_NoDup; [|exact HN].
      intros g1 g2 [= H]. exact (filename_inj a g1 g2 H).
  Qed.

  (* what pkgExecute does once the generators have run: write the files, remove the stale ones *)
  Definition finish_effects (o : oracle) (a : args) (p : pkg) (gfs : alist genout) : list effect :=
    flat_map (wl_eff o a p) (o _ [bs "gfs"; pk_path p] gfs) ++ map (fun kv : bytes * path => ERemove (snd kv)) (stale_of o a p gfs).

  Definition finish (o : oracle) (a : args) (p : pkg) (gfs : alist genout) : option (list effect) :=
    if forallb (wl_ok o p) (o _ [bs "gfs"; pk_path p] gfs) then Some (finish_effects o a p gfs) else None.

  Lemma pkg_execute_spec : forall (o : oracle) a gens p,
      pkg_execute true true render o a gens p
      = match gens_loop true true o a p (pkg_tags o p) gens [] [] with
        | Some (gfs, log) => option_map (fun es => (es, log)) (finish o a p gfs)
        | None => None
        end.
  Proof.
    intros o a gens p. unfold pkg_execute, finish, finish_effects, stale_of.
    destruct (gens_loop true true o a p (pkg_tags o p) gens [] []) as [[gfs log]|]; [|reflexivity].
    rewrite write_loop_spec. now destruct (forallb _ _).
  Qed.

  (* [finish_effects] as a set: a write per generator that rendered something, a removal per listed file named
     <base>.* that is no generator's file *)
  Lemma finish_effects_In : forall (o : oracle) a p gfs e, shuffles o ->
      In e (finish_effects o a p gfs)
      <-> (exists g out b, In (g, out) gfs /\ is_nil (go_body out) = false /\ render (mk_file o p g out) = Some b
                           /\ e = EWrite (pk_dir p, filename a g) b)
          \/ (exists k, (In k (pk_files p) /\ is_gen_name a k = true) /\ (forall g, In g (keys gfs) -> k <> filename a g)
                        /\ e = ERemove (pk_dir p, k)).
  Proof.
    intros o a p gfs e Hs. unfold finish_effects. rewrite in_app_iff. split; (intros [H|H]; [left|right]).
    - destruct (wl_eff_in o a p _ e H) as [g [out [b [Hg Hr]]]]. apply (shuffled_In o) in Hg; [|exact Hs]. now exists g, out, b.
    - apply in_map_iff in H. destruct H as [[k v] [<- H]]. apply (stale_of_In o a p gfs k v Hs) in H.
      destruct H as [-> H]. now exists k.
    - destruct H as [g [out [b [Hin [Hb [R ->]]]]]]. apply in_flat_map. exists (g, out). split; [now apply shuffled_In|].
      unfold wl_eff. cbn. rewrite Hb, R. now left.
    - destruct H as [k [H1 [H2 ->]]]. apply in_map_iff. exists (k, (pk_dir p, k)). split; [reflexivity|]. now apply stale_of_In.
  Qed.

  (* a file per generator, a removal per stale name, and no stale name is a generator's file: no path twice *)
  Lemma finish_effects_nodup : forall (o : oracle) a p gfs, shuffles o -> NoDup (keys gfs) ->
      NoDup (map eff_path (finish_effects o a p gfs)).
  Proof.
    intros o a p gfs Hs HN. unfold finish_effects. rewrite map_app, map_map. apply Order.NoDup_app_intro.
    - now apply wl_eff_paths, shuffled_NoDup.
    - apply (NoDup_map_snd_dir (pk_dir p)).
      + apply shuffled_NoDup, NoDup_keys_fold_adel, (generated_files_spec a p). exact Hs.
      + intros [k v] Hin. now destruct (proj1 (stale_of_In o a p gfs k v Hs) Hin) as [-> _].
    - intros q Hq1 Hq2. apply in_map_iff in Hq1. destruct Hq1 as [e [<- He]]. apply in_map_iff in Hq2. destruct Hq2 as [[k v] [Hv Hkv]].
      destruct (wl_eff_in o a p _ e He) as [g [out [b [Hg [_ [_ ->]]]]]]. apply (shuffled_In o) in Hg; [|exact Hs].
      destruct (proj1 (stale_of_In o a p gfs k v Hs) Hkv) as [-> [_ Hne]]. injection Hv as ->.
      exact (Hne g (in_map fst _ _ Hg) eq_refl).
  Qed.

  (* the same generator files in another order, under another behaviour of the runtime *)
  Lemma finish_rel : forall a p gfs1 gfs2, Permutation gfs1 gfs2 -> NoDup (keys gfs1) ->
      match finish o1 a p gfs1, finish o2 a p gfs2 with
      | Some e1, Some e2 => aeq e1 e2
      | None, None => True
      | _, _ => False
      end.
  Proof.
    intros a p gfs1 gfs2 HP0 HN. unfold finish.
    pose proof (oracle_perm o1 o2 [bs "gfs"; pk_path p] [bs "gfs"; pk_path p] gfs1 gfs2 Hs1 Hs2 HP0) as HP.
    rewrite (forallb_perm _ _ _ HP), (forallb_ext' (wl_ok o1 p) (wl_ok o2 p)) by apply wl_ok_eq.
    destruct (forallb (wl_ok o2 p) (o2 _ [bs "gfs"; pk_path p] gfs2)); [|exact I].
    apply aeq_perm_distinct; [now apply finish_effects_nodup|]. unfold finish_effects, stale_of. apply Permutation_app.
    - rewrite (flat_map_ext _ (wl_eff o2 a p)) by (intros kv; unfold wl_eff; now rewrite mk_file_eq). now apply Permutation_flat_map.
    - (* the deletes from the stale map commute *)
      apply Permutation_map, oracle_perm; try assumption.
      rewrite (fold_left_comm_perm _ (fun s x y => adel_comm s _ _) _ _ HP). apply Permutation_refl.
  Qed.

  Lemma pkg_execute_rel : forall a gens p, wf_args a -> wf_pkg p ->
      prel (pkg_execute true true render o1 a gens p) (pkg_execute true true render o2 a gens p).
  Proof.
    intros a gens p Ha Hw. rewrite !pkg_execute_spec, gens_loop_eq by assumption.
    destruct (gens_loop true true o2 a p (pkg_tags o2 p) gens [] []) as [[gfs log]|] eqn:G; [|exact I].
    pose proof (finish_rel a p gfs gfs (Permutation_refl _) (gens_loop_nodup o2 a p _ gens [] [] gfs log (NoDup_nil _) G)) as HR.
    destruct (finish o1 a p gfs), (finish o2 a p gfs); cbn; auto.
  Qed.

  Lemma reg_fold {V} (vf : pkg -> V) : forall (o : oracle) w, shuffles o -> NoDup (map pk_path (w_pkgs w)) ->
      fold_left (fun m p => aset (pk_path p) (vf p) m) (o _ [bs "reg"] (w_pkgs w)) []
      = map (fun p => (pk_path p, vf p)) (o _ [bs "reg"] (w_pkgs w)).
  Proof. intros o w Hs Hw. rewrite fold_aset_nodup; [reflexivity|]. apply shuffled_NoDup; [exact Hs|exact Hw]. Qed.

  Lemma local_pkgs_eq : forall (o : oracle) e w, shuffles o -> NoDup (map pk_path (w_pkgs w)) ->
      local_pkgs o e w = map (fun p => (pk_path p, mem (pk_path p) e)) (o _ [bs "reg"] (w_pkgs w)).
  Proof. intros o e w. apply reg_fold. Qed.

  Lemma sum_data_eq : forall (o : oracle) w, shuffles o -> wf_world w ->
      sum_data o w = map (fun p => (pk_path p, pk_hash p)) (o _ [bs "reg"] (w_pkgs w)).
  Proof. intros o w Hs [Hw _]. now apply reg_fold. Qed.

  Lemma sum_data_perm : forall w, wf_world w ->
      Permutation (sum_data o1 w) (sum_data o2 w) /\ NoDup (keys (sum_data o1 w)).
  Proof.
    intros w Hw. rewrite !sum_data_eq by assumption. split; [now apply Permutation_map, oracle_perm|].
    rewrite map_map. apply shuffled_NoDup; [exact Hs1|exact (wf_paths w Hw)].
  Qed.

  Lemma sorted_local_canon : forall (o : oracle) e w, shuffles o -> NoDup (map pk_path (w_pkgs w)) ->
      sorted_local o e w = map (fun k => (k, mem k e)) (sort_strings (map pk_path (w_pkgs w))).
  Proof.
    intros o e w Hs Hw. unfold sorted_local. rewrite (local_pkgs_eq o e w Hs Hw). ukeys.
    rewrite sort_shuffled, map_map, sort_shuffled by exact Hs. cbn [fst].
    set (L := map (fun p => (pk_path p, mem (pk_path p) e)) (o _ [bs "reg"] (w_pkgs w))).
    apply map_ext_in. intros k Hk. f_equal.
    rewrite <- (sort_perm (map pk_path (w_pkgs w))) in Hk. apply in_map_iff in Hk. destruct Hk as [p [<- Hp]].
    rewrite (lookup_In L (pk_path p) (mem (pk_path p) e)); [reflexivity| |].
    - unfold L. rewrite map_map. apply shuffled_NoDup; [exact Hs|exact Hw].
    - unfold L. apply in_map_iff. exists p. split; [reflexivity|]. now apply shuffled_In.
  Qed.

  Lemma sorted_local_eq : forall e1 e2 w, wf_world w -> Permutation e1 e2 ->
      sorted_local o1 e1 w = sorted_local o2 e2 w.
  Proof.
    intros e1 e2 w [Hw _] He. rewrite !sorted_local_canon by assumption. apply map_ext. intros k. now rewrite (mem_perm k e1 e2).
  Qed.

  Lemma find_pkg_wf : forall k w p, wf_world w -> find_pkg k w = Some p -> wf_pkg p.
  Proof.
    intros k w p Hw H. unfold find_pkg in H. apply find_some in H. destruct H as [Hin _].
    pose proof (wf_pkgs w Hw) as HF. rewrite Forall_forall in HF. now apply HF.
  Qed.

  Lemma sum_bytes_eq : forall w, wf_world w -> sum_bytes o1 (sum_data o1 w) = sum_bytes o2 (sum_data o2 w).
  Proof.
    intros w Hw. unfold sum_bytes. destruct (sum_data_perm w Hw) as [HP HN].
    now rewrite (sorted_entries_eq o1 o2 [bs "sum"] [bs "sum"] _ _ Hs1 Hs2 (perm_meq _ _ HN HP) (Permutation_map fst HP)).
  Qed.
End Sites.

Definition out_equiv (r1 r2 : option (fs * calllog)) : Prop :=
  match r1, r2 with
  | None, None => True
  | Some (f1, l1), Some (f2, l2) => feq f1 f2 /\ l1 = l2
  | _, _ => False
  end.

Lemma run_order_independent : forall render parse_sum (o1 o2 : oracle) a e1 e2 w gens f,
    shuffles o1 -> shuffles o2 -> wf_args a -> wf_world w -> Permutation e1 e2 ->
    out_equiv (run true true render parse_sum o1 a e1 w gens f) (run true true render parse_sum o2 a e2 w gens f).
Proof.
  intros render parse_sum o1 o2 a e1 e2 w gens f Hs1 Hs2 Ha Hw He. destruct (sum_data_perm o1 o2 Hs1 Hs2 w Hw) as [HP HN].
  apply (run_lrel render parse_sum o1 o2 eq);
    [now intros ? ? ? ? -> ->| |reflexivity|now apply sorted_local_eq|now apply perm_meq|now apply sum_bytes_eq].
  intros k p F. apply pkg_execute_rel; [exact Hs1|exact Hs2|exact Ha|exact (find_pkg_wf k w p Hw F)].
Qed.

Lemma run_feq : forall render parse_sum (o : oracle) a e w gens f f',
    feq f f' ->
    out_equiv (run true true render parse_sum o a e w gens f) (run true true render parse_sum o a e w gens f').
Proof.
  intros render parse_sum o a e w gens f f' H. unfold run, plan. rewrite (H (w_moddir w, sum_name)).
  destruct (pkgs_loop true true render o a w gens _ _ _ [] []) as [[es lg]|]; [|exact I].
  split; [now apply apply_feq|reflexivity].
Qed.

Definition sum_line (kv : bytes * bytes) : bytes := fst kv ++ bs " " ++ snd kv ++ bs (String "010"%char EmptyString).

Lemma entries_of_keys {V} (d : V) : forall m : alist V, NoDup (keys m) ->
    map (fun k => (k, match lookup k m with Some v => v | None => d end)) (keys m) = m.
Proof.
  intros m HN. rewrite map_map.
  rewrite <- (map_id m) at 2. apply map_ext_in. intros [k v] Hin. cbn.
  now rewrite (lookup_In m k v HN Hin).
Qed.

Lemma oid_shuffles : shuffles oid.
Proof. intros A s l. apply Permutation_refl. Qed.

Lemma sum_bytes_sorted : forall (o : oracle) m, shuffles o -> NoDup (keys m) ->
    let es := sorted_entries o [bs "sum"] m in
    sum_bytes o m = concat (map sum_line es)
    /\ es = sorted_entries oid [bs "sum"] m
    /\ Permutation es m
    /\ keys es = sort_strings (keys m)
    /\ StronglySorted (fun a b => bytes_leb a b = true) (keys es)
    /\ NoDup (keys es).
Proof.
  intros o m Hs HN es.
  assert (Hk : keys es = sort_strings (keys m)).
  { unfold es, sorted_entries. rewrite map_map. cbn. rewrite map_id. ukeys. now apply sort_shuffled. }
  split; [reflexivity|]. split; [|split; [|split; [exact Hk|split]]].
  - unfold es. apply sorted_entries_eq; [exact Hs|exact oid_shuffles|apply meq_refl|apply Permutation_refl].
  - unfold es, sorted_entries. ukeys. rewrite sort_shuffled by exact Hs. rewrite <- (entries_of_keys [] m HN) at 2.
    apply Permutation_map, Permutation_sym, sort_perm.
  - rewrite Hk. apply sort_sorted.
  - rewrite Hk. eapply Permutation_NoDup; [apply sort_perm|exact HN].
Qed.

(* Before the repairs (name table filled from every scope, method lists in range order) two behaviours of the runtime
   tell two runs on one module apart. *)

Definition rev_oracle : oracle := fun A _ l => rev l.

Lemma rev_oracle_shuffles : shuffles rev_oracle.
Proof. intros A s l. apply Permutation_rev. Qed.

(* type T struct{} tagged +gengo:rec, next to func F[T any]() *)
Definition wit_pkg : pkg :=
  mk_pkg (bs "m/a") (bs "a") (bs "a") [bs "f0.go"] []
         [mk_tdef (bs "T") 306 KNamed true false [(bs "gengo:rec", [])];
          mk_tdef (bs "T") 608 KOther false false []]
         [mk_meth 306 (bs "M0") 1006 false; mk_meth 306 (bs "M1") 1206 false]
         (bs "h1:x").
Definition wit_world : world := mk_world (bs ".") [wit_pkg].
Definition wit_args : args := mk_args [] (bs "zz_generated") true false.
Definition wit_gens : list gen :=
  [scripted (bs "rec") false [(bs "m/a", [(306%N, mk_frag ORender [bs "G"] [] (Some (bs "Gm")) [] [])])]].
Definition wit_render (f : gfile) : option bytes := Some (gf_body f).
Definition wit_fs : fs := fun _ => None.

Definition log_of (r : option (fs * calllog)) : option calllog := option_map snd r.
Definition file_of (r : option (fs * calllog)) (q : path) : option bytes :=
  match r with Some (f, _) => f q | None => None end.

Lemma table_fold_refuted :
  log_of (run false true wit_render (fun _ => []) oid wit_args [bs "m/a"] wit_world wit_gens wit_fs)
  <> log_of (run false true wit_render (fun _ => []) rev_oracle wit_args [bs "m/a"] wit_world wit_gens wit_fs).
Proof. vm_compute. discriminate. Qed.

Lemma methods_order_refuted :
  file_of (run true false wit_render (fun _ => []) oid wit_args [bs "m/a"] wit_world wit_gens wit_fs) (bs "a", bs "zz_generated.rec.go")
  <> file_of (run true false wit_render (fun _ => []) rev_oracle wit_args [bs "m/a"] wit_world wit_gens wit_fs) (bs "a", bs "zz_generated.rec.go").
Proof. vm_compute. discriminate. Qed.

Ltac solve_nodup := repeat (constructor; [cbn; intuition discriminate|]); try constructor.

Lemma wit_world_wf : wf_world wit_world.
Proof.
  split; cbn.
  - solve_nodup.
  - constructor; [|constructor]. split; cbn.
    + solve_nodup.
    + constructor.
    + repeat constructor; cbn; intuition discriminate.
    + solve_nodup.
Qed.

Lemma wit_run_nontrivial :
  log_of (run true true wit_render (fun _ => []) rev_oracle wit_args [bs "m/a"] wit_world wit_gens wit_fs)
  = Some [(bs "m/a", bs "rec", [mk_call CType (bs "T") 306])]
  /\ file_of (run true true wit_render (fun _ => []) rev_oracle wit_args [bs "m/a"] wit_world wit_gens wit_fs) (bs "a", bs "zz_generated.rec.go")
     = Some (bs "G;Gm(M0,M1,);").
Proof. vm_compute. split; reflexivity. Qed.

(* two loads of the same sources: the files present and the directory hashes may differ *)
Definition src_eq (p p' : pkg) : Prop :=
  pk_path p = pk_path p' /\ pk_name p = pk_name p' /\ pk_dir p = pk_dir p'
  /\ pk_filetags p = pk_filetags p' /\ pk_defs p = pk_defs p' /\ pk_meths p = pk_meths p'.

Definition reload (w w' : world) : Prop := w_moddir w = w_moddir w' /\ Forall2 src_eq (w_pkgs w) (w_pkgs w').

(* the hypothesis on generators: what they render depends on the sources only — not on which generated
   files exist, nor on the directory hash (they do not read generated files) *)
Definition reads_sources_only (g : gen) : Prop :=
  forall p p' mv cs, src_eq p p' -> g_run g p mv cs = g_run g p' mv cs.

Lemma reload_paths : forall w w', reload w w' -> map pk_path (w_pkgs w) = map pk_path (w_pkgs w').
Proof.
  intros w w' [_ H]. induction H as [|p p' l l' Hp _ IH]; cbn; [reflexivity|].
  destruct Hp as [-> _]. now rewrite IH.
Qed.

Lemma find_pkg_reload : forall w w' k p', reload w w' -> find_pkg k w' = Some p' ->
    exists p, find_pkg k w = Some p /\ src_eq p p'.
Proof.
  intros w w' k p' [_ H]. unfold find_pkg. induction H as [|p q l l' Hp _ IH]; cbn; [discriminate|].
  pose proof Hp as [Hpath _]. rewrite Hpath. destruct (bytes_eqb k (pk_path q)); [|exact IH].
  intros [= <-]. eauto.
Qed.

Lemma find_pkg_some : forall w k, In k (map pk_path (w_pkgs w)) -> exists p, find_pkg k w = Some p.
Proof.
  intros w k H. unfold find_pkg. rewrite (Assoc.find_by_get bytes_eqb pk_path : forall k l, find _ l = _).
  apply (Assoc.get_Some_keys _ bytes_eqbP). now rewrite map_map.
Qed.

Lemma find_pkg_path : forall w k p, find_pkg k w = Some p -> pk_path p = k /\ In p (w_pkgs w).
Proof. intros w k p H. apply (Assoc.find_by_Some _ _ bytes_eqbP) in H. tauto. Qed.

Lemma generated_not_sum : forall a (md : bytes) q, is_gen_name a sum_name = false -> generated a q = true -> q <> (md, sum_name).
Proof. intros a md q Hs Hg ->. unfold generated in Hg. cbn [snd] in Hg. congruence. Qed.

Section Rerun.
  Variable render : gfile -> option bytes.
  Variable parse_sum : bytes -> alist bytes.
  Variable o : oracle.
  Hypothesis Hs : shuffles o.

  (* a package's generated files are exactly what its generators produce *)
  Definition settled_pkg (a : args) (gens : list gen) (p : pkg) (f : fs) : Prop :=
    exists gfs log,
      gens_loop true true o a p (pkg_tags o p) gens [] [] = Some (gfs, log)
      /\ (forall g out, In (g, out) gfs -> is_nil (go_body out) = false ->
                        exists b, render (mk_file o p g out) = Some b /\ f (pk_dir p, filename a g) = Some b)
      /\ (forall k, is_gen_name a k = true -> f (pk_dir p, k) <> None ->
                    exists g, In g (keys gfs) /\ k = filename a g).

  Definition settled (a : args) (e : list bytes) (gens : list gen) (w : world) (f : fs) : Prop :=
    forall k p, In k (map pk_path (w_pkgs w)) -> selected a (mem k e) = true -> find_pkg k w = Some p ->
                settled_pkg a gens p f.

  Lemma gen_one_src : forall a p p' g, src_eq p p' -> reads_sources_only g ->
      gen_one true true o a p (pkg_tags o p) g = gen_one true true o a p' (pkg_tags o p') g.
  Proof.
    intros a p [pa' na' da' fa' ta' de' me' ha'] g H Hg.
    pose proof H as [E1 [E2 [E3 [E4 [E5 E6]]]]]. cbn in *. subst.
    unfold gen_one. rewrite (Hg _ _ _ _ H). reflexivity.
  Qed.

  Lemma gens_loop_src : forall a p p' gs gfs log, src_eq p p' -> Forall reads_sources_only gs ->
      gens_loop true true o a p (pkg_tags o p) gs gfs log = gens_loop true true o a p' (pkg_tags o p') gs gfs log.
  Proof.
    intros a p p' gs. induction gs as [|g gs IH]; intros gfs log H HF; cbn; [reflexivity|].
    apply Forall_cons_iff in HF. destruct HF as [Hg HF]. rewrite (gen_one_src a p p' g H Hg).
    destruct (gen_one true true o a p' (pkg_tags o p') g) as [[calls og]|]; [|reflexivity].
    pose proof H as [E _]. rewrite E. now apply IH.
  Qed.

  Lemma mk_file_src : forall p p' g out, src_eq p p' -> mk_file o p g out = mk_file o p' g out.
  Proof. intros p p' g out [E1 [E2 _]]. unfold mk_file. now rewrite E1, E2. Qed.

  Lemma settled_pkg_src : forall a gens p p' f, src_eq p p' -> Forall reads_sources_only gens ->
      settled_pkg a gens p f -> settled_pkg a gens p' f.
  Proof.
    intros a gens p p' f H HF [gfs [log [G [C1 C2]]]]. exists gfs, log.
    rewrite <- (gens_loop_src a p p' gens [] [] H HF). split; [exact G|].
    pose proof H as [_ [_ [Ed _]]]. rewrite <- Ed. split; [|exact C2].
    intros g out Hin Hb. rewrite <- (mk_file_src p p' g out H). now apply C1.
  Qed.

  (* executing a settled package changes nothing *)
  Lemma pkg_execute_settled : forall a gens p f, settled_pkg a gens p f ->
      exists es log, pkg_execute true true render o a gens p = Some (es, log) /\ forall e, In e es -> eff_id f e.
  Proof.
    intros a gens p f [gfs [log [G [C1 C2]]]]. rewrite pkg_execute_spec, G. unfold finish.
    assert (Hok : forallb (wl_ok render o p) (o _ [bs "gfs"; pk_path p] gfs) = true).
    { apply forallb_forall. intros [g out] Hin. apply (shuffled_In o) in Hin; [|exact Hs]. unfold wl_ok. cbn.
      destruct (is_nil (go_body out)) eqn:E; [reflexivity|]. destruct (C1 g out Hin E) as [b [R _]]. now rewrite R. }
    rewrite Hok. eexists _, log. split; [reflexivity|]. intros e Hin. apply (finish_effects_In render o a p gfs e Hs) in Hin.
    destruct Hin as [[g [out [b [Hg [E [R ->]]]]]]|[k [[_ Hgen] [Hne ->]]]]; cbn.
    - destruct (C1 g out Hg E) as [b' [R' F]]. rewrite R in R'. injection R' as <-. exact F.
    - destruct (f (pk_dir p, k)) eqn:F; [|reflexivity]. exfalso.
      destruct (C2 k Hgen) as [g [Hgin ->]]; [rewrite F; discriminate|]. exact (Hne g Hgin eq_refl).
  Qed.

  (* Execute's loop in closed form: the entries it executes, and what each contributes *)
  Definition visits (a : args) prev cur (kd : bytes * bool) : bool :=
    selected a (snd kd) && pkg_changed a prev cur (fst kd).
  Definition pkg_at a w gens (kd : bytes * bool) : option (list effect * calllog) :=
    match find_pkg (fst kd) w with Some p => pkg_execute true true render o a gens p | None => None end.
  Definition ok_at a w gens kd : bool := if pkg_at a w gens kd then true else false.
  Definition effs_at a w gens kd : list effect := match pkg_at a w gens kd with Some r => fst r | None => [] end.
  Definition log_at a w gens kd : calllog := match pkg_at a w gens kd with Some r => snd r | None => [] end.

  Lemma pkgs_loop_spec : forall a w gens prev cur l es log,
      pkgs_loop true true render o a w gens prev cur l es log
      = if forallb (ok_at a w gens) (filter (visits a prev cur) l)
        then Some (es ++ flat_map (effs_at a w gens) (filter (visits a prev cur) l),
                   log ++ flat_map (log_at a w gens) (filter (visits a prev cur) l))
        else None.
  Proof.
    intros a w gens prev cur. induction l as [|[k d] r IH]; intros es log; cbn [pkgs_loop filter].
    - cbn. now rewrite !app_nil_r.
    - change (visits a prev cur (k, d)) with ((a_all a || d) && pkg_changed a prev cur k). rewrite <- negb_orb.
      destruct (a_all a || d); cbn [negb andb]; [|apply IH]. destruct (pkg_changed a prev cur k); cbn [negb]; [|apply IH].
      cbn [forallb flat_map]. unfold ok_at at 1, effs_at at 1, log_at at 1, pkg_at. cbn [fst].
      destruct (find_pkg k w) as [p|]; [|reflexivity].
      destruct (pkg_execute true true render o a gens p) as [[es1 lg1]|]; [|reflexivity].
      rewrite IH. cbn [andb fst snd]. destruct (forallb _ _); [|reflexivity]. now rewrite <- !app_assoc.
  Qed.

  (* a run on a settled tree: only gengo.sum may change *)
  Lemma run_settled : forall a e gens w f, NoDup (map pk_path (w_pkgs w)) -> settled a e gens w f ->
      exists f' log, run true true render parse_sum o a e w gens f = Some (f', log)
                     /\ forall q, q <> (w_moddir w, sum_name) -> f' q = f q.
  Proof.
    intros a e gens w f Hw Hset. unfold run, plan. rewrite pkgs_loop_spec.
    set (prev := if a_all a && existsb snd (sorted_local o e w) then _ else None).
    assert (Hv : forall kd, In kd (filter (visits a prev (sum_data o w)) (sorted_local o e w)) ->
                   ok_at a w gens kd = true /\ forall x, In x (effs_at a w gens kd) -> eff_id f x).
    { intros [k d] Hin. apply filter_In in Hin. destruct Hin as [Hin Hv]. apply andb_prop, proj1 in Hv. cbn in Hv.
      rewrite (sorted_local_canon o e w Hs Hw) in Hin. apply in_map_iff in Hin. destruct Hin as [k' [[= <- <-] Hk]].
      rewrite <- (sort_perm (map pk_path (w_pkgs w))) in Hk. destruct (find_pkg_some w k' Hk) as [p F].
      destruct (pkg_execute_settled a gens p f (Hset k' p Hk Hv F)) as [es1 [lg [X Hid]]].
      unfold ok_at, effs_at, pkg_at. cbn [fst]. now rewrite F, X. }
    rewrite (proj2 (forallb_forall _ _) (fun kd H => proj1 (Hv kd H))). eexists _, _. split; [reflexivity|].
    intros q Hq. rewrite apply_then_write by exact Hq. apply apply_id. intros x Hx.
    apply in_flat_map in Hx. destruct Hx as [kd [Hin Hx]]. exact (proj2 (Hv kd Hin) x Hx).
  Qed.

  (* every file named <base>.* that exists in a package directory was listed when the package was loaded *)
  Definition loaded (a : args) (w : world) (f : fs) : Prop :=
    forall p k, In p (w_pkgs w) -> is_gen_name a k = true -> f (pk_dir p, k) <> None -> In k (pk_files p).

  (* the run regenerates every selected package: Force, or no cache (not All / no previous gengo.sum) *)
  Definition regen_all (a : args) (w : world) (f : fs) : Prop :=
    a_force a = true \/ a_all a = false \/ f (w_moddir w, sum_name) = None.

  Lemma pkg_execute_shape : forall a gens p es log,
      pkg_execute true true render o a gens p = Some (es, log) ->
      exists gfs,
        gens_loop true true o a p (pkg_tags o p) gens [] [] = Some (gfs, log)
        /\ forallb (wl_ok render o p) (o _ [bs "gfs"; pk_path p] gfs) = true
        /\ es = finish_effects render o a p gfs.
  Proof.
    intros a gens p es log H. rewrite pkg_execute_spec in H.
    destruct (gens_loop true true o a p (pkg_tags o p) gens [] []) as [[gfs lg]|]; [|discriminate].
    unfold finish in H. destruct (forallb (wl_ok render o p) (o _ [bs "gfs"; pk_path p] gfs)) eqn:F; [|discriminate].
    injection H as <- <-. exists gfs. split; [reflexivity|]. split; [exact F|reflexivity].
  Qed.

  Lemma pkg_execute_paths : forall a gens p es log,
      pkg_execute true true render o a gens p = Some (es, log) ->
      forall e, In e es -> fst (eff_path e) = pk_dir p /\ is_gen_name a (snd (eff_path e)) = true.
  Proof.
    intros a gens p es log H e Hin. destruct (pkg_execute_shape a gens p es log H) as [gfs [_ [_ ->]]].
    apply (finish_effects_In render o a p gfs e Hs) in Hin.
    destruct Hin as [[g [out [b [_ [_ [_ ->]]]]]]|[k [[_ Hg] [_ ->]]]]; cbn; auto using filename_is_gen.
  Qed.

  Lemma pkg_execute_nodup : forall a gens p es log,
      pkg_execute true true render o a gens p = Some (es, log) -> NoDup (map eff_path es).
  Proof.
    intros a gens p es log H. destruct (pkg_execute_shape a gens p es log H) as [gfs [G [_ ->]]].
    apply finish_effects_nodup; [exact Hs|]. eapply (gens_loop_nodup o); [|exact G]. constructor.
  Qed.

  Lemma pkg_execute_settles : forall a gens p es log f f1,
      pkg_execute true true render o a gens p = Some (es, log) ->
      (forall k, is_gen_name a k = true -> f (pk_dir p, k) <> None -> In k (pk_files p)) ->
      (forall k, is_gen_name a k = true -> f1 (pk_dir p, k) = apply es f (pk_dir p, k)) ->
      settled_pkg a gens p f1.
  Proof.
    intros a gens p es log f f1 H Hload Hf1. pose proof (pkg_execute_nodup a gens p es log H) as HN.
    destruct (pkg_execute_shape a gens p es log H) as [gfs [G [Hok ->]]].
    pose proof (finish_effects_In render o a p gfs) as HI.
    exists gfs, log. split; [exact G|]. split.
    - intros g out Hin Hb. rewrite forallb_forall in Hok.
      pose proof (Hok (g, out) (proj2 (shuffled_In o _ gfs (g, out) Hs) Hin)) as Hk. unfold wl_ok in Hk. cbn in Hk. rewrite Hb in Hk.
      destruct (render (mk_file o p g out)) as [b|] eqn:R; [|discriminate]. exists b. split; [reflexivity|].
      rewrite Hf1 by apply filename_is_gen. apply (apply_In _ f (EWrite (pk_dir p, filename a g) b) HN).
      apply HI; [exact Hs|]. left. exists g, out, b. auto.
    - intros k Hg Hne. rewrite (Hf1 k Hg) in Hne.
      destruct (apply_at (finish_effects render o a p gfs) (pk_dir p, k)) as [[e [Hin [Hp E]]]|[Hno E]]; rewrite E in Hne.
      + apply HI in Hin; [|exact Hs].
        destruct Hin as [[g [out [b [Hgin [_ [_ ->]]]]]]|[k' [_ [_ ->]]]]; [|now contradiction Hne].
        injection Hp as <-. exists g. split; [apply (in_map fst _ _ Hgin)|reflexivity].
      + (* untouched, so it was there and is listed: a generator's file, or it would have been removed *)
        destruct (in_dec bytes_dec k (map (filename a) (keys gfs))) as [Hk|Hk].
        * apply in_map_iff in Hk. destruct Hk as [g [<- Hgin]]. eauto.
        * exfalso. apply (Hno (ERemove (pk_dir p, k))); [|reflexivity]. apply HI; [exact Hs|]. right. exists k.
          split; [split; [now apply Hload|exact Hg]|]. split; [|reflexivity]. intros g Hgin ->. exact (Hk (in_map _ _ _ Hgin)).
  Qed.

  (* the packages work in different directories: in the directory of p the run does what p's own list does *)
  Lemma effs_at_local : forall a w gens l p es_p lg f q,
      NoDup (map pk_dir (w_pkgs w)) -> In p (w_pkgs w) ->
      pkg_execute true true render o a gens p = Some (es_p, lg) -> incl es_p (flat_map (effs_at a w gens) l) ->
      fst q = pk_dir p ->
      apply (flat_map (effs_at a w gens) l) f q = apply es_p f q.
  Proof.
    intros a w gens l p es_p lg f q Hdir Hp X Hi Hq.
    apply apply_restrict; [exact (pkg_execute_nodup a gens p es_p lg X)|exact Hi|].
    intros e He <-. apply in_flat_map in He. destruct He as [kd [_ He]]. unfold effs_at, pkg_at in He.
    destruct (find_pkg (fst kd) w) as [p1|] eqn:F; [|contradiction].
    destruct (pkg_execute true true render o a gens p1) as [[es1 lg1]|] eqn:X1; [|contradiction]. cbn in He.
    rewrite (proj1 (pkg_execute_paths a gens p1 es1 lg1 X1 e He)) in Hq.
    apply (NoDup_map_inj_in pk_dir (w_pkgs w) p1 p Hdir (proj2 (find_pkg_path w _ p1 F)) Hp) in Hq. subst p1.
    rewrite X in X1. now injection X1 as <- _.
  Qed.

  Lemma first_run_settles : forall a e gens w f f1 log,
      wf_world w -> NoDup (map pk_dir (w_pkgs w)) -> is_gen_name a sum_name = false ->
      loaded a w f -> regen_all a w f ->
      run true true render parse_sum o a e w gens f = Some (f1, log) ->
      settled a e gens w f1.
  Proof.
    intros a e gens w f f1 log Hw Hdirs Hsum Hload Hregen H. unfold run, plan in H. rewrite pkgs_loop_spec in H.
    set (prev := if a_all a && existsb snd (sorted_local o e w) then _ else None) in H.
    set (V := filter (visits a prev (sum_data o w)) (sorted_local o e w)) in H.
    destruct (forallb (ok_at a w gens) V) eqn:Hok; [|discriminate]. injection H as <- _.
    assert (Hch : forall k, pkg_changed a prev (sum_data o w) k = true).
    { intros k. unfold pkg_changed. destruct (a_force a) eqn:Ef; [reflexivity|].
      assert (prev = None) as ->; [|reflexivity]. unfold prev.
      destruct Hregen as [Hr|[Hr|Hr]]; [rewrite Hr in Ef; discriminate Ef|now rewrite Hr|].
      rewrite Hr. now destruct (a_all a && existsb snd (sorted_local o e w)). }
    (* every selected package is executed; its effects are part of the run's and decide in its own directory *)
    intros k p Hk Hsel F.
    assert (Hin : In (k, mem k e) V).
    { apply filter_In. split; [|unfold visits; cbn; now rewrite Hsel, Hch].
      rewrite (sorted_local_canon o e w Hs (wf_paths w Hw)). apply in_map_iff. exists k. split; [reflexivity|].
      now rewrite <- (sort_perm (map pk_path (w_pkgs w))). }
    rewrite forallb_forall in Hok. pose proof (Hok _ Hin) as Hk1. unfold ok_at, pkg_at in Hk1. cbn [fst] in Hk1. rewrite F in Hk1.
    destruct (pkg_execute true true render o a gens p) as [[es_p lg]|] eqn:X; [|discriminate].
    assert (Hi : incl es_p (flat_map (effs_at a w gens) V)).
    { intros x Hx. apply in_flat_map. exists (k, mem k e). split; [exact Hin|]. unfold effs_at, pkg_at. cbn [fst]. now rewrite F, X. }
    destruct (find_pkg_path w k p F) as [_ Hp].
    apply (pkg_execute_settles a gens p es_p lg f); [exact X|intros k0; now apply Hload|].
    intros k0 Hg. rewrite apply_then_write by exact (generated_not_sum a _ (pk_dir p, k0) Hsum Hg).
    exact (effs_at_local a w gens V p es_p lg f (pk_dir p, k0) Hdirs Hp X Hi eq_refl).
  Qed.
End Rerun.

Lemma settled_pkg_oracle : forall render (o o' : oracle) a gens p f,
    shuffles o -> shuffles o' -> wf_args a -> wf_pkg p ->
    settled_pkg render o a gens p f -> settled_pkg render o' a gens p f.
Proof.
  intros render o o' a gens p f Hs Hs' Ha Hw [gfs [log [G [C1 C2]]]]. exists gfs, log.
  rewrite <- (gens_loop_eq o o' Hs Hs' a p gens [] [] Ha Hw). split; [exact G|]. split; [|exact C2].
  intros g out Hin Hb. rewrite <- (mk_file_eq o o' Hs Hs'). now apply C1.
Qed.

Lemma settled_pkg_agree : forall render (o : oracle) a gens p f f',
    (forall q, generated a q = true -> f' q = f q) ->
    settled_pkg render o a gens p f -> settled_pkg render o a gens p f'.
Proof.
  intros render o a gens p f f' H [gfs [log [G [C1 C2]]]]. exists gfs, log. split; [exact G|]. split.
  - intros g out Hin Hb. destruct (C1 g out Hin Hb) as [b [R F]]. exists b. split; [exact R|].
    rewrite H; [exact F|]. apply filename_is_gen.
  - intros k Hg Hne. apply C2; [exact Hg|]. rewrite <- H; [exact Hne|exact Hg].
Qed.

(* [settled] looks at the sources, not at the behaviour of the runtime, and at the tree only at generated names *)
Lemma settled_ext : forall render (o o' : oracle) a e gens w w' f f',
    shuffles o -> shuffles o' -> wf_args a -> wf_world w -> Forall reads_sources_only gens -> reload w w' ->
    (forall q, generated a q = true -> f' q = f q) ->
    settled render o a e gens w f -> settled render o' a e gens w' f'.
Proof.
  intros render o o' a e gens w w' f f' Hs Hs' Ha Hw HF Hr Hf Hset k p' Hk Hsel F'.
  destruct (find_pkg_reload w w' k p' Hr F') as [p [F Hsrc]]. rewrite <- (reload_paths w w' Hr) in Hk.
  apply (settled_pkg_agree render o' a gens p' f f' Hf), (settled_pkg_src render o' a gens p p' f Hsrc HF),
    (settled_pkg_oracle render o o' a gens p f Hs Hs' Ha (find_pkg_wf k w p Hw F)), (Hset k p Hk Hsel F).
Qed.

Theorem second_run_fixed_point :
  forall render parse_sum (o1 o2 : oracle) a e gens w w' f f1 log1,
    shuffles o1 -> shuffles o2 -> wf_args a -> wf_world w ->
    NoDup (map pk_dir (w_pkgs w)) -> is_gen_name a sum_name = false ->
    Forall reads_sources_only gens -> reload w w' ->
    loaded a w f -> regen_all a w f ->
    run true true render parse_sum o1 a e w gens f = Some (f1, log1) ->
    exists f2 log2,
      run true true render parse_sum o2 a e w' gens f1 = Some (f2, log2)
      /\ forall q, q <> (w_moddir w', sum_name) -> f2 q = f1 q.
Proof.
  intros render parse_sum o1 o2 a e gens w w' f f1 log1 Hs1 Hs2 Ha Hw Hd Hsum HF Hr Hl Hg H.
  pose proof (wf_paths w Hw) as Hw'. rewrite (reload_paths w w' Hr) in Hw'.
  apply (run_settled render parse_sum o2 Hs2 a e gens w' f1 Hw'),
    (settled_ext render o1 o2 a e gens w w' f1 f1 Hs1 Hs2 Ha Hw HF Hr (fun _ _ => eq_refl)).
  exact (first_run_settles render parse_sum o1 Hs1 a e gens w f f1 log1 Hw Hd Hsum Hl Hg H).
Qed.

(* the worlds loaded before each further run, with the runtime's behaviour in that run *)
Fixpoint runs_to (render : gfile -> option bytes) (parse_sum : bytes -> alist bytes) (a : args) (e : list bytes)
         (gens : list gen) (f : fs) (ws : list (world * oracle)) (f' : fs) : Prop :=
  match ws with
  | [] => feq f f'
  | (w', o) :: r =>
      exists f1 log, run true true render parse_sum o a e w' gens f = Some (f1, log)
                     /\ runs_to render parse_sum a e gens f1 r f'
  end.

Theorem settled_forever :
  forall render parse_sum a e gens w,
    wf_args a -> wf_world w -> is_gen_name a sum_name = false -> Forall reads_sources_only gens ->
    forall (ws : list (world * oracle)),
      Forall (fun wo => reload w (fst wo) /\ shuffles (snd wo)) ws ->
      forall f, (exists o, shuffles o /\ settled render o a e gens w f) ->
      exists f', runs_to render parse_sum a e gens f ws f' /\ forall q, generated a q = true -> f' q = f q.
Proof.
  intros render parse_sum a e gens w Ha Hw Hsum HF ws HA f0 [o0 [Hs0 Hset]].
  (* the tree f0 that is settled stays the reference: every later tree agrees with it at generated names *)
  enough (G : forall f, (forall q, generated a q = true -> f q = f0 q) ->
                exists f', runs_to render parse_sum a e gens f ws f' /\ forall q, generated a q = true -> f' q = f0 q)
    by (apply G; reflexivity).
  induction ws as [|[w' o] r IH]; intros f Hf.
  - exists f. split; [intros q; reflexivity|exact Hf].
  - apply Forall_cons_iff in HA. destruct HA as [[Hr Hs] HA']. cbn in *.
    pose proof (wf_paths w Hw) as Hw'. rewrite (reload_paths w w' Hr) in Hw'.
    destruct (run_settled render parse_sum o Hs a e gens w' f Hw' (settled_ext render o0 o a e gens w w' f0 f Hs0 Hs Ha Hw HF Hr Hf Hset))
      as [f1 [log [R Hsame]]].
    destruct (IH HA' f1) as [f' [Hruns Hf']].
    + intros q Hq. rewrite Hsame; [now apply Hf|now apply (generated_not_sum a)].
    + exists f'. split; [exists f1, log; auto|exact Hf'].
Qed.

(* the scripted generators of the harness read nothing but the package path *)
Lemma scripted_reads_sources_only : forall name alias per_pkg, reads_sources_only (scripted name alias per_pkg).
Proof. intros name alias per_pkg p p' mv cs [E _]. cbn. now rewrite E. Qed.

(* GetRegisteredGenerators ranges over the registry map: the order of the generators *)

(* what one generator sees: its entries of the call log, in order *)
Definition log_of_gen (g : bytes) (l : calllog) : calllog := filter (fun e => bytes_eqb g (snd (fst e))) l.

Definition log_equiv (l1 l2 : calllog) : Prop := Permutation l1 l2 /\ forall g, log_of_gen g l1 = log_of_gen g l2.

Definition prel_log := lrel log_equiv.

Definition out_equiv_log (r1 r2 : option (fs * calllog)) : Prop :=
  match r1, r2 with
  | None, None => True
  | Some (f1, l1), Some (f2, l2) => feq f1 f2 /\ log_equiv l1 l2
  | _, _ => False
  end.

Lemma log_equiv_refl : forall l, log_equiv l l.
Proof. intros l. split; [apply Permutation_refl|reflexivity]. Qed.

Lemma log_equiv_app : forall a a' b b', log_equiv a a' -> log_equiv b b' -> log_equiv (a ++ b) (a' ++ b').
Proof.
  intros a a' b b' [P1 F1] [P2 F2]. split; [now apply Permutation_app|].
  intros g. unfold log_of_gen in *. rewrite !filter_app. now rewrite F1, F2.
Qed.

(* entries with distinct generator names: a permutation keeps every generator's entries *)
Lemma log_equiv_perm : forall l1 l2 : calllog,
    Permutation l1 l2 -> NoDup (map (fun e => snd (fst e)) l1) -> log_equiv l1 l2.
Proof.
  intros l1 l2 HP HN. split; [exact HP|]. intros g. unfold log_of_gen.
  induction HP as [|x l l' HP IH|x y l|l l' l'' HP1 IH1 HP2 IH2]; cbn [filter map] in *.
  - reflexivity.
  - apply NoDup_cons_iff in HN. destruct HN as [_ Hr]. rewrite (IH Hr). reflexivity.
  - apply NoDup_cons_iff in HN. destruct HN as [Hn _].
    destruct (bytes_eqbP g (snd (fst y))) as [Ey|_]; [|reflexivity].
    destruct (bytes_eqbP g (snd (fst x))) as [Ex|_]; [|reflexivity]. contradiction Hn. left. now rewrite <- Ey.
  - rewrite (IH1 HN). apply IH2. eapply Permutation_NoDup; [|exact HN]. apply Permutation_map, HP1.
Qed.

Section GenOrder.
  Variable render : gfile -> option bytes.
  Variable parse_sum : bytes -> alist bytes.
  Variable o : oracle.
  Hypothesis Hs : shuffles o.

  Lemma g_entry_keys : forall a p pt gs, NoDup (map g_name gs) -> NoDup (keys (flat_map (g_entry o a p pt) gs)).
  Proof.
    intros a p pt. apply NoDup_flat_map_key. intros g. unfold g_entry.
    destruct (gen_one true true o a p pt g) as [[calls [out|]]|]; eauto.
  Qed.

  Lemma g_log_names : forall a p pt gs,
      NoDup (map g_name gs) -> NoDup (map (fun e => snd (fst e)) (flat_map (g_log o a p pt) gs)).
  Proof.
    intros a p pt. apply NoDup_flat_map_key. intros g. unfold g_log.
    destruct (gen_one true true o a p pt g) as [[calls og]|]; eauto.
  Qed.

  Lemma pkg_execute_gens_perm : forall a gens1 gens2 p,
      Permutation gens1 gens2 -> NoDup (map g_name gens1) ->
      prel_log (pkg_execute true true render o a gens1 p) (pkg_execute true true render o a gens2 p).
  Proof.
    intros a gens1 gens2 p HP HN. rewrite !pkg_execute_spec, !gens_loop_spec.
    rewrite (forallb_perm _ _ _ HP).
    destruct (forallb (g_ok o a p (pkg_tags o p)) gens2); [|exact I]. cbn [app].
    assert (HN2 : NoDup (map g_name gens2)) by (eapply Permutation_NoDup; [apply Permutation_map; exact HP|exact HN]).
    rewrite !fold_aset_nodup by (cbn; now apply g_entry_keys). cbn [app].
    rewrite !map_pair_eta.
    pose proof (finish_rel render o o Hs Hs a p _ _ (Permutation_flat_map (g_entry o a p (pkg_tags o p)) HP)
                  (g_entry_keys a p _ gens1 HN)) as HF.
    destruct (finish render o a p (flat_map (g_entry o a p (pkg_tags o p)) gens1)),
             (finish render o a p (flat_map (g_entry o a p (pkg_tags o p)) gens2)); try contradiction; [|exact I].
    split; [|exact HF]. apply log_equiv_perm; [now apply Permutation_flat_map|now apply g_log_names].
  Qed.

  Lemma run_gens_perm : forall a e w gens1 gens2 f,
      Permutation gens1 gens2 -> NoDup (map g_name gens1) ->
      out_equiv_log (run true true render parse_sum o a e w gens1 f) (run true true render parse_sum o a e w gens2 f).
  Proof.
    intros a e w gens1 gens2 f HP HN.
    exact (run_lrel render parse_sum o o log_equiv log_equiv_app a w gens1 gens2
             (fun k p _ => pkg_execute_gens_perm a gens1 gens2 p HP HN) e e f
             (log_equiv_refl []) eq_refl (meq_refl _) eq_refl).
  Qed.
End GenOrder.

Theorem generator_order_independent :
  forall render parse_sum (o1 o2 : oracle) a e1 e2 w gens1 gens2 f,
    shuffles o1 -> shuffles o2 -> wf_args a -> wf_world w -> Permutation e1 e2 ->
    Permutation gens1 gens2 -> NoDup (map g_name gens1) ->
    out_equiv_log (run true true render parse_sum o1 a e1 w gens1 f) (run true true render parse_sum o2 a e2 w gens2 f).
Proof.
  intros render parse_sum o1 o2 a e1 e2 w gens1 gens2 f Hs1 Hs2 Ha Hw He HP HN.
  pose proof (run_order_independent render parse_sum o1 o2 a e1 e2 w gens1 f Hs1 Hs2 Ha Hw He) as H1.
  pose proof (run_gens_perm render parse_sum o2 Hs2 a e2 w gens1 gens2 f HP HN) as H2.
  unfold out_equiv in H1. unfold out_equiv_log in *.
  destruct (run true true render parse_sum o1 a e1 w gens1 f) as [[f1 l1]|],
           (run true true render parse_sum o2 a e2 w gens1 f) as [[f1' l1']|],
           (run true true render parse_sum o2 a e2 w gens2 f) as [[f2 l2]|]; try contradiction; [|exact I].
  destruct H1 as [Hf ->], H2 as [Hf2 Hl]. split; [|exact Hl]. intros q. now rewrite (Hf q).
Qed.
