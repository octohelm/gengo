(* C04, non-vacuity on a module that is not empty: two packages, two generators (one an AliasGenerator that signals
   ErrIgnore), a tree that already holds a stale generated file, a previous output, user files and a previous gengo.sum
   (read with the byte-level parser of Model/SumFile.v); the FIRST run, then a genuine SECOND run on the tree the
   first one left (the packages re-loaded: the generated files are now among their files, the directory hashes
   differ), and the same run with the entrypoints permuted under another behaviour of the runtime.
   Closed computation plus instances of the general theorems with every hypothesis discharged. *)
Require Import Gengo.Base.Bytes Gengo.Model.Determinism Gengo.Proofs.Determinism.
Require Gengo.Model.SumFile.
From Coq Require Import Permutation.

Definition fs_of (l : list (path * bytes)) : fs :=
  fun q => match find (fun e => path_eqb q (fst e)) l with Some e => Some (snd e) | None => None end.

(* [loaded], decided on the table *)
Definition loaded_b (a : args) (w : world) (l : list (path * bytes)) : bool :=
  forallb (fun q => negb (is_gen_name a (snd q))
                    || forallb (fun p => negb (bytes_eqb (pk_dir p) (fst q)) || mem (snd q) (pk_files p)) (w_pkgs w))
          (map fst l).

Lemma loaded_b_sound : forall a w l, loaded_b a w l = true -> loaded a w (fs_of l).
Proof.
  intros a w l H p k Hp Hg Hne. unfold fs_of in Hne.
  destruct (find (fun e => path_eqb (pk_dir p, k) (fst e)) l) as [e|] eqn:F; [|now contradiction Hne].
  apply find_some in F. destruct F as [Hin Heq]. apply path_eqb_spec in Heq.
  unfold loaded_b in H. rewrite forallb_forall in H. specialize (H (fst e) (in_map fst l e Hin)).
  rewrite <- Heq in H. cbn [fst snd] in H. rewrite Hg in H. cbn [negb orb] in H.
  rewrite forallb_forall in H. specialize (H p Hp). rewrite bytes_eqb_refl in H. cbn [negb orb] in H.
  apply Order.existsb_bytes_eqb_in. exact H.
Qed.

(* package m/a: T (two methods), U, alias A, and a function-local T; a package-doc tag; [files] / [hash] vary per load *)
Definition d_a (files : list bytes) (hash : bytes) : pkg :=
  mk_pkg (bs "m/a") (bs "a") (bs "a") files [(bs "doc.go", [(bs "gengo:other", bs "false")])]
         [mk_tdef (bs "U") 406 KNamed true false [(bs "gengo:rec", []); (bs "gengo:other", [])];
          mk_tdef (bs "T") 306 KNamed true false [(bs "gengo:rec", [])];
          mk_tdef (bs "A") 506 KAlias true false [(bs "gengo:other", [])];
          mk_tdef (bs "T") 608 KOther false false []]
         [mk_meth 306 (bs "M1") 1206 false; mk_meth 306 (bs "M0") 1006 false; mk_meth 406 (bs "N") 1306 false]
         hash.
Definition d_b (files : list bytes) (hash : bytes) : pkg :=
  mk_pkg (bs "m/b") (bs "b") (bs "b") files []
         [mk_tdef (bs "V") 706 KNamed true false [(bs "gengo:other", [])]] [] hash.

(* the load before the first run: a lists a stale generated file and a previous output *)
Definition d_world0 : world :=
  mk_world (bs ".") [d_b [bs "b.go"] (bs "h1:b0");
                     d_a [bs "f0.go"; bs "zz_generated.old.go"; bs "zz_generated.rec.go"] (bs "h1:a0")].
(* the load before the second run: the generated files of run 1 are there, the stale one is gone, hashes differ *)
Definition d_world1 : world :=
  mk_world (bs ".") [d_b [bs "b.go"; bs "zz_generated.other.go"] (bs "h1:b1");
                     d_a [bs "f0.go"; bs "zz_generated.other.go"; bs "zz_generated.rec.go"] (bs "h1:a1")].

Definition d_args : args := mk_args [] (bs "zz_generated") true true.       (* All, Force *)
Definition d_entry : list bytes := [bs "m/b"; bs "m/a"].

Definition d_gens : list gen :=
  [scripted (bs "rec") false
     [(bs "m/a", [(306%N, mk_frag ORender [bs "G"] [bs "sort"; bs "fmt"] (Some (bs "Gm")) [bs "D"] [bs "bytes"]);
                  (406%N, mk_frag ORender [bs "H"] [bs "fmt"] None [] [])])];
   scripted (bs "other") true
     [(bs "m/a", [(406%N, mk_frag ORender [bs "O"] [] None [] []); (506%N, mk_frag OIgnore [] [] None [] [])]);
      (bs "m/b", [(706%N, mk_frag ORender [bs "V1"; bs "V2"] [] None [] [])])]].

(* "formatter": package clause, import paths as handed over by writeImports, body *)
Definition d_render (f : gfile) : option bytes :=
  Some (bs "package " ++ gf_pkgname f ++ bs ";" ++ concat (map (fun kv => bs "import " ++ fst kv ++ bs ";") (gf_imports f))
        ++ gf_body f).

Definition nl10 : ascii := ascii_of_N 10.
Definition d_prev_sum : bytes := bs "m/a h1:old" ++ [nl10] ++ bs "m/b h1:b0" ++ [nl10].

Definition d_tree0 : list (path * bytes) :=
  [((bs "a", bs "f0.go"), bs "package a");
   ((bs "a", bs "zz_generated.old.go"), bs "stale");
   ((bs "a", bs "zz_generated.rec.go"), bs "previous rec");
   ((bs "a", bs "zz_generatedx.go"), bs "look-alike");
   ((bs "b", bs "b.go"), bs "package b");
   ((bs ".", bs "README.md"), bs "R");
   ((bs ".", bs "gengo.sum"), d_prev_sum)].
Definition d_fs0 : fs := fs_of d_tree0.

Definition d_parse_sum : bytes -> alist bytes := Gengo.Model.SumFile.sumfile_load.

Definition d_run1 := run true true d_render d_parse_sum oid d_args d_entry d_world0 d_gens d_fs0.
(* the tree the first run leaves *)
Definition d_fs1 : fs := match d_run1 with Some (f, _) => f | None => fun _ => None end.
(* THE SECOND RUN: on that tree, the re-loaded packages, another behaviour of the runtime at every map range *)
Definition d_run2 := run true true d_render d_parse_sum rev_oracle d_args d_entry d_world1 d_gens d_fs1.

Definition d_paths : list path :=
  [(bs "a", bs "f0.go"); (bs "a", bs "zz_generated.old.go"); (bs "a", bs "zz_generated.rec.go");
   (bs "a", bs "zz_generated.other.go"); (bs "a", bs "zz_generatedx.go");
   (bs "b", bs "b.go"); (bs "b", bs "zz_generated.other.go"); (bs "b", bs "zz_generated.rec.go"); (bs ".", bs "README.md")].
Definition d_sum : path := (bs ".", bs "gengo.sum").

(* well-formedness and [src_eq] do not look at the files present or at the directory hashes: one proof for every load *)
Lemma d_loads_wf : forall fb hb fa ha, wf_world (mk_world (bs ".") [d_b fb hb; d_a fa ha]).
Proof.
  intros fb hb fa ha. split; cbn; [solve_nodup|].
  constructor; [|constructor; [|constructor]]; split; cbn; try solve_nodup;
    repeat constructor; cbn; intuition discriminate.
Qed.

Lemma d_loads_reload : forall fb hb fa ha fb' hb' fa' ha',
    reload (mk_world (bs ".") [d_b fb hb; d_a fa ha]) (mk_world (bs ".") [d_b fb' hb'; d_a fa' ha']).
Proof. intros. split; [reflexivity|]. repeat constructor. Qed.

Lemma d_world0_wf : wf_world d_world0.
Proof. apply d_loads_wf. Qed.

Lemma d_world1_wf : wf_world d_world1.
Proof. apply d_loads_wf. Qed.

Lemma d_reload : reload d_world0 d_world1.
Proof. apply d_loads_reload. Qed.

Lemma d_loaded : loaded d_args d_world0 d_fs0.
Proof. apply loaded_b_sound. vm_compute. reflexivity. Qed.

Lemma d_regen_all : regen_all d_args d_world0 d_fs0.
Proof. left. reflexivity. Qed.

Lemma d_gens_ok : Forall reads_sources_only d_gens.
Proof. repeat constructor; apply scripted_reads_sources_only. Qed.

Lemma d_dirs : NoDup (map pk_dir (w_pkgs d_world0)).
Proof. cbn. solve_nodup. Qed.

Lemma d_hypotheses :
  wf_world d_world0 /\ wf_world d_world1 /\ wf_args d_args /\ shuffles oid /\ shuffles rev_oracle
  /\ NoDup (map pk_dir (w_pkgs d_world0)) /\ is_gen_name d_args sum_name = false
  /\ Forall reads_sources_only d_gens /\ reload d_world0 d_world1
  /\ loaded d_args d_world0 d_fs0 /\ regen_all d_args d_world0 d_fs0
  /\ d_fs0 (bs "a", bs "zz_generated.old.go") = Some (bs "stale")
  /\ d_fs0 (w_moddir d_world0, sum_name) = Some d_prev_sum
  /\ d_parse_sum d_prev_sum = [(bs "m/a", bs "h1:old"); (bs "m/b", bs "h1:b0")].
Proof.
  split; [exact d_world0_wf|]. split; [exact d_world1_wf|]. split; [constructor|].
  split; [exact oid_shuffles|]. split; [exact rev_oracle_shuffles|]. split; [exact d_dirs|].
  split; [reflexivity|]. split; [exact d_gens_ok|]. split; [exact d_reload|].
  split; [exact d_loaded|]. split; [exact d_regen_all|].
  split; [reflexivity|]. split; [reflexivity|]. vm_compute. reflexivity.
Qed.

Ltac splits := repeat match goal with |- _ /\ _ => split end.

(* run 1: the calls in dispatch order (m/a before m/b, per generator the names sorted, the alias only for the
   AliasGenerator, the function-local T never); the stale file removed, the previous output replaced, the ErrIgnore
   of "other" on alias A irrelevant because it rendered for U; look-alike and user files as they were *)
Lemma d_first_run :
  log_of d_run1
  = Some [(bs "m/a", bs "rec", [mk_call CType (bs "T") 306; mk_call CType (bs "U") 406]);
          (bs "m/a", bs "other", [mk_call CAlias (bs "A") 506; mk_call CType (bs "U") 406]);
          (bs "m/b", bs "rec", []);
          (bs "m/b", bs "other", [mk_call CType (bs "V") 706])]
  /\ map (file_of d_run1) d_paths
     = [Some (bs "package a"); None;
        Some (bs "package a;import bytes;import fmt;import sort;G;Gm(M0,M1,);H;D;");
        Some (bs "package a;O;"); Some (bs "look-alike");
        Some (bs "package b"); Some (bs "package b;V1;V2;"); None; Some (bs "R")]
  /\ file_of d_run1 d_sum = Some (bs "m/a h1:a0" ++ [nl10] ++ bs "m/b h1:b0" ++ [nl10]).
Proof. splits; vm_compute; reflexivity. Qed.

(* run 2 on what run 1 left: same calls, every path of the module except gengo.sum holds what it held, nothing added,
   nothing removed; gengo.sum now records the hashes of the second load (why the theorem excludes it) *)
Lemma d_second_run :
  log_of d_run2 = log_of d_run1
  /\ map (file_of d_run2) d_paths = map (file_of d_run1) d_paths
  /\ map (file_of d_run2) d_paths = map d_fs1 d_paths
  /\ file_of d_run2 d_sum = Some (bs "m/a h1:a1" ++ [nl10] ++ bs "m/b h1:b1" ++ [nl10])
  /\ file_of d_run2 d_sum <> file_of d_run1 d_sum.
Proof. splits; try (vm_compute; reflexivity). vm_compute. intros H; discriminate H. Qed.

Lemma d_run1_some : exists log1, d_run1 = Some (d_fs1, log1).
Proof.
  unfold d_fs1. destruct d_run1 as [[f l]|] eqn:E; [now exists l|].
  exfalso. assert (H : log_of d_run1 <> None) by (rewrite (proj1 d_first_run); discriminate).
  apply H. rewrite E. reflexivity.
Qed.

(* [d_run1] written out, as the theorems' hypotheses have it.  Rewriting with this equation instead of leaving the
   step to conversion matters: asked whether [d_run1 = _] is [run .. = _], the checker unfolds [run] first and
   evaluates the whole run before it looks at [d_run1]. *)
Lemma d_run1_unfold : run true true d_render d_parse_sum oid d_args d_entry d_world0 d_gens d_fs0 = d_run1.
Proof. exact eq_refl. Qed.

(* C04_fixed_point applied to this module: every hypothesis discharged *)
Lemma d_fixed_point_instance :
  exists f2 log2, d_run2 = Some (f2, log2) /\ forall q, q <> (w_moddir d_world1, sum_name) -> f2 q = d_fs1 q.
Proof.
  destruct d_run1_some as [log1 E]. rewrite <- d_run1_unfold in E.
  exact (second_run_fixed_point d_render d_parse_sum oid rev_oracle d_args d_entry d_gens d_world0 d_world1 d_fs0 d_fs1 log1
           oid_shuffles rev_oracle_shuffles (NoDup_nil _) d_world0_wf d_dirs eq_refl d_gens_ok d_reload
           d_loaded d_regen_all E).
Qed.

(* ... and a THIRD and FOURTH run from there (C04_fixed_point_any_number_of_runs on the tree run 1 left) *)
Lemma d_any_number_instance :
  exists f', runs_to d_render d_parse_sum d_args d_entry d_gens d_fs1 [(d_world1, rev_oracle); (d_world0, oid); (d_world1, oid)] f'
             /\ forall q, generated d_args q = true -> f' q = d_fs1 q.
Proof.
  destruct d_run1_some as [log1 E]. rewrite <- d_run1_unfold in E.
  apply (settled_forever d_render d_parse_sum d_args d_entry d_gens d_world0 (NoDup_nil _) d_world0_wf eq_refl d_gens_ok).
  - apply Forall_cons; [|apply Forall_cons; [|apply Forall_cons; [|apply Forall_nil]]]; cbn [fst snd].
    + exact (conj d_reload rev_oracle_shuffles).
    + exact (conj (d_loads_reload _ _ _ _ _ _ _ _) oid_shuffles).
    + exact (conj d_reload oid_shuffles).
  - exists oid. split; [exact oid_shuffles|].
    exact (first_run_settles d_render d_parse_sum oid oid_shuffles d_args d_entry d_gens d_world0 d_fs0 d_fs1 log1
             d_world0_wf d_dirs eq_refl d_loaded d_regen_all E).
Qed.

Definition d_run1_perm := run true true d_render d_parse_sum rev_oracle d_args (rev d_entry) d_world0 d_gens d_fs0.

Lemma d_permuted_entrypoints :
  rev d_entry = [bs "m/a"; bs "m/b"]
  /\ log_of d_run1_perm = log_of d_run1
  /\ map (file_of d_run1_perm) (d_sum :: d_paths) = map (file_of d_run1) (d_sum :: d_paths)
  /\ out_equiv d_run1 d_run1_perm.
Proof.
  splits; try (vm_compute; reflexivity).
  apply (run_order_independent d_render d_parse_sum oid rev_oracle d_args d_entry (rev d_entry) d_world0 d_gens d_fs0
           oid_shuffles rev_oracle_shuffles (NoDup_nil _) d_world0_wf).
  apply Permutation_rev.
Qed.

(* without All only the entrypoints are generated: with one entrypoint m/b is not touched, and the order of two
   entrypoints does not matter (no gengo.sum is read or written) *)
Definition d_args_direct : args := mk_args [] (bs "zz_generated") false false.
Lemma d_direct_entrypoints :
  let r e o := run true true d_render d_parse_sum o d_args_direct e d_world0 d_gens d_fs0 in
  map (file_of (r [bs "m/a"; bs "m/b"] oid)) (d_sum :: d_paths) = map (file_of (r [bs "m/b"; bs "m/a"] rev_oracle)) (d_sum :: d_paths)
  /\ log_of (r [bs "m/a"; bs "m/b"] oid) = log_of (r [bs "m/b"; bs "m/a"] rev_oracle)
  /\ file_of (r [bs "m/a"; bs "m/b"] oid) d_sum = Some d_prev_sum
  /\ file_of (r [bs "m/a"; bs "m/b"] oid) (bs "b", bs "zz_generated.other.go") = Some (bs "package b;V1;V2;")
  /\ file_of (r [bs "m/a"] oid) (bs "b", bs "zz_generated.other.go") = None
  /\ out_equiv (r [bs "m/a"; bs "m/b"] oid) (r [bs "m/b"; bs "m/a"] rev_oracle).
Proof.
  cbv zeta. splits; try (vm_compute; reflexivity).
  apply (run_order_independent d_render d_parse_sum oid rev_oracle d_args_direct [bs "m/a"; bs "m/b"] [bs "m/b"; bs "m/a"]
           d_world0 d_gens d_fs0 oid_shuffles rev_oracle_shuffles (NoDup_nil _) d_world0_wf).
  apply perm_swap.
Qed.

Print Assumptions d_fixed_point_instance.
Print Assumptions d_any_number_instance.
