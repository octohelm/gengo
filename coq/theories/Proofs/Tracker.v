(* Lemmas for C03 about the import tracker and the raw namer (Model/Tracker.v).  The invariant [inv] — pathToName and
   nameToPath hold the same pairs ([bij], [mirror]) and a name the std table reserves is bound to its std package only —
   is kept by every successful bind ([bind_inv]); add never fails and gives a path without a name the first candidate of
   [cand_at] that bind accepts ([add_char]: both loops of add are a [find] over the candidates, and one is always found
   because the numbered candidates are pairwise distinct and only finitely many names are taken, [number_loop_finds]);
   [grow] is that step, [reach] a chain of them; section Final, for ANY refused list and ANY std
   table: a run of namer operations is total, keeps [inv], never rebinds a path, and imports exactly the packages it
   used ([run_bijection], [run_stable], [run_exact_imports]).
   Two definitions made here occur in statements of Props/C03.v: [key_le] (the order of the import block) and [h_refs]
   (the history its examples run). *)
Require Import Gengo.Base.Bytes Gengo.Model.CamelCase Gengo.Model.GoIdent Gengo.Model.Tracker
               Gengo.Model.TrackerSpec Gengo.Proofs.CamelCase.
From Coq Require Import Permutation Sorted.
From Coq Require Decimal DecimalNat DecimalString.
(* not imported: Order.bytes_leb is a copy of the model's bytes_leb, and the statements below speak of the model's *)
Require Gengo.Base.Order Gengo.Base.Assoc.

Lemma bytes_eqb_sym : forall a b, bytes_eqb a b = bytes_eqb b a.
Proof. exact Order.bytes_eqb_sym. Qed.

Lemma lookup_hd : forall k v m, lookup k ((k, v) :: m) = Some v.
Proof. intros. cbn. rewrite bytes_eqb_refl. reflexivity. Qed.

Lemma lookup_tl : forall k k' v m, k <> k' -> lookup k ((k', v) :: m) = lookup k m.
Proof. intros k k' v m H. cbn. apply Order.bytes_eqb_neq in H. rewrite H. reflexivity. Qed.

(* the model's [lookup] IS Base/Assoc.v's [get] on byte-string keys *)
Lemma lookup_in : forall k v m, lookup k m = Some v -> In (k, v) m.
Proof. intros k v m. exact (Assoc.get_Some_In _ Order.bytes_eqbP m k v). Qed.

Lemma lookup_in_keys : forall k v m, lookup k m = Some v -> In k (keys m).
Proof. intros k v m H. apply (Assoc.get_Some_keys _ Order.bytes_eqbP m k). now exists v. Qed.

Lemma lookup_none_keys : forall k m, lookup k m = None <-> ~ In k (keys m).
Proof. intros k m. exact (Assoc.get_None _ Order.bytes_eqbP m k). Qed.

Lemma keys_in_lookup : forall k m, In k (keys m) -> exists v, lookup k m = Some v.
Proof. intros k m. exact (proj1 (Assoc.get_Some_keys _ Order.bytes_eqbP m k)). Qed.

Lemma in_nodup_lookup : forall k v m, NoDup (keys m) -> In (k, v) m -> lookup k m = Some v.
Proof. intros k v m. exact (Assoc.get_In _ Order.bytes_eqbP m k v). Qed.

(* pathToName and nameToPath are inverse to each other *)
Definition bij (tr : tracker) : Prop :=
  forall p n, lookup p (p2n tr) = Some n <-> lookup n (n2p tr) = Some p.

(* the two Go maps hold the same pairs: the association lists are mirror images without repeated keys *)
Definition mirror (tr : tracker) : Prop :=
  n2p tr = map (fun e => (snd e, fst e)) (p2n tr) /\ NoDup (keys (p2n tr)) /\ NoDup (keys (n2p tr)).

(* a name the std table reserves is bound to its std package only *)
Definition std_ok (std : option tracker) (tr : tracker) : Prop :=
  forall s n p sp, std = Some s -> lookup n (n2p tr) = Some p -> lookup n (n2p s) = Some sp -> p = sp.

Definition names_valid (tr : tracker) : Prop :=
  forall p n, lookup p (p2n tr) = Some n -> valid_name_b n = true.

(* no local name is one of the names bind refuses (the predeclared identifiers) *)
Definition names_not_pre (pre : list bytes) (tr : tracker) : Prop :=
  forall p n, lookup p (p2n tr) = Some n -> name_in pre n = false.

(* pathToName only grows and never rebinds *)
Definition ext (a b : amap) : Prop := forall k v, lookup k a = Some v -> lookup k b = Some v.

Lemma ext_refl : forall a, ext a a.
Proof. intros a k v H. exact H. Qed.
Lemma ext_trans : forall a b c, ext a b -> ext b c -> ext a c.
Proof. intros a b c H1 H2 k v H. auto. Qed.

Lemma bij_empty : bij empty_tracker.
Proof. intros p n. cbn. split; discriminate. Qed.
Lemma mirror_empty : mirror empty_tracker.
Proof. repeat split; cbn; constructor. Qed.
Lemma std_ok_empty : forall std, std_ok std empty_tracker.
Proof. intros std s n p sp _ H. cbn in H. discriminate. Qed.
Lemma names_valid_empty : names_valid empty_tracker.
Proof. intros p n H. cbn in H. discriminate. Qed.
Lemma names_not_pre_empty : forall pre, names_not_pre pre empty_tracker.
Proof. intros pre p n H. cbn in H. discriminate. Qed.

Lemma name_in_spec : forall pre n, name_in pre n = true <-> In n pre.
Proof. intros pre n. apply Order.existsb_bytes_eqb_in. Qed.

Lemma bind_some : forall pre std tr nm path tr',
  bind pre std tr nm path = Some tr' ->
  std_conflict std nm path = false /\ lookup nm (n2p tr) = None /\
  tr' = mk_tracker ((path, nm) :: p2n tr) ((nm, path) :: n2p tr).
Proof.
  intros pre std tr nm path tr' H. unfold bind in H.
  destruct (name_in pre nm); [discriminate|].
  destruct (std_conflict std nm path); [discriminate|].
  destruct (lookup nm (n2p tr)); [discriminate|]. inversion H. auto.
Qed.

Lemma bind_some_not_pre : forall pre std tr nm path tr',
  bind pre std tr nm path = Some tr' -> name_in pre nm = false.
Proof.
  intros pre std tr nm path tr' H. unfold bind in H. destruct (name_in pre nm); [discriminate|reflexivity].
Qed.

Lemma bind_pre_nil : forall pre std tr nm path,
  name_in pre nm = false -> bind pre std tr nm path = bind [] std tr nm path.
Proof. intros pre std tr nm path H. unfold bind. rewrite H. reflexivity. Qed.

Lemma bind_none : forall pre std tr nm path,
  bind pre std tr nm path = None ->
  In nm (keys (n2p tr)) \/ (exists s, std = Some s /\ In nm (keys (n2p s))) \/ In nm pre.
Proof.
  intros pre std tr nm path H. unfold bind in H.
  destruct (name_in pre nm) eqn:EP; [right; right; apply name_in_spec; exact EP|].
  destruct (std_conflict std nm path) eqn:E.
  - right. left. unfold std_conflict in E. destruct std as [s|]; [|discriminate].
    exists s. split; [reflexivity|]. destruct (lookup nm (n2p s)) eqn:L; [|discriminate].
    eapply lookup_in_keys; eauto.
  - left. destruct (lookup nm (n2p tr)) eqn:L; [|discriminate]. eapply lookup_in_keys; eauto.
Qed.

Section Bind.
  Variables (pre : list bytes) (std : option tracker) (tr tr' : tracker) (nm path : bytes).
  Hypothesis Hfree : lookup path (p2n tr) = None.
  Hypothesis Hbind : bind pre std tr nm path = Some tr'.

  Lemma bind_bij : bij tr -> bij tr'.
  Proof.
    intros B. destruct (bind_some _ _ _ _ _ _ Hbind) as (_ & Hn & ->). intros p n. cbn [p2n n2p].
    destruct (Order.bytes_dec p path) as [->|Hp]; destruct (Order.bytes_dec n nm) as [->|Hn'].
    - rewrite !lookup_hd. tauto.
    - rewrite lookup_hd. rewrite lookup_tl by exact Hn'. split.
      + intros H. inversion H. congruence.
      + intros H. apply B in H. congruence.
    - rewrite lookup_hd. rewrite lookup_tl by exact Hp. split.
      + intros H. apply B in H. congruence.
      + intros H. inversion H. congruence.
    - rewrite !lookup_tl by assumption. apply B.
  Qed.

  Lemma bind_mirror : mirror tr -> mirror tr'.
  Proof.
    intros (M & N1 & N2). destruct (bind_some _ _ _ _ _ _ Hbind) as (_ & Hn & ->). cbn [p2n n2p].
    repeat split.
    - cbn. rewrite M. reflexivity.
    - cbn. constructor; [|exact N1]. apply lookup_none_keys. exact Hfree.
    - cbn. constructor; [|exact N2]. apply lookup_none_keys. exact Hn.
  Qed.

  Lemma bind_std_ok : std_ok std tr -> std_ok std tr'.
  Proof.
    intros S. destruct (bind_some _ _ _ _ _ _ Hbind) as (Hc & Hn & ->).
    intros s n p sp Hs H1 H2. cbn [n2p] in H1.
    destruct (Order.bytes_dec n nm) as [->|Hn'].
    - rewrite lookup_hd in H1. inversion H1; subst p. subst std. unfold std_conflict in Hc.
      rewrite H2 in Hc. apply negb_false_iff in Hc. apply bytes_eqb_spec in Hc. congruence.
    - rewrite lookup_tl in H1 by exact Hn'. eapply S; eauto.
  Qed.

  Lemma bind_bound : lookup path (p2n tr') = Some nm.
  Proof. destruct (bind_some _ _ _ _ _ _ Hbind) as (_ & _ & ->). apply lookup_hd. Qed.

  Lemma bind_other : forall p, p <> path -> lookup p (p2n tr') = lookup p (p2n tr).
  Proof. intros p Hp. destruct (bind_some _ _ _ _ _ _ Hbind) as (_ & _ & ->). apply lookup_tl, Hp. Qed.

  (* names_valid and names_not_pre are both "every bound name satisfies Q" *)
  Lemma bind_names : forall Q : bytes -> Prop, Q nm ->
    (forall p n, lookup p (p2n tr) = Some n -> Q n) -> forall p n, lookup p (p2n tr') = Some n -> Q n.
  Proof.
    intros Q V I p n H. destruct (Order.bytes_dec p path) as [->|Hp].
    - rewrite bind_bound in H. inversion H; subst. exact V.
    - rewrite bind_other in H by exact Hp. eapply I; eauto.
  Qed.

  Lemma bind_ext : ext (p2n tr) (p2n tr').
  Proof.
    intros k v H. destruct (Order.bytes_dec k path) as [->|Hk]; [congruence|]. rewrite bind_other by exact Hk. exact H.
  Qed.

  Lemma bind_ext_n2p : ext (n2p tr) (n2p tr').
  Proof.
    destruct (bind_some _ _ _ _ _ _ Hbind) as (_ & Hn & ->). intros k v H. cbn [n2p].
    destruct (Order.bytes_dec k nm) as [->|Hk]; [congruence|]. rewrite lookup_tl by exact Hk. exact H.
  Qed.

  Lemma bind_keys : keys (p2n tr') = path :: keys (p2n tr).
  Proof. destruct (bind_some _ _ _ _ _ _ Hbind) as (_ & _ & ->). reflexivity. Qed.

End Bind.

Record inv (std : option tracker) (tr : tracker) : Prop := mk_inv {
  inv_bij : bij tr;
  inv_mirror : mirror tr;
  inv_std : std_ok std tr
}.

Lemma inv_empty : forall std, inv std empty_tracker.
Proof. intros. constructor; [apply bij_empty|apply mirror_empty|apply std_ok_empty]. Qed.

Lemma bind_inv : forall pre std tr tr' nm path,
  lookup path (p2n tr) = None -> Tracker.bind pre std tr nm path = Some tr' -> inv std tr -> inv std tr'.
Proof.
  intros pre std tr tr' nm path Hf Hb [B M S]. constructor; [eapply bind_bij|eapply bind_mirror|eapply bind_std_ok]; eauto.
Qed.

Lemma keyword_all_lower : forall n, is_keyword n = true -> forallb is_lower n = true.
Proof.
  intros n H. unfold is_keyword in H. apply existsb_exists in H. destruct H as (k & Hin & E).
  apply bytes_eqb_spec in E. subst k.
  assert (K : forallb (forallb is_lower) keywords = true) by (vm_compute; reflexivity).
  rewrite forallb_forall in K. exact (K n Hin).
Qed.

Lemma keyword_not_underscore_first : forall n, is_keyword (underscore :: n) = false.
Proof.
  intros n. destruct (is_keyword (underscore :: n)) eqn:E; [|reflexivity].
  apply keyword_all_lower in E. cbn in E. discriminate.
Qed.

Lemma ident_char_filter : forall raw, forallb ident_char (filter ident_char raw) = true.
Proof.
  induction raw as [|c r IH]; cbn; [reflexivity|].
  destruct (ident_char c) eqn:E; cbn; [rewrite E|]; exact IH.
Qed.

Lemma ident_char_not_digit_start : forall c, ident_char c = true -> is_digit c = false -> ident_start c = true.
Proof.
  intros c H D. unfold ident_char in H. unfold ident_start. rewrite D in H.
  rewrite orb_false_r in H. exact H.
Qed.

Lemma ident_start_not_digit : forall c, ident_start c = true -> is_digit c = false.
Proof.
  intros c H. unfold ident_start in H. apply orb_true_iff in H. destruct H as [H|H].
  - apply Ascii.eqb_eq in H. subst. reflexivity.
  - unfold is_letter, is_upper, is_lower, is_digit in *. set (n := N_of_ascii c) in *. clearbody n.
    rewrite orb_true_iff, !andb_true_iff, !N.leb_le in H. apply andb_false_iff. rewrite !N.leb_gt. lia.
Qed.

Lemma filter_forallb_id : forall (A : Type) (f : A -> bool) l, forallb f l = true -> filter f l = l.
Proof.
  induction l as [|x l IH]; cbn; [reflexivity|]. intros H. apply andb_true_iff in H.
  destruct H as [-> H]. rewrite (IH H). reflexivity.
Qed.

(* whatever LowerCamelCase leaves, the repaired toLocalName returns a usable name *)
Lemma sanitize_valid : forall raw, valid_name_b (sanitize raw) = true.
Proof.
  intros raw. unfold sanitize. pose proof (ident_char_filter raw) as F.
  set (name := filter ident_char raw) in *. clearbody name.
  destruct (is_nil name || is_blank name) eqn:E1; [vm_compute; reflexivity|].
  apply orb_false_iff in E1. destruct E1 as [Enil Eblank].
  destruct name as [|c r]; [discriminate|]. cbn [forallb] in F. apply andb_true_iff in F. destruct F as [Fc Fr].
  destruct (hd_is_digit (c :: r) || is_keyword (c :: r)) eqn:E2.
  - unfold valid_name_b. rewrite keyword_not_underscore_first. cbn [go_ident_b forallb].
    rewrite Fc, Fr. cbn. reflexivity.
  - apply orb_false_iff in E2. destruct E2 as [Ed Ek]. cbn in Ed.
    unfold valid_name_b. rewrite Ek, Eblank. cbn [go_ident_b]. rewrite Fr.
    rewrite (ident_char_not_digit_start c Fc Ed). reflexivity.
Qed.

Lemma sanitize_valid_id : forall raw, valid_name_b raw = true -> sanitize raw = raw.
Proof.
  intros raw V. unfold valid_name_b in V. rewrite !andb_true_iff, !negb_true_iff in V.
  destruct V as [[I K] B]. unfold sanitize.
  assert (F : filter ident_char raw = raw).
  { apply filter_forallb_id. destruct raw as [|c r]; [discriminate|]. cbn [go_ident_b forallb] in *.
    apply andb_true_iff in I. destruct I as [Ic ->]. unfold ident_start in Ic. unfold ident_char.
    rewrite Ic. reflexivity. }
  rewrite F, K, B. destruct raw as [|c r]; [discriminate|]. cbn [is_nil orb hd_is_digit].
  apply andb_true_iff in I. rewrite (ident_start_not_digit c (proj1 I)). reflexivity.
Qed.

Lemma valid_name_nonempty : forall n, valid_name_b n = true -> n <> [].
Proof. intros [|c r] H; [cbn in H; discriminate|discriminate]. Qed.

Lemma uint_digits : forall d, forallb is_digit (of_string (DecimalString.NilEmpty.string_of_uint d)) = true.
Proof. induction d; cbn; try reflexivity; exact IHd. Qed.

Lemma itoa_digits : forall k, forallb is_digit (itoa k) = true.
Proof. intros k. apply uint_digits. Qed.

Lemma of_string_inj : forall a b, of_string a = of_string b -> a = b.
Proof.
  induction a as [|c a IH]; destruct b as [|d b]; cbn; intros H; try discriminate; [reflexivity|].
  inversion H. f_equal. auto.
Qed.

Lemma itoa_inj : forall a b, itoa a = itoa b -> a = b.
Proof.
  intros a b H. unfold itoa in H. apply of_string_inj in H.
  assert (E : Some (Nat.to_uint a) = Some (Nat.to_uint b)).
  { rewrite <- !DecimalString.NilEmpty.usu. rewrite H. reflexivity. }
  inversion E as [E']. rewrite <- (DecimalNat.Unsigned.of_to a), <- (DecimalNat.Unsigned.of_to b).
  rewrite E'. reflexivity.
Qed.

Lemma itoa_nonempty : forall k, itoa k <> [].
Proof.
  intros k H. unfold itoa in H.
  assert (E : DecimalString.NilEmpty.string_of_uint (Nat.to_uint k) = EmptyString).
  { apply of_string_inj. exact H. }
  pose proof (DecimalString.NilEmpty.usu (Nat.to_uint k)) as U. rewrite E in U. cbn in U.
  inversion U as [U']. pose proof (DecimalNat.Unsigned.to_of (Nat.to_uint k)) as N.
  rewrite DecimalNat.Unsigned.of_to in N. rewrite <- U' in N. cbn in N. discriminate.
Qed.

Lemma forallb_lower_digit : forall a d b, is_digit d = true -> forallb is_lower (a ++ d :: b) = false.
Proof.
  intros a d b D. rewrite forallb_app. cbn.
  assert (L : is_lower d = false).
  { unfold is_digit in D. unfold is_lower. apply andb_true_iff in D. destruct D as [_ D].
    apply N.leb_le in D. apply andb_false_iff. left. apply N.leb_gt. lia. }
  rewrite L. cbn. apply andb_false_r.
Qed.

Lemma valid_name_numbered : forall n k, valid_name_b n = true -> valid_name_b (n ++ itoa k) = true.
Proof.
  intros n k V. pose proof (itoa_digits k) as D. pose proof (itoa_nonempty k) as NE.
  destruct (itoa k) as [|d ds]; [congruence|].
  unfold valid_name_b in *. rewrite !andb_true_iff, !negb_true_iff in *. destruct V as [[Vi _] _].
  destruct n as [|c r]; [discriminate|]. cbn [go_ident_b app] in *. repeat split.
  - (* digits are identifier characters *)
    rewrite forallb_app. apply andb_true_iff in Vi. destruct Vi as [-> ->]. cbn [andb].
    apply forallb_forall. intros x Hx. rewrite forallb_forall in D. unfold ident_char. rewrite (D x Hx). apply orb_true_r.
  - (* a keyword has no digit *)
    destruct (is_keyword (c :: r ++ d :: ds)) eqn:E; [|reflexivity].
    apply keyword_all_lower in E. change (c :: r ++ d :: ds) with ((c :: r) ++ d :: ds) in E.
    rewrite forallb_lower_digit in E; [discriminate|]. cbn in D. apply andb_true_iff in D. apply D.
  - unfold is_blank. apply Order.bytes_eqb_neq. intros E. inversion E as [[E1 E2]]. destruct r; discriminate.
Qed.

Lemma raw_local_name_total : forall parts, exists r, raw_local_name parts = Ok r.
Proof.
  intros parts. unfold raw_local_name, c_conv.
  destruct (conv_total crune c_cls c_blen c_drop1 (map a_low) (map a_up) (a_title false) a_is_id
              [(73, CUpper); (68, CUpper)]%N [(95, COther)]%N [(45, COther)]%N 4
              (Valid (map cr (concat parts)))) as [r Hr].
  rewrite Hr. eauto.
Qed.

Lemma to_local_name_spec : forall fixed parts,
  exists nm, to_local_name fixed parts = Ok nm /\ (fixed = true -> valid_name_b nm = true).
Proof.
  intros fixed parts. unfold to_local_name. destruct (raw_local_name_total parts) as [r ->]. cbn.
  eexists. split; [reflexivity|]. intros ->. apply sanitize_valid.
Qed.

Lemma local_name_parts : forall segs n,
  exists parts, forall fixed, local_name fixed segs n = to_local_name fixed parts.
Proof.
  intros segs n. unfold local_name. destruct segs as [|s [|s2 rest]].
  - eexists. intros fixed. destruct (Nat.eqb n 1); reflexivity.
  - eauto.
  - destruct (Nat.eqb n 1); [|eauto].
    destruct (shortcut (bs "domain") (s :: s2 :: rest)); [eauto|].
    destruct (shortcut (bs "apis") (s :: s2 :: rest)); eauto.
Qed.

Lemma local_name_spec : forall fixed segs n,
  exists nm, local_name fixed segs n = Ok nm /\ (fixed = true -> valid_name_b nm = true).
Proof. intros fixed segs n. destruct (local_name_parts segs n) as [parts ->]. apply to_local_name_spec. Qed.

Lemma local_name_repaired : forall segs n,
  local_name true segs n = (let! raw := local_name false segs n in Ok (sanitize raw)).
Proof.
  intros segs n. destruct (local_name_parts segs n) as [parts E]. rewrite !E.
  unfold to_local_name. destruct (raw_local_name parts); reflexivity.
Qed.

Lemma split_slash_nonempty : forall s cur, split_slash cur s <> [].
Proof.
  induction s as [|c r IH]; intros cur; cbn; [discriminate|].
  destruct (byte_eqb c slash); [discriminate|apply IH].
Qed.

Definition push (tr : tracker) (path nm : bytes) : tracker :=
  mk_tracker ((path, nm) :: p2n tr) ((nm, path) :: n2p tr).

(* bind's three tests *)
Definition free (pre : list bytes) (std : option tracker) (tr : tracker) (path nm : bytes) : bool :=
  match Tracker.bind pre std tr nm path with Some _ => true | None => false end.

Lemma bind_free : forall pre std tr nm path,
  Tracker.bind pre std tr nm path = if free pre std tr path nm then Some (push tr path nm) else None.
Proof.
  intros pre std tr nm path. unfold free, Tracker.bind. destruct (name_in pre nm); [reflexivity|].
  destruct (std_conflict std nm path); [reflexivity|]. destruct (lookup nm (n2p tr)); reflexivity.
Qed.

(* the first match of a counted loop: both loops of add are one *)
Lemma find_seq : forall (A : Type) (f : A -> bool) (g : nat -> A) n a r,
  find f (map g (seq a n)) = r ->
  match r with
  | Some x => exists j, j < n /\ x = g (a + j) /\ f x = true /\ forall i, i < j -> f (g (a + i)) = false
  | None => forall i, i < n -> f (g (a + i)) = false
  end.
Proof.
  intros A f g. induction n as [|n IH]; intros a r <-; cbn [seq map find]; [intros i Hi; lia|].
  destruct (f (g a)) eqn:E.
  - exists 0. rewrite PeanoNat.Nat.add_0_r. repeat split; [lia|exact E|intros i Hi; lia].
  - specialize (IH (S a) _ eq_refl). destruct (find f (map g (seq (S a) n))) as [x|].
    + destruct IH as (j & Hj & Hx & Hf & Hp). exists (S j). rewrite PeanoNat.Nat.add_succ_r.
      repeat split; [lia|exact Hx|exact Hf|].
      intros [|i] Hi; [rewrite PeanoNat.Nat.add_0_r; exact E|rewrite PeanoNat.Nat.add_succ_r; apply Hp; lia].
    + intros [|i] Hi; [rewrite PeanoNat.Nat.add_0_r; exact E|rewrite PeanoNat.Nat.add_succ_r; apply IH; lia].
Qed.

Definition name_of (fixed : bool) (segs : list bytes) (n : nat) : bytes :=
  match local_name fixed segs n with Ok x => x | _ => [] end.

Lemma local_name_name_of : forall fixed segs n, local_name fixed segs n = Ok (name_of fixed segs n).
Proof.
  intros fixed segs n. unfold name_of. destruct (local_name_spec fixed segs n) as (nm & -> & _). reflexivity.
Qed.

Lemma try_cands_find : forall fixed pre std tr path segs ns last,
  try_cands fixed pre std tr path segs ns last =
  Ok (match find (free pre std tr path) (map (name_of fixed segs) ns) with
      | Some nm => (Some (push tr path nm), nm)
      | None => (None, fold_left (fun _ n => name_of fixed segs n) ns last)
      end).
Proof.
  intros fixed pre std tr path segs. induction ns as [|n ns IH]; intros last; cbn [try_cands map find fold_left]; [reflexivity|].
  rewrite local_name_name_of. cbn [Bytes.bind]. rewrite bind_free.
  destruct (free pre std tr path (name_of fixed segs n)); [reflexivity|apply IH].
Qed.

Lemma number_loop_find : forall pre std tr base path fuel k,
  number_loop fuel k pre std tr base path =
  match find (free pre std tr path) (map (fun j => base ++ itoa j) (seq k fuel)) with
  | Some nm => Ok (push tr path nm)
  | None => OutOfFuel
  end.
Proof.
  intros pre std tr base path. induction fuel as [|f IH]; intros k; cbn [number_loop seq map find]; [reflexivity|].
  rewrite bind_free. destruct (free pre std tr path (base ++ itoa k)); [reflexivity|apply IH].
Qed.

Definition taken (pre : list bytes) (std : option tracker) (tr : tracker) : list bytes :=
  keys (n2p tr) ++ match std with Some s => keys (n2p s) | None => [] end ++ pre.

Lemma taken_length : forall pre std tr, length (taken pre std tr) = length (n2p tr) + std_size std + length pre.
Proof.
  intros pre std tr. unfold taken, keys, std_size. rewrite !app_length, !map_length.
  destruct std; cbn; [rewrite map_length|]; lia.
Qed.

(* pigeonhole: the names base2, base3, ... are pairwise distinct and only finitely many names are
   taken, reserved or predeclared, so the fuel [add] supplies always suffices *)
Lemma number_loop_finds : forall fuel k pre std tr base path,
  length (n2p tr) + std_size std + length pre < fuel ->
  exists j, number_loop fuel k pre std tr base path = Ok (push tr path (base ++ itoa (k + j))) /\
            free pre std tr path (base ++ itoa (k + j)) = true /\
            forall i, i < j -> free pre std tr path (base ++ itoa (k + i)) = false.
Proof.
  intros fuel k pre std tr base path Hlen. rewrite number_loop_find.
  destruct (find (free pre std tr path) (map (fun j => base ++ itoa j) (seq k fuel))) as [nm|] eqn:F.
  - apply find_seq in F. destruct F as (j & _ & -> & Hf & Hp). eauto.
  - exfalso. pose proof (find_none _ _ F) as N. clear F. set (l := map (fun j => base ++ itoa j) (seq k fuel)) in N.
    assert (ND : NoDup l).
    { apply FinFun.Injective_map_NoDup; [|apply seq_NoDup].
      intros a b E. apply app_inv_head in E. apply itoa_inj. exact E. }
    assert (I : incl l (taken pre std tr)).
    { intros x Hx. assert (B : Tracker.bind pre std tr x path = None) by (rewrite bind_free, (N x Hx); reflexivity).
      apply bind_none in B. unfold taken.
      apply in_or_app. destruct B as [H|[(s & -> & H)|H]]; [left; exact H|right; apply in_or_app; auto ..]. }
    pose proof (NoDup_incl_length ND I) as L. unfold l in L.
    rewrite map_length, seq_length, taken_length in L. lia.
Qed.

Lemma number_loop_ok : forall fuel k pre std tr base path,
  length (n2p tr) + std_size std + length pre < fuel ->
  exists tr' j, number_loop fuel k pre std tr base path = Ok tr' /\
                Tracker.bind pre std tr (base ++ itoa j) path = Some tr'.
Proof.
  intros fuel k pre std tr base path Hlen. destruct (number_loop_finds fuel k pre std tr base path Hlen) as (j & E & Hf & _).
  eexists _, (k + j). split; [exact E|]. rewrite bind_free, Hf. reflexivity.
Qed.

(* candidate number i (from 0): one per segment count, then the last one numbered 2, 3, ... *)
Definition cand_at (fixed : bool) (path : bytes) (i : nat) : bytes :=
  let segs := split_slash [] path in
  let m := length segs in
  if Nat.ltb i m then name_of fixed segs (S i) else name_of fixed segs m ++ itoa (2 + (i - m)).

Lemma cand_at_lt : forall fixed path i, i < length (split_slash [] path) ->
  cand_at fixed path i = name_of fixed (split_slash [] path) (1 + i).
Proof. intros fixed path i H. unfold cand_at. apply PeanoNat.Nat.ltb_lt in H. rewrite H. reflexivity. Qed.

Lemma cand_at_ge : forall fixed path i,
  cand_at fixed path (length (split_slash [] path) + i)
  = name_of fixed (split_slash [] path) (length (split_slash [] path)) ++ itoa (2 + i).
Proof.
  intros fixed path i. unfold cand_at.
  replace (Nat.ltb _ _) with false by (symmetry; apply PeanoNat.Nat.ltb_ge; lia).
  replace (length (split_slash [] path) + i - length (split_slash [] path)) with i by lia. reflexivity.
Qed.

(* All there is to know about add: it never fails; a path that has a name keeps it; otherwise the FIRST
   candidate of the path that bind accepts is bound (the code before the repairs has no numbered candidates and
   may bind nothing). *)
Theorem add_char : forall fixed pre std tr path,
  exists tr', add fixed pre std tr path = Ok tr' /\
    ((lookup path (p2n tr) = None /\
      exists j, Tracker.bind pre std tr (cand_at fixed path j) path = Some tr' /\
                forall i, i < j -> Tracker.bind pre std tr (cand_at fixed path i) path = None)
     \/ (tr' = tr /\ (fixed = true -> lookup path (p2n tr) <> None))).
Proof.
  intros fixed pre std tr path. unfold add. destruct (lookup path (p2n tr)) as [n|].
  { exists tr. split; [reflexivity|]. right. split; [reflexivity|discriminate]. }
  rewrite try_cands_find. cbn [Bytes.bind].
  pose proof (cand_at_lt fixed path) as C1. pose proof (cand_at_ge fixed path) as C2.
  pose proof (split_slash_nonempty path []) as NE.
  set (segs := split_slash [] path) in *. set (m := length segs) in *.
  destruct (find (free pre std tr path) (map (name_of fixed segs) (seq 1 m))) as [nm|] eqn:F1; apply find_seq in F1.
  - destruct F1 as (j & Hj & -> & Hf & Hp). eexists. split; [reflexivity|]. left. split; [reflexivity|]. exists j.
    rewrite (C1 j Hj), bind_free, Hf. split; [reflexivity|].
    intros i Hi. rewrite C1, bind_free, Hp by lia. reflexivity.
  - assert (Em : fold_left (fun _ n => name_of fixed segs n) (seq 1 m) [] = name_of fixed segs m).
    { destruct m as [|m'] eqn:Em; [destruct segs; [congruence|discriminate]|]. rewrite seq_S, fold_left_app. reflexivity. }
    rewrite Em. destruct fixed; [|exists tr; split; [reflexivity|]; right; split; [reflexivity|discriminate]].
    destruct (number_loop_finds (S (length (n2p tr) + std_size std + length pre)) 2 pre std tr (name_of true segs m) path)
      as (j & -> & Hf & Hp); [lia|].
    eexists. split; [reflexivity|]. left. split; [reflexivity|]. exists (m + j).
    rewrite C2, bind_free, Hf. split; [reflexivity|].
    intros i Hi. destruct (PeanoNat.Nat.lt_ge_cases i m) as [Hlt|Hge].
    + rewrite C1, bind_free, F1 by lia. reflexivity.
    + replace i with (m + (i - m)) by lia. rewrite C2, bind_free, Hp by lia. reflexivity.
Qed.

(* Every candidate has any property [P] that toLocalName's results have and that numbering keeps. *)
Section NamePred.
  Variables (fixed : bool) (P : bytes -> Prop).
  Hypothesis P_local : forall parts nm, to_local_name fixed parts = Ok nm -> P nm.
  Hypothesis P_num : forall nm k, P nm -> P (nm ++ itoa k).

  Lemma cand_at_pred : forall path i, P (cand_at fixed path i).
  Proof.
    assert (N : forall segs n, P (name_of fixed segs n)).
    { intros segs n. pose proof (local_name_name_of fixed segs n) as E.
      destruct (local_name_parts segs n) as [parts Hp]. rewrite Hp in E. exact (P_local _ _ E). }
    intros path i. unfold cand_at. destruct (Nat.ltb i (length (split_slash [] path))); [apply N|apply P_num, N].
  Qed.
End NamePred.

Lemma cand_at_valid : forall path j, valid_name_b (cand_at true path j) = true.
Proof.
  apply (cand_at_pred true (fun nm => valid_name_b nm = true)).
  - intros parts nm E. destruct (to_local_name_spec true parts) as (nm' & E' & V). rewrite E in E'. inversion E'; subst. exact (V eq_refl).
  - intros nm k. apply valid_name_numbered.
Qed.

Lemma add_spec : forall fixed pre std tr path,
  exists tr', add fixed pre std tr path = Ok tr' /\
    (((exists n, lookup path (p2n tr) = Some n) /\ tr' = tr)
     \/ (lookup path (p2n tr) = None /\
         exists nm, Tracker.bind pre std tr nm path = Some tr' /\ (fixed = true -> valid_name_b nm = true))
     \/ (fixed = false /\ lookup path (p2n tr) = None /\ tr' = tr)).
Proof.
  intros fixed pre std tr path. destruct (add_char fixed pre std tr path) as (tr' & E & C). exists tr'. split; [exact E|].
  destruct C as [(L & j & B & _)|[-> F]].
  - right. left. split; [exact L|]. exists (cand_at fixed path j). split; [exact B|]. intros ->. apply cand_at_valid.
  - destruct (lookup path (p2n tr)) as [n|]; [left; eauto|]. right. right. destruct fixed; [destruct (F eq_refl eq_refl)|auto].
Qed.

(* What a step of the tracker can do: a path that had no name gets the first candidate bind accepts. *)
Inductive grow (fixed : bool) (pre : list bytes) (std : option tracker) : tracker -> tracker -> Prop :=
| grow_bind : forall tr path j tr',
    lookup path (p2n tr) = None -> Tracker.bind pre std tr (cand_at fixed path j) path = Some tr' ->
    (forall i, i < j -> Tracker.bind pre std tr (cand_at fixed path i) path = None) -> grow fixed pre std tr tr'.

Inductive reach (fixed : bool) (pre : list bytes) (std : option tracker) : tracker -> tracker -> Prop :=
| reach_refl : forall tr, reach fixed pre std tr tr
| reach_step : forall tr tr1 tr2, grow fixed pre std tr tr1 -> reach fixed pre std tr1 tr2 -> reach fixed pre std tr tr2.

Lemma reach_trans : forall fixed pre std a b c, reach fixed pre std a b -> reach fixed pre std b c -> reach fixed pre std a c.
Proof. intros fixed pre std a b c H. induction H; intros H2; [exact H2|]. econstructor; eauto. Qed.

Lemma reach_one : forall fixed pre std a b, grow fixed pre std a b -> reach fixed pre std a b.
Proof. intros. econstructor; [eassumption|constructor]. Qed.

Lemma grow_inv : forall fixed pre std a b, grow fixed pre std a b -> inv std a -> inv std b.
Proof. intros fixed pre std a b [tr path nm tr' Hf Hb _]. exact (bind_inv _ _ _ _ _ _ Hf Hb). Qed.

Lemma reach_preserves : forall fixed pre std (P : tracker -> Prop),
  (forall a b, grow fixed pre std a b -> inv std a -> P a -> P b) ->
  forall a b, reach fixed pre std a b -> inv std a -> P a -> inv std b /\ P b.
Proof.
  intros fixed pre std P HP a b R. induction R as [|a b c G _ IH]; intros I Pa; [auto|].
  apply IH; [eapply grow_inv; eauto|eapply HP; eauto].
Qed.

Lemma reach_inv : forall fixed pre std a b, reach fixed pre std a b -> inv std a -> inv std b.
Proof. intros fixed pre std a b R I. exact (proj1 (reach_preserves fixed pre std (fun _ => True) (fun _ _ _ _ _ => Logic.I) a b R I Logic.I)). Qed.

Lemma reach_names : forall fixed pre std (Q : bytes -> Prop),
  (forall nm, (fixed = true -> valid_name_b nm = true) -> name_in pre nm = false -> Q nm) ->
  forall a b, reach fixed pre std a b ->
  (forall p n, lookup p (p2n a) = Some n -> Q n) -> forall p n, lookup p (p2n b) = Some n -> Q n.
Proof.
  intros fixed pre std Q HQ a b R. induction R as [|tr tr1 tr2 [t path j t' Hf Hb _] _ IH]; intros I; [exact I|].
  apply IH. apply (bind_names _ _ _ _ _ _ Hb Q); [|exact I].
  apply HQ; [intros ->; apply cand_at_valid|]. eapply bind_some_not_pre. exact Hb.
Qed.

Lemma reach_valid : forall pre std a b, reach true pre std a b -> names_valid a -> names_valid b.
Proof. intros pre std. exact (reach_names true pre std _ (fun nm V _ => V eq_refl)). Qed.

Lemma reach_not_pre : forall fixed pre std a b, reach fixed pre std a b -> names_not_pre pre a -> names_not_pre pre b.
Proof. intros fixed pre std. exact (reach_names fixed pre std _ (fun nm _ NP => NP)). Qed.

Lemma grow_ext : forall fixed pre std a b, grow fixed pre std a b -> ext (p2n a) (p2n b) /\ ext (n2p a) (n2p b).
Proof.
  intros fixed pre std a b [tr path nm tr' Hf Hb _]. split; [eapply bind_ext|eapply bind_ext_n2p]; eauto.
Qed.

Lemma reach_ext : forall fixed pre std a b, reach fixed pre std a b -> ext (p2n a) (p2n b) /\ ext (n2p a) (n2p b).
Proof.
  intros fixed pre std a b H. induction H.
  - split; apply ext_refl.
  - destruct (grow_ext _ _ _ _ _ H) as [E1 E2]. destruct IHreach as [F1 F2].
    split; eapply ext_trans; eauto.
Qed.

Lemma reach_taken_names : forall fixed pre std a b n,
  reach fixed pre std a b -> In n (keys (n2p a)) -> In n (keys (n2p b)).
Proof.
  intros fixed pre std a b n R H. apply keys_in_lookup in H. destruct H as [p H].
  eapply lookup_in_keys. apply (proj2 (reach_ext _ _ _ _ _ R)). exact H.
Qed.

Lemma add_reach : forall fixed pre std tr path tr', add fixed pre std tr path = Ok tr' -> reach fixed pre std tr tr'.
Proof.
  intros fixed pre std tr path tr' H. destruct (add_char fixed pre std tr path) as (t & E & C).
  rewrite E in H. inversion H; subst t. destruct C as [(L & j & B & F)|[-> _]]; [|constructor].
  apply reach_one. econstructor; eauto.
Qed.

Lemma add_fixed_bound : forall pre std tr path tr', add true pre std tr path = Ok tr' ->
  (exists n, lookup path (p2n tr') = Some n) /\
  (forall p, In p (keys (p2n tr')) <-> p = path \/ In p (keys (p2n tr))).
Proof.
  intros pre std tr path tr' H. destruct (add_spec true pre std tr path) as (tr1 & E & C).
  rewrite E in H. inversion H; subst tr1. clear H E.
  destruct C as [[[n L] ->]|[(L & nm & B & V)|(F & _)]]; [| |discriminate].
  - split; [eauto|]. intros p. split; [auto|]. intros [->|H]; [|exact H]. eapply lookup_in_keys; eauto.
  - split.
    + exists nm. eapply bind_bound; eauto.
    + intros p. rewrite (bind_keys _ _ _ _ _ _ B). cbn. split; intros [H|H]; auto.
Qed.

Lemma add_total : forall fixed pre std tr path, exists tr', add fixed pre std tr path = Ok tr'.
Proof. intros. destruct (add_spec fixed pre std tr path) as (tr' & E & _). eauto. Qed.

Lemma add_idempotent : forall pre std tr path tr',
  add true pre std tr path = Ok tr' -> add true pre std tr' path = Ok tr'.
Proof.
  intros pre std tr path tr' H. destruct (add_fixed_bound _ _ _ _ _ H) as [[n L] _].
  unfold add. rewrite L. reflexivity.
Qed.

Lemma add_length : forall fixed pre std tr path tr',
  add fixed pre std tr path = Ok tr' -> length (p2n tr') <= S (length (p2n tr)).
Proof.
  intros fixed pre std tr path tr' H. destruct (add_spec fixed pre std tr path) as (t & E & C).
  rewrite E in H. inversion H; subst t.
  destruct C as [[_ ->]|[(_ & nm & B & _)|(_ & _ & ->)]]; [lia| |lia].
  apply bind_some in B. destruct B as (_ & _ & ->). cbn. lia.
Qed.

Lemma add_all_length : forall fixed pre std ps tr tr',
  add_all fixed pre std tr ps = Ok tr' -> length (p2n tr') <= length (p2n tr) + length ps.
Proof.
  intros fixed pre std. induction ps as [|p ps IH]; intros tr tr' H; cbn [add_all] in H.
  - inversion H; subst. cbn. lia.
  - destruct (add fixed pre std tr p) as [t| |] eqn:A; cbn [Bytes.bind] in H; try discriminate.
    apply add_length in A. apply IH in H. cbn [length]. lia.
Qed.

Lemma add_all_reach : forall fixed pre std ps tr tr',
  add_all fixed pre std tr ps = Ok tr' -> reach fixed pre std tr tr'.
Proof.
  intros fixed pre std. induction ps as [|p ps IH]; intros tr tr' H; cbn [add_all] in H.
  - inversion H; subst. constructor.
  - destruct (add fixed pre std tr p) as [t| |] eqn:A; cbn [Bytes.bind] in H; try discriminate.
    eapply reach_trans; [eapply add_reach; exact A|apply IH; exact H].
Qed.

Lemma add_all_keys : forall pre std ps tr tr',
  add_all true pre std tr ps = Ok tr' ->
  forall p, In p (keys (p2n tr')) <-> In p ps \/ In p (keys (p2n tr)).
Proof.
  intros pre std. induction ps as [|q ps IH]; intros tr tr' H p; cbn [add_all] in H.
  - inversion H; subst. cbn. tauto.
  - destruct (add true pre std tr q) as [t| |] eqn:A; cbn [Bytes.bind] in H; try discriminate.
    rewrite (IH _ _ H), (proj2 (add_fixed_bound _ _ _ _ _ A)). cbn [In]. intuition (subst; auto).
Qed.

Lemma add_all_app : forall fixed pre std a b tr,
  add_all fixed pre std tr (a ++ b) = (let! t := add_all fixed pre std tr a in add_all fixed pre std t b).
Proof.
  intros fixed pre std. induction a as [|p a IH]; intros b tr; cbn [app add_all]; [reflexivity|].
  destruct (add fixed pre std tr p) as [t| |]; cbn [Bytes.bind]; [apply IH|reflexivity|reflexivity].
Qed.

Lemma add_all_ext : forall fixed pre std ps tr tr',
  add_all fixed pre std tr ps = Ok tr' -> ext (p2n tr) (p2n tr').
Proof. intros fixed pre std ps tr tr' H. exact (proj1 (reach_ext _ _ _ _ _ (add_all_reach _ _ _ _ _ _ H))). Qed.

Lemma lookup_or_empty_some : forall k v m, lookup k m = Some v -> lookup_or_empty k m = v.
Proof. intros k v m H. unfold lookup_or_empty. rewrite H. reflexivity. Qed.

(* What an operation of the namer does.  The run [r] from [tr] succeeds; for the tracker it is add_all
   of [paths] (TrackerSpec's ref_paths, item_paths, op_paths), so what it does to the tracker is read off the lemmas
   about add_all; and the text the repaired code returns is what [pr] (TrackerSpec's print functions) gives with
   any table that extends the final one, provided the final one holds no empty name. *)
Definition performs (fixed : bool) (pre : list bytes) (std : option tracker) (tr : tracker)
           (paths : list bytes) (pr : amap -> option bytes) (r : res (tracker * bytes)) : Prop :=
  exists tr' txt, r = Ok (tr', txt) /\ add_all fixed pre std tr paths = Ok tr' /\
    (fixed = true -> forall tbl, ext (p2n tr') tbl -> (forall p n, lookup p (p2n tr') = Some n -> n <> []) ->
     pr tbl = Some txt).

Lemma walk_args_performs : forall fixed pre std self args tr,
  performs fixed pre std tr (filter (foreign self) (map fst args)) (fun tbl => print_args self tbl args)
           (walk_args fixed pre std self tr args).
Proof.
  intros fixed pre std self. induction args as [|[p lit] rest IH]; intros tr; cbn [walk_args map fst filter].
  - exists tr, []. split; [reflexivity|]. split; reflexivity.
  - unfold foreign at 1. destruct (is_nil p) eqn:En; [|destruct (bytes_eqb p self) eqn:Es]; cbn [negb andb].
    + destruct (IH tr) as (tr' & txt & -> & A & P). exists tr', (lit ++ txt). split; [reflexivity|]. split; [exact A|].
      intros F tbl E NE. cbn [print_args]. rewrite En, (P F tbl E NE). reflexivity.
    + destruct (IH tr) as (tr' & txt & -> & A & P). exists tr', (lit ++ txt). split; [reflexivity|]. split; [exact A|].
      intros F tbl E NE. cbn [print_args]. unfold qualifier. rewrite En, Es, (P F tbl E NE). reflexivity.
    + destruct (add_total fixed pre std tr p) as [tr1 A1]. rewrite A1. cbn [Bytes.bind].
      destruct (IH tr1) as (tr' & txt & -> & A & P). cbn. eexists tr', _. split; [reflexivity|].
      split; [cbn [add_all]; rewrite A1; exact A|].
      intros F tbl E NE. subst fixed. destruct (add_fixed_bound _ _ _ _ _ A1) as [[n L] _].
      (* the name [p] got is still its name in the final table, and it is not empty *)
      pose proof (E _ _ (add_all_ext _ _ _ _ _ _ A _ _ L)) as L'.
      cbn [print_args]. unfold qualifier. rewrite En, Es, L', (P eq_refl tbl E NE), (lookup_or_empty_some _ _ _ L).
      rewrite (Order.is_nil_false _ n (NE _ _ (add_all_ext _ _ _ _ _ _ A _ _ L))), <- !app_assoc. reflexivity.
Qed.

Lemma name_ref_performs : forall fixed pre std self r tr,
  performs fixed pre std tr (ref_paths self r) (fun tbl => print_ref self tbl r) (name_ref fixed pre std self tr r).
Proof.
  intros fixed pre std self r tr. unfold performs, name_ref, ref_paths. rewrite add_all_app.
  destruct (walk_args_performs fixed pre std self (r_args r) tr) as (tr1 & a & -> & -> & P). cbn [Bytes.bind].
  destruct (bytes_eqb (r_path r) self) eqn:Es.
  - eexists tr1, _. split; [reflexivity|]. split; [reflexivity|]. intros F tbl E NE.
    unfold print_ref, qualifier. rewrite Es, (P F tbl E NE). reflexivity.
  - cbn [add_all]. destruct (add_total fixed pre std tr1 (r_path r)) as [tr2 A]. rewrite A. cbn [Bytes.bind].
    eexists tr2, _. split; [reflexivity|]. split; [reflexivity|]. intros F tbl E NE. subst fixed.
    destruct (add_fixed_bound _ _ _ _ _ A) as [[n L] _].
    pose proof (proj1 (reach_ext _ _ _ _ _ (add_reach _ _ _ _ _ _ A))) as X.
    unfold print_ref, qualifier. rewrite Es, (E _ _ L), (lookup_or_empty_some _ _ _ L).
    rewrite (P eq_refl tbl (ext_trans _ _ _ X E) (fun p n H => NE p n (X _ _ H))).
    cbn [andb]. unfold tparams_text. rewrite <- app_assoc. reflexivity.
Qed.

Lemma render_items_performs : forall fixed pre std self its tr,
  performs fixed pre std tr (flat_map (item_paths self) its) (fun tbl => print_items self tbl its)
           (render_items fixed pre std self tr its).
Proof.
  intros fixed pre std self. induction its as [|[b|r] rest IH]; intros tr; cbn [render_items flat_map item_paths app].
  - exists tr, []. split; [reflexivity|]. split; reflexivity.
  - destruct (IH tr) as (tr' & txt & -> & A & P). exists tr', (b ++ txt). split; [reflexivity|]. split; [exact A|].
    intros F tbl E NE. cbn [print_items]. rewrite (P F tbl E NE). reflexivity.
  - destruct (name_ref_performs fixed pre std self r tr) as (tr1 & t & -> & A1 & P1). cbn [Bytes.bind].
    destruct (IH tr1) as (tr' & txt & -> & A & P). exists tr', (t ++ txt). split; [reflexivity|]. split.
    + rewrite add_all_app, A1. exact A.
    + intros F tbl E NE. cbn [print_items]. pose proof (add_all_ext _ _ _ _ _ _ A) as X.
      rewrite (P1 F tbl (ext_trans _ _ _ X E) (fun p n H => NE p n (X _ _ H))), (P F tbl E NE). reflexivity.
Qed.

Lemma step_performs : forall fixed pre std self o tr,
  performs fixed pre std tr (op_paths self o) (fun tbl => print_op self tbl o) (step fixed pre std self tr o).
Proof.
  intros fixed pre std self [p|its] tr; cbn [step op_paths print_op]; [|apply render_items_performs].
  destruct (add_total fixed pre std tr p) as [tr1 A]. exists tr1, []. cbn [add_all]. rewrite A.
  split; [reflexivity|]. split; reflexivity.
Qed.

Lemma performs_fixed : forall pre std tr paths (pr : amap -> option bytes) r tr' txt,
  performs true pre std tr paths pr r -> r = Ok (tr', txt) ->
  (forall p, In p (keys (p2n tr')) <-> In p paths \/ In p (keys (p2n tr))) /\
  (names_valid tr -> forall tbl, ext (p2n tr') tbl -> pr tbl = Some txt).
Proof.
  intros * (t & x & E & A & P) H. rewrite E in H. inversion H; subst. split; [exact (add_all_keys _ _ _ _ _ A)|].
  intros NV tbl X. apply (P eq_refl _ X). intros p n L.
  exact (valid_name_nonempty n (reach_valid _ _ _ _ (add_all_reach _ _ _ _ _ _ A) NV p n L)).
Qed.

Lemma walk_args_fixed : forall pre std self args tr tr' txt,
  walk_args true pre std self tr args = Ok (tr', txt) ->
  (forall p, In p (keys (p2n tr')) <-> In p (filter (foreign self) (map fst args)) \/ In p (keys (p2n tr))) /\
  (names_valid tr -> forall tbl, ext (p2n tr') tbl -> print_args self tbl args = Some txt).
Proof. intros * H. exact (performs_fixed _ _ _ _ _ _ _ _ (walk_args_performs true pre std self args tr) H). Qed.

Lemma name_ref_fixed : forall pre std self tr r tr' txt,
  name_ref true pre std self tr r = Ok (tr', txt) ->
  (forall p, In p (keys (p2n tr')) <-> In p (ref_paths self r) \/ In p (keys (p2n tr))) /\
  (names_valid tr -> forall tbl, ext (p2n tr') tbl -> print_ref self tbl r = Some txt).
Proof. intros * H. exact (performs_fixed _ _ _ _ _ _ _ _ (name_ref_performs true pre std self r tr) H). Qed.

Lemma render_items_fixed : forall pre std self its tr tr' txt,
  render_items true pre std self tr its = Ok (tr', txt) ->
  (forall p, In p (keys (p2n tr')) <-> In p (flat_map (item_paths self) its) \/ In p (keys (p2n tr))) /\
  (names_valid tr -> forall tbl, ext (p2n tr') tbl -> print_items self tbl its = Some txt).
Proof. intros * H. exact (performs_fixed _ _ _ _ _ _ _ _ (render_items_performs true pre std self its tr) H). Qed.

Lemma step_fixed : forall pre std self tr o tr' txt,
  step true pre std self tr o = Ok (tr', txt) ->
  (forall p, In p (keys (p2n tr')) <-> In p (op_paths self o) \/ In p (keys (p2n tr))) /\
  (names_valid tr -> forall tbl, ext (p2n tr') tbl -> print_op self tbl o = Some txt).
Proof. intros * H. exact (performs_fixed _ _ _ _ _ _ _ _ (step_performs true pre std self o tr) H). Qed.

Lemma run_from_spec : forall fixed pre std self ops tr,
  exists tr' texts snaps, run_from fixed pre std self tr ops = Ok (tr', texts, snaps) /\
    add_all fixed pre std tr (history_paths self ops) = Ok tr' /\
    Forall (fun s => ext s (p2n tr')) snaps /\
    (fixed = true -> names_valid tr' -> map (print_op self (p2n tr')) ops = map Some texts).
Proof.
  intros fixed pre std self. induction ops as [|o rest IH]; intros tr; cbn [run_from].
  - exists tr, [], []. split; [reflexivity|]. split; [reflexivity|]. split; [constructor|reflexivity].
  - destruct (step_performs fixed pre std self o tr) as (tr1 & t & -> & A1 & P1). cbn [Bytes.bind].
    destruct (IH tr1) as (tr' & ts & sn & -> & A & S & P). exists tr', (t :: ts), (p2n tr1 :: sn).
    pose proof (add_all_ext _ _ _ _ _ _ A) as X. split; [reflexivity|]. split; [|split].
    + unfold history_paths. cbn [flat_map]. rewrite add_all_app, A1. exact A.
    + constructor; [exact X|exact S].
    + intros F NV. cbn [map].
      rewrite (P1 F _ X (fun p n L => valid_name_nonempty n (NV p n (X _ _ L)))), (P F NV). reflexivity.
Qed.

Lemma run_from_ok : forall fixed pre std self ops tr tr' texts snaps,
  run_from fixed pre std self tr ops = Ok (tr', texts, snaps) ->
  add_all fixed pre std tr (history_paths self ops) = Ok tr' /\
    Forall (fun s => ext s (p2n tr')) snaps /\
    (fixed = true -> names_valid tr' -> map (print_op self (p2n tr')) ops = map Some texts).
Proof.
  intros fixed pre std self ops tr tr' texts snaps H.
  destruct (run_from_spec fixed pre std self ops tr) as (t & x & s & E & R). rewrite E in H. inversion H; subst. exact R.
Qed.

Lemma run_from_tracker : forall fixed pre std self ops tr tr' texts snaps,
  run_from fixed pre std self tr ops = Ok (tr', texts, snaps) ->
  add_all fixed pre std tr (history_paths self ops) = Ok tr'.
Proof. intros fixed pre std self ops tr tr' texts snaps H. exact (proj1 (run_from_ok _ _ _ _ _ _ _ _ _ H)). Qed.

Lemma run_from_reach : forall fixed pre std self ops tr tr' texts snaps,
  run_from fixed pre std self tr ops = Ok (tr', texts, snaps) -> reach fixed pre std tr tr'.
Proof. intros fixed pre std self ops tr tr' texts snaps H. eapply add_all_reach, run_from_tracker, H. Qed.

Lemma run_from_app : forall fixed pre std self ops1 ops2 tr,
  run_from fixed pre std self tr (ops1 ++ ops2) =
  (let! (tr1, t1, s1) := run_from fixed pre std self tr ops1 in
   let! (tr2, t2, s2) := run_from fixed pre std self tr1 ops2 in
   Ok (tr2, t1 ++ t2, s1 ++ s2)).
Proof.
  intros fixed pre std self. induction ops1 as [|o rest IH]; intros ops2 tr; cbn [app run_from].
  - cbn. destruct (run_from fixed pre std self tr ops2) as [[[a b] c]| |]; reflexivity.
  - destruct (step fixed pre std self tr o) as [[tr1 t]| |]; cbn [Bytes.bind]; try reflexivity.
    rewrite IH. destruct (run_from fixed pre std self tr1 rest) as [[[a b] c]| |]; cbn [Bytes.bind]; try reflexivity.
    destruct (run_from fixed pre std self a ops2) as [[[a2 b2] c2]| |]; reflexivity.
Qed.

Lemma history_paths_adds : forall self ps, history_paths self (map OAdd ps) = ps.
Proof.
  intros self. induction ps as [|p ps IH]; [reflexivity|]. unfold history_paths in *. cbn. rewrite IH. reflexivity.
Qed.

Lemma add_all_as_run : forall fixed pre std self ps tr,
  add_all fixed pre std tr ps =
  match run_from fixed pre std self tr (map OAdd ps) with
  | Ok (tr', _, _) => Ok tr'
  | Panic => Panic
  | OutOfFuel => OutOfFuel
  end.
Proof.
  intros fixed pre std self ps tr.
  destruct (run_from_spec fixed pre std self (map OAdd ps) tr) as (tr' & texts & snaps & -> & A & _).
  rewrite history_paths_adds in A. exact A.
Qed.

Section Final.
  Variable pre : list bytes.         (* the names bind refuses: ANY list *)
  Variable std : option tracker.       (* the reserved-name table: ANY table *)
  Variable self : bytes.

  Lemma run_total : forall fixed ops, exists tr texts snaps, run fixed pre std self ops = Ok (tr, texts, snaps).
  Proof.
    intros fixed ops. destruct (run_from_spec fixed pre std self ops empty_tracker) as (tr & texts & snaps & E & _). eauto.
  Qed.

  Lemma run_inv : forall fixed ops tr texts snaps,
    run fixed pre std self ops = Ok (tr, texts, snaps) -> inv std tr.
  Proof.
    intros fixed ops tr texts snaps H. eapply reach_inv; [eapply run_from_reach; exact H|apply inv_empty].
  Qed.

  Lemma run_bijection : forall fixed ops tr texts snaps,
    run fixed pre std self ops = Ok (tr, texts, snaps) ->
    (forall p n, lookup p (p2n tr) = Some n <-> lookup n (n2p tr) = Some p) /\
    (forall p1 p2 n, lookup p1 (p2n tr) = Some n -> lookup p2 (p2n tr) = Some n -> p1 = p2) /\
    NoDup (keys (p2n tr)) /\ NoDup (vals (p2n tr)).
  Proof.
    intros fixed ops tr texts snaps H. destruct (run_inv _ _ _ _ _ H) as [B (M & N1 & N2) _].
    split; [exact B|]. split; [|split; [exact N1|]].
    - intros p1 p2 n H1 H2. apply B in H1. apply B in H2. congruence.
    - unfold vals. unfold keys in N2. rewrite M in N2. rewrite map_map in N2. cbn in N2. exact N2.
  Qed.

  Lemma run_std_reserved : forall fixed ops tr texts snaps s,
    std = Some s -> run fixed pre std self ops = Ok (tr, texts, snaps) ->
    forall p n sp, lookup p (p2n tr) = Some n -> lookup n (n2p s) = Some sp -> p = sp.
  Proof.
    intros fixed ops tr texts snaps s Hs H p n sp H1 H2. destruct (run_inv _ _ _ _ _ H) as [B _ S].
    apply B in H1. eapply S; eauto.
  Qed.

  Lemma run_stable : forall fixed ops1 ops2 tr2 texts snaps,
    run fixed pre std self (ops1 ++ ops2) = Ok (tr2, texts, snaps) ->
    exists tr1 t1 s1 t2 s2,
      run fixed pre std self ops1 = Ok (tr1, t1, s1) /\ texts = t1 ++ t2 /\ snaps = s1 ++ s2 /\
      forall p n, lookup p (p2n tr1) = Some n -> lookup p (p2n tr2) = Some n.
  Proof.
    intros fixed ops1 ops2 tr2 texts snaps H. unfold run in *. rewrite run_from_app in H.
    destruct (run_from fixed pre std self empty_tracker ops1) as [[[tr1 t1] s1]| |] eqn:E1; cbn [Bytes.bind] in H; try discriminate.
    destruct (run_from fixed pre std self tr1 ops2) as [[[tr2' t2] s2]| |] eqn:E2; cbn [Bytes.bind] in H; try discriminate.
    inversion H; subst. exists tr1, t1, s1, t2, s2. repeat split.
    destruct (reach_ext _ _ _ _ _ (run_from_reach _ _ _ _ _ _ _ _ _ E2)) as [X _]. exact X.
  Qed.

  Lemma run_valid_names : forall ops tr texts snaps,
    run true pre std self ops = Ok (tr, texts, snaps) ->
    forall p n, lookup p (p2n tr) = Some n -> valid_name_b n = true.
  Proof.
    intros ops tr texts snaps H. eapply reach_valid; [eapply run_from_reach; exact H|apply names_valid_empty].
  Qed.

  (* both code versions: whatever bind refuses outright is never a local name *)
  Lemma run_not_predeclared : forall fixed ops tr texts snaps,
    run fixed pre std self ops = Ok (tr, texts, snaps) ->
    forall p n, lookup p (p2n tr) = Some n -> ~ In n pre.
  Proof.
    intros fixed ops tr texts snaps H p n L Hin. apply name_in_spec in Hin.
    pose proof (reach_not_pre _ _ _ _ _ (run_from_reach _ _ _ _ _ _ _ _ _ H) (names_not_pre_empty pre) p n L) as E.
    congruence.
  Qed.

  Lemma run_exact_imports : forall ops tr texts snaps,
    run true pre std self ops = Ok (tr, texts, snaps) ->
    forall p, In p (keys (p2n tr)) <-> In p (history_paths self ops).
  Proof.
    intros ops tr texts snaps H p. rewrite (add_all_keys _ _ _ _ _ (run_from_tracker _ _ _ _ _ _ _ _ _ H)).
    cbn. tauto.
  Qed.

  Lemma run_texts : forall ops tr texts snaps,
    run true pre std self ops = Ok (tr, texts, snaps) ->
    map (print_op self (p2n tr)) ops = map Some texts.
  Proof.
    intros ops tr texts snaps H. apply (run_from_ok _ _ _ _ _ _ _ _ _ H); [reflexivity|]. exact (run_valid_names _ _ _ _ H).
  Qed.

  Lemma run_snapshots : forall ops tr texts snaps,
    run true pre std self ops = Ok (tr, texts, snaps) ->
    Forall (fun s => forall p n, lookup p s = Some n -> lookup p (p2n tr) = Some n) snaps.
  Proof. intros ops tr texts snaps H. apply (run_from_ok _ _ _ _ _ _ _ _ _ H). Qed.
End Final.

Lemma own_package_unqualified : forall self tbl r,
  r_path r = self -> print_ref self tbl r <> None ->
  exists rest, print_ref self tbl r = Some (r_name r ++ rest).
Proof.
  intros self tbl r Hp Hs. unfold print_ref in *. rewrite Hp in *. unfold qualifier in *.
  rewrite bytes_eqb_refl in *. destruct (print_args self tbl (r_args r)) as [a|]; [|congruence].
  cbn [andb app]. destruct (r_name r) as [|c n]; [cbn [app]; eauto|]. cbn [app is_nil]. eauto.
Qed.

Definition key_le (a b : bytes * bytes) : Prop := bytes_leb (fst a) (fst b) = true.

Lemma sort_by_key_eq : forall m, sort_by_key m = Order.sort_by fst bytes_leb m.
Proof. apply (Order.sort_by_unfold fst bytes_leb insert_key); intros; destruct l; reflexivity. Qed.

Lemma insert_key_eq : forall e l, insert_key e l = Order.insert_by fst bytes_leb e l.
Proof. induction l as [|y r IH]; cbn; [reflexivity|]. now rewrite IH. Qed.

Lemma insert_key_perm : forall e l, Permutation (insert_key e l) (e :: l).
Proof. intros. rewrite insert_key_eq. symmetry. apply Order.insert_by_perm. Qed.

Lemma insert_key_sorted : forall e l, Sorted key_le l -> Sorted key_le (insert_key e l).
Proof.
  intros e l S. rewrite insert_key_eq. apply StronglySorted_Sorted.
  apply (Order.insert_by_sorted fst bytes_leb Order.bytes_leb_total Order.bytes_leb_trans).
  apply Sorted_StronglySorted; [|exact S]. intros x y z. apply Order.bytes_leb_trans.
Qed.

Lemma write_imports_entries : forall m,
  Permutation (sort_by_key m) m /\ Sorted key_le (sort_by_key m).
Proof.
  intros m. rewrite sort_by_key_eq. split.
  - symmetry. apply Order.sort_by_perm.
  - apply StronglySorted_Sorted. exact (Order.sort_by_sorted fst bytes_leb Order.bytes_leb_total Order.bytes_leb_trans m).
Qed.

Definition h_refs (paths : list bytes) : list op :=
  map (fun p => ORender [IRef (mk_ref p (bs "T") [] [])]) paths.

(* The witnesses of the examples below are whatever the run returns.  Stated through the match they need not be
   written out, and their normal forms stay out of the proof term: the kernel evaluates the run once. *)
Lemma ok_witness3 : forall (A B C : Type) (r : res (A * B * C)) (P : A -> B -> C -> Prop),
  match r with Ok (a, b, c) => P a b c | _ => False end -> exists a b c, r = Ok (a, b, c) /\ P a b c.
Proof. intros A B C [[[a b] c]| |] P H; [eauto|destruct H..]. Qed.

Lemma old_keyword_name :
  exists tr texts snaps,
    run false [] None (bs "m") (h_refs [bs "github.com/json-iterator/go"]) = Ok (tr, texts, snaps) /\
    lookup (bs "github.com/json-iterator/go") (p2n tr) = Some (bs "go") /\ texts = [bs "go.T"].
Proof. apply ok_witness3. vm_compute. repeat split. Qed.

Lemma old_digit_name :
  exists tr texts snaps,
    run false [] None (bs "m") (h_refs [bs "example.com/2fa"]) = Ok (tr, texts, snaps) /\
    lookup (bs "example.com/2fa") (p2n tr) = Some (bs "2fa").
Proof. apply ok_witness3. vm_compute. repeat split. Qed.

(* the code before fixes/C03-3 (fixes 1 and 2 in, nothing refused outright) *)
Lemma old_predeclared_name :
  exists tr texts snaps,
    run true [] None (bs "m") (h_refs [bs "example.com/x/string"]) = Ok (tr, texts, snaps) /\
    lookup (bs "example.com/x/string") (p2n tr) = Some (bs "string") /\ texts = [bs "string.T"].
Proof. apply ok_witness3. vm_compute. repeat split. Qed.

Lemma old_candidates_exhausted :
  exists tr texts snaps,
    run false [] None (bs "m") (h_refs [bs "a.com/foo-bar"; bs "a.com/foo_bar"; bs "a.com/foobar"]) = Ok (tr, texts, snaps) /\
    lookup (bs "a.com/foobar") (p2n tr) = None /\ nth 2 texts [] = bs ".T".
Proof. apply ok_witness3. vm_compute. repeat split. Qed.
