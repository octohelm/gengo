(* Lemmas for C18 about the model of the partialstruct generator (Model/GenPartialStruct.v): the field list is the
   origin's minus the omitted fields ([gen_fields_loop_spec]), rendered types denote the origin's ([type_lit_denotes]),
   what createFieldSnippet selects and what the selected statements copy ([copy_semantics]), the error cases, and the
   scoping of qualified names.
   Props/C18.v is stated with notions DEFINED here: [retained], [is_replaced], [apply_replace] (the declarative reading
   of the omit and replace tags); [ref_modelled], [rendered_ref], [replace_modelled] (the replacement types the model
   renders); [imported], [fimported] (the foreign packages of a type are in the import table); [no_error],
   [no_as_methods], [is_call] (which statement a field gets); [decl_bad] (a declaration in error). *)
Require Import Gengo.Base.Bytes Gengo.Model.GenPartialStruct.
Require Gengo.Base.Order Gengo.Base.Assoc.

Lemma bytes_eqb_sym : forall a b, bytes_eqb a b = bytes_eqb b a.
Proof. exact Order.bytes_eqb_sym. Qed.

Lemma bytes_eqb_neq : forall a b, bytes_eqb a b = false -> a <> b.
Proof. intros a b. apply Order.bytes_eqb_neq. Qed.

Lemma name_in_spec : forall n l, name_in n l = true <-> In n l.
Proof. exact Order.existsb_bytes_eqb_in. Qed.

(* the model's [nodupb] is Base/Order.v's [nodup_bytes], the same fixpoint *)
Lemma nodupb_NoDup : forall l, nodupb l = true -> NoDup l.
Proof. intros l. apply Order.nodup_bytes_NoDup. Qed.

Lemma Forall2_in_l {A B} (R : A -> B -> Prop) : forall l1 l2 x,
    Forall2 R l1 l2 -> In x l1 -> exists y, In y l2 /\ R x y.
Proof.
  intros l1 l2 x HF. induction HF as [|a b l l' Hab HF IH]; intros Hin; [contradiction|].
  destruct Hin as [E|Hin].
  - subst. exists b. split; [left; reflexivity|exact Hab].
  - destruct (IH Hin) as [y [Hy HR]]. exists y. split; [right; exact Hy|exact HR].
Qed.

Lemma existsb_Forall2 {A B} (R : A -> B -> Prop) (p : A -> bool) (q : B -> bool) :
  forall l l', Forall2 R l l' -> (forall x y, R x y -> p x = q y) -> existsb p l = existsb q l'.
Proof.
  intros l l' HF H. induction HF as [|x y l l' Hxy _ IH]; [reflexivity|]. cbn. rewrite (H x y Hxy), IH. reflexivity.
Qed.

Lemma existsb_map_filter {A B} (h : A -> B) (r : A -> bool) (q : B -> bool) : forall l,
  existsb q (map h (filter r l)) = existsb (fun x => r x && q (h x)) l.
Proof. induction l as [|x l IH]; [reflexivity|]. cbn. destruct (r x); cbn; rewrite IH; reflexivity. Qed.

Section Fields.
  Variable L : bytes -> bytes.
  Variable target : bytes.
  Variable c : cfg.

  (* text of a replacement type *)
  Definition rendered_ref (s : bytes) : bytes :=
    match id_string L target s with IdOk t _ => t | _ => s end.

  (* the declarative reading of "unless replaced by a replace tag": name kept; type and (if given) tag replaced *)
  Definition apply_replace (repl : list (bytes * list bytes)) (f : field) : gfield :=
    match lookup (f_name f) repl with
    | Some (t0 :: rest) =>
        mk_gfield (f_name f) (OText (rendered_ref t0))
                  (match rest with [] => f_tag f | _ => join_with ch_space rest end)
    | _ => mk_gfield (f_name f) (fst (field_type_lit L target c (f_ty f))) (f_tag f)
    end.

  Definition retained (omit : list bytes) (f : field) : bool := negb (omitted omit (f_name f)).

  Hypothesis Htag : fx_tag c = true.

  Lemma render_tag_fixed : forall t, render_tag L target c t = IdOk t [].
  Proof. intros t. unfold render_tag. rewrite Htag. reflexivity. Qed.

  Lemma gen_field_ok : forall repl f g i,
      gen_field L target c repl f = GOk g i -> g = apply_replace repl f.
  Proof.
    intros repl f g i. unfold gen_field, apply_replace.
    destruct (lookup (f_name f) repl) as [[|t0 rest]|] eqn:El.
    - discriminate.
    - rewrite render_tag_fixed. unfold rendered_ref.
      destruct (id_string L target t0) as [rt ri| |]; try discriminate.
      intros H. injection H as <- _. reflexivity.
    - destruct (field_type_lit L target c (f_ty f)) as [o ti] eqn:Et. rewrite render_tag_fixed.
      intros H. injection H as <- _. reflexivity.
  Qed.

  Lemma gen_fields_loop_spec : forall omit repl fs acc imps gs i,
      gen_fields_loop L target c omit repl fs acc imps = GOk gs i ->
      gs = acc ++ map (apply_replace repl) (filter (retained omit) fs).
  Proof.
    intros omit repl fs. induction fs as [|f r IH]; intros acc imps gs i H; cbn [gen_fields_loop] in H.
    - injection H as <- _. cbn. rewrite app_nil_r. reflexivity.
    - cbn [filter]. unfold retained at 1.
      destruct (omitted omit (f_name f)) eqn:Eo; cbn [negb].
      + apply IH in H. exact H.
      + destruct (gen_field L target c repl f) as [g gi| |] eqn:Eg; try discriminate.
        apply IH in H. rewrite H. rewrite <- app_assoc. cbn [map app].
        apply gen_field_ok in Eg. rewrite Eg. reflexivity.
  Qed.

  (* replacement type strings that the model renders: no type arguments after a qualified name *)
  Definition ref_modelled (s : bytes) : bool :=
    match id_string L target s with IdOk _ _ => true | _ => false end.

  Definition replace_modelled (omit : list bytes) (repl : list (bytes * list bytes)) (fs : list field) : Prop :=
    forall f t0 rest, In f fs -> retained omit f = true -> lookup (f_name f) repl = Some (t0 :: rest) ->
                      ref_modelled t0 = true.

  Lemma replace_map_nonempty : forall vals acc,
      (forall k v, In (k, v) acc -> v <> []) ->
      forall k v, In (k, v) (replace_map vals acc) -> v <> [].
  Proof.
    induction vals as [|x r IH]; intros acc Hacc k v Hin; cbn [replace_map] in Hin.
    - eapply Hacc; eauto.
    - destruct (split2 ch_colon x) as [k0 [rest|]] eqn:Es.
      + eapply IH; [|exact Hin]. intros k1 v1 [He|Hi].
        * inversion He; subst. destruct rest as [|a rest']; cbn; [discriminate|].
          destruct (Ascii.eqb a ch_space); [discriminate|].
          destruct (split_on ch_space rest'); discriminate.
        * eapply Hacc; eauto.
      + eapply IH; eauto.
  Qed.

  Lemma lookup_in : forall k m v, lookup k m = Some v -> exists k', In (k', v) m.
  Proof. intros k m v H. exists k. exact (Assoc.get_Some_In bytes_eqb Order.bytes_eqbP m k v H). Qed.

  Lemma gen_field_total : forall repl f,
      (forall k v, In (k, v) repl -> v <> []) ->
      (forall t0 rest, lookup (f_name f) repl = Some (t0 :: rest) -> ref_modelled t0 = true) ->
      exists g i, gen_field L target c repl f = GOk g i.
  Proof.
    intros repl f Hne Hm. unfold gen_field. destruct (lookup (f_name f) repl) as [[|t0 rest]|] eqn:El.
    - destruct (lookup_in _ _ _ El) as [k' Hin]. exfalso. exact (Hne _ _ Hin eq_refl).
    - rewrite render_tag_fixed. specialize (Hm t0 rest eq_refl). unfold ref_modelled in Hm.
      destruct (id_string L target t0); try discriminate. eauto.
    - destruct (field_type_lit L target c (f_ty f)). rewrite render_tag_fixed. eauto.
  Qed.

  Lemma gen_fields_loop_total : forall omit repl fs acc imps,
      (forall k v, In (k, v) repl -> v <> []) ->
      replace_modelled omit repl fs ->
      exists gs i, gen_fields_loop L target c omit repl fs acc imps = GOk gs i.
  Proof.
    intros omit repl fs. induction fs as [|f r IH]; intros acc imps Hne Hm; cbn [gen_fields_loop].
    - eauto.
    - assert (Hm' : replace_modelled omit repl r).
      { intros f' t0 rest Hin. apply Hm. right. exact Hin. }
      destruct (omitted omit (f_name f)) eqn:Eo.
      + apply IH; assumption.
      + destruct (gen_field_total repl f Hne) as [g [i Hg]].
        { intros t0 rest. apply Hm; [left; reflexivity|]. unfold retained. rewrite Eo. reflexivity. }
        rewrite Hg. apply IH; assumption.
  Qed.
End Fields.

Section Types.
  Variable L : bytes -> bytes.
  Variable target : bytes.
  Variable c : cfg.
  Variable imps : list (bytes * bytes).      (* the import block: (path, local name) *)

  Hypothesis Hnodup : NoDup (map snd imps).

  Lemma resolve_L : forall p, In (p, L p) imps -> resolve imps (L p) = Some p.
  Proof.
    intros p Hin.
    rewrite (Assoc.get_swap_unfold (fun a b => bytes_eqb b a) (fun k m => resolve m k)) by (intros k [|[v k'] r]; reflexivity).
    apply (Assoc.get_In _ Assoc.bytes_eqbP'); [rewrite map_map; exact Hnodup|].
    exact (in_map (fun e => (snd e, fst e)) _ _ Hin).
  Qed.

  Lemma sel_denotes : forall p n,
      bytes_eqb p target = false -> In (p, L p) imps -> denotes_ref imps target (OSel (L p) n) p n = true.
  Proof.
    intros p n Ep Hin. cbn [denotes_ref]. rewrite Ep, bytes_eqb_refl, (resolve_L p Hin). cbn. apply bytes_eqb_refl.
  Qed.

  Definition imported (t : ty) : Prop :=
    forall p, In p (ty_pkgs t) -> bytes_eqb p target = false -> In (p, L p) imps.

  Fixpoint no_error (t : ty) : bool :=
    match t with
    | TError => false
    | TPtr e | TSlice e | TArray _ e => no_error e
    | TMap k v => no_error k && no_error v
    | TAlias _ _ r => no_error r
    | _ => true
    end.

  Lemma type_lit_denotes : forall t,
      (fx_errlit c = true \/ no_error t = true) ->
      has_iface_lit t = false ->
      imported t ->
      denotes imps target (fst (type_lit L target c t)) t = true.
  Proof.
    induction t as [n| | |pkg name u ms|e IH|e IH|n e IH|k IHk v IHv|txt|ap an ar IHa];
      cbn [type_lit no_error has_iface_lit]; intros Herr Hif Himp.
    - apply bytes_eqb_refl.
    - reflexivity.
    - destruct Herr as [Herr|Herr]; [|discriminate]. rewrite Herr. reflexivity.
    - destruct (bytes_eqb pkg target) eqn:Ep; cbn [fst denotes].
      + rewrite Ep, bytes_eqb_refl. reflexivity.
      + apply sel_denotes; [exact Ep|]. apply Himp; [left; reflexivity|exact Ep].
    - destruct (type_lit L target c e). exact (IH Herr Hif Himp).
    - destruct (type_lit L target c e). exact (IH Herr Hif Himp).
    - destruct (type_lit L target c e). cbn [fst denotes]. rewrite N.eqb_refl. exact (IH Herr Hif Himp).
    - apply orb_false_iff in Hif. destruct Hif as [Hifk Hifv].
      assert (Hek : fx_errlit c = true \/ no_error k = true).
      { destruct Herr as [H|H]; [left; exact H|right; apply andb_true_iff in H; apply H]. }
      assert (Hev : fx_errlit c = true \/ no_error v = true).
      { destruct Herr as [H|H]; [left; exact H|right; apply andb_true_iff in H; apply H]. }
      destruct (type_lit L target c k), (type_lit L target c v). cbn [fst denotes] in *. rewrite IHk, IHv.
      + reflexivity.
      + exact Hev.
      + exact Hifv.
      + intros p Hp. apply Himp. cbn. apply in_or_app. right. exact Hp.
      + exact Hek.
      + exact Hifk.
      + intros p Hp. apply Himp. cbn. apply in_or_app. left. exact Hp.
    - discriminate.
    - cbn [denotes]. rewrite (IHa Herr Hif Himp). apply orb_true_r.
  Qed.

  (* a field's type: an alias at the top level is printed by its own name, which denotes it; below the top level it is
     printed through its right-hand side - the same type *)
  Definition fimported (t : ty) : Prop :=
    forall p, In p (fty_pkgs t) -> bytes_eqb p target = false -> In (p, L p) imps.

  Lemma field_type_lit_denotes : forall t,
      (fx_errlit c = true \/ no_error t = true) ->
      fhas_iface_lit t = false ->
      fimported t ->
      denotes imps target (fst (field_type_lit L target c t)) t = true.
  Proof.
    intros t Herr Hif Himp.
    destruct t as [n| | |pkg name u ms|e|e|n e|k v|txt|ap an ar];
      try (apply type_lit_denotes; assumption).
    cbn [field_type_lit denotes]. apply orb_true_iff. left.
    destruct (bytes_eqb ap target) eqn:Ep; cbn [fst].
    - cbn [denotes_ref]. rewrite Ep, bytes_eqb_refl. reflexivity.
    - apply sel_denotes; [exact Ep|]. apply Himp; [left; reflexivity|exact Ep].
  Qed.

  (* the import paths type_lit registers are exactly the foreign packages the type mentions *)
  Lemma type_lit_imports : forall t,
      snd (type_lit L target c t) = filter (fun p => negb (bytes_eqb p target)) (ty_pkgs t).
  Proof.
    induction t as [n| | |pkg name u ms|e IH|e IH|n e IH|k IHk v IHv|txt|ap an ar IHa]; cbn [type_lit ty_pkgs filter]; try reflexivity.
    - destruct (bytes_eqb pkg target); reflexivity.
    - destruct (type_lit L target c e). exact IH.
    - destruct (type_lit L target c e). exact IH.
    - destruct (type_lit L target c e). exact IH.
    - destruct (type_lit L target c k). destruct (type_lit L target c v). cbn [snd] in *.
      rewrite filter_app, IHk, IHv. reflexivity.
    - exact IHa.
  Qed.

  Lemma type_lit_quals : forall t,
      oty_quals (fst (type_lit L target c t)) = map L (filter (fun p => negb (bytes_eqb p target)) (ty_pkgs t)).
  Proof.
    induction t as [n| | |pkg name u ms|e IH|e IH|n e IH|k IHk v IHv|txt|ap an ar IHa]; cbn [type_lit ty_pkgs filter]; try reflexivity.
    - destruct (bytes_eqb pkg target); reflexivity.
    - destruct (type_lit L target c e). exact IH.
    - destruct (type_lit L target c e). exact IH.
    - destruct (type_lit L target c e). exact IH.
    - destruct (type_lit L target c k). destruct (type_lit L target c v). cbn [fst oty_quals] in *.
      rewrite filter_app, map_app, IHk, IHv. reflexivity.
    - exact IHa.
  Qed.

  Lemma field_type_lit_quals : forall t,
      oty_quals (fst (field_type_lit L target c t)) = map L (filter (fun p => negb (bytes_eqb p target)) (fty_pkgs t)).
  Proof.
    intros t. destruct t as [n| | |pkg name u ms|e|e|n e|k v|txt|ap an ar]; try apply type_lit_quals.
    cbn [field_type_lit fty_pkgs filter]. destruct (bytes_eqb ap target); reflexivity.
  Qed.
End Types.

Section Copy.
  Variable L : bytes -> bytes.
  Variable target : bytes.
  Variable c : cfg.

  Definition is_replaced (repl : list (bytes * list bytes)) (f : field) : bool :=
    match lookup (f_name f) repl with Some _ => true | None => false end.

  Lemma unalias_not_alias : forall t p n r, unalias t <> TAlias p n r.
  Proof. induction t; intros p0 n0 r0; cbn [unalias]; try discriminate. apply IHt. Qed.

  Lemma gen_stmts_loop_spec : forall omit repl fs acc imps ss i,
      gen_stmts_loop L target c omit repl fs acc imps = GOk ss i ->
      exists ss', ss = acc ++ ss' /\
        Forall2 (fun f s => exists j, field_stmt L target c (is_replaced repl f) f = GOk s j)
                (filter (retained omit) fs) ss'.
  Proof.
    intros omit repl fs. induction fs as [|f r IH]; intros acc imps ss i H; cbn [gen_stmts_loop] in H.
    - injection H as <- _. exists []. rewrite app_nil_r. split; [reflexivity|constructor].
    - cbn [filter]. unfold retained at 1. destruct (omitted omit (f_name f)) eqn:Eo; cbn [negb].
      + apply IH in H. exact H.
      + destruct (field_stmt L target c
                    (match lookup (f_name f) repl with Some _ => true | None => false end) f) as [s j| |] eqn:Es;
          try discriminate.
        apply IH in H. destruct H as [ss' [Hs HF]]. exists (s :: ss'). split.
        * rewrite Hs, <- app_assoc. reflexivity.
        * constructor; [exists j; exact Es|exact HF].
  Qed.

  (* every statement writes the field it was generated for *)
  Definition stmt_field (s : stmt) : bytes :=
    match s with
    | SAssign f | SCopySlice f _ | SCopyMap f _ | SCallInto f _ | SCallCopyVal f _ | SCallCopyDeref f _ => f
    | SOther _ => []
    end.

  Definition is_other (s : stmt) : bool := match s with SOther _ => true | _ => false end.

  (* what createFieldSnippet produces: for a slice or map type (possibly behind aliases) a copy of the container, spelled
     as the declared type; otherwise an assignment or, only for a replaced field or a named type, a statement picked by
     select_named; it fails only on an error-typed field when the nil-package guard is off *)
  Lemma field_stmt_shape : forall b f,
      match field_stmt L target c b f with
      | GOk s _ =>
          if is_container (unalias (f_ty f))
          then s = SCopySlice (f_name f) (fst (field_type_lit L target c (f_ty f))) \/
               s = SCopyMap (f_name f) (fst (field_type_lit L target c (f_ty f)))
          else s = SAssign (f_name f) \/
               ((b = true \/ exists pkg name u ms, unalias (f_ty f) = TNamed pkg name u ms) /\
                exists fc, s = select_named (f_name f) fc)
      | _ => fx_errnil c = false
      end.
  Proof.
    intros b f. unfold field_stmt, field_stmt_gen, switch_type. cbv zeta.
    destruct (unalias (f_ty f)) as [n| | |pkg name u ms|e|e|n e|k v|txt|ap an ar]; cbn [is_container];
      try (left; reflexivity).
    - destruct b; [right; split; [left; reflexivity|exists (true, true, true); reflexivity]|].
      destruct (fx_errnil c); [left; reflexivity|reflexivity].
    - destruct b; [right; split; [left; reflexivity|exists (true, true, true); reflexivity]|].
      destruct (scan_methods ms (false, false, true)) as [[hc hi] ptr].
      destruct (bytes_eqb pkg target && negb (is_uiface u)); right; (split; [right; eauto|]); eexists; reflexivity.
    - destruct (field_type_lit L target c (f_ty f)). left. reflexivity.
    - destruct (field_type_lit L target c (f_ty f)). right. reflexivity.
  Qed.

  Lemma select_named_field : forall f fc, stmt_field (select_named f fc) = f /\ is_other (select_named f fc) = false.
  Proof.
    intros f [[hc hi] ptr]. unfold select_named.
    destruct (ptr && hi); [split; reflexivity|].
    destruct (negb ptr && hc); [split; reflexivity|].
    destruct (ptr && hc); split; reflexivity.
  Qed.

  Lemma select_named_quals : forall f fc, stmt_quals (select_named f fc) = [].
  Proof.
    intros f [[hc hi] ptr]. unfold select_named.
    destruct (ptr && hi); [reflexivity|]. destruct (negb ptr && hc); [reflexivity|].
    destruct (ptr && hc); reflexivity.
  Qed.

  Lemma field_stmt_field : forall b f s j,
      field_stmt L target c b f = GOk s j -> stmt_field s = f_name f /\ is_other s = false.
  Proof.
    intros b f s j H. pose proof (field_stmt_shape b f) as X. rewrite H in X.
    destruct (is_container (unalias (f_ty f))); [destruct X as [->| ->]|destruct X as [->|[_ [fc ->]]]].
    - split; reflexivity.
    - split; reflexivity.
    - split; reflexivity.
    - apply select_named_field.
  Qed.

  Lemma field_stmt_quals : forall b f s j,
      field_stmt L target c b f = GOk s j ->
      stmt_quals s = if is_container (unalias (f_ty f)) then oty_quals (fst (field_type_lit L target c (f_ty f))) else [].
  Proof.
    intros b f s j H. pose proof (field_stmt_shape b f) as X. rewrite H in X.
    destruct (is_container (unalias (f_ty f))); [destruct X as [->| ->]|destruct X as [->|[_ [fc ->]]]];
      try reflexivity.
    apply select_named_quals.
  Qed.

  Lemma field_stmt_total : forall b f, fx_errnil c = true -> exists s j, field_stmt L target c b f = GOk s j.
  Proof.
    intros b f He. pose proof (field_stmt_shape b f) as X.
    destruct (field_stmt L target c b f); [eauto|congruence|congruence].
  Qed.

  (* statements that call a method: only for named (or error) field types *)
  Definition is_call (s : stmt) : bool :=
    match s with SCallInto _ _ | SCallCopyVal _ _ | SCallCopyDeref _ _ => true | _ => false end.

  Lemma sget_sset_same : forall s f v, sget (sset s f v) f = v.
  Proof. intros. unfold sset. cbn [sget]. rewrite bytes_eqb_refl. reflexivity. Qed.

  Lemma sget_sset_other : forall s f g v, g <> f -> sget (sset s f v) g = sget s g.
  Proof. intros s f g v H. unfold sset. cbn [sget]. rewrite (proj2 (Order.bytes_eqb_neq g f) H). reflexivity. Qed.

  Definition sets (out : svalue) (f : bytes) (v : value) (out' : svalue) : Prop :=
    (forall g, g <> f -> sget out' g = sget out g) /\ (sget out f = VZero -> sget out' f = v).

  Lemma sset_sets : forall out f v, sets out f v (sset out f v).
  Proof.
    intros out f v. split; [intros g Hg; apply sget_sset_other; exact Hg | intros _; apply sget_sset_same].
  Qed.

  (* a container copy leaves the field as it is when the source container is nil *)
  Lemma copy_sets : forall inv out f,
      sets out f (sget inv f) (if is_zero (sget inv f) then out else sset out f (copy_container (sget inv f))).
  Proof.
    intros inv out f. destruct (is_zero (sget inv f)) eqn:Ez; [|apply sset_sets].
    split; [reflexivity|]. intros Hz. rewrite Hz. destruct (sget inv f); [reflexivity|discriminate..].
  Qed.

  (* one statement: the field it names gets the (converted) source value, or stays as it is when the source
     container is nil; nothing else changes *)
  Lemma exec_stmt_effect : forall conv inv out s,
      is_other s = false ->
      exists out', exec_stmt conv inv out s = Some out' /\
        sets out (stmt_field s)
             (if is_call s then conv (stmt_field s) (sget inv (stmt_field s)) else sget inv (stmt_field s)) out'.
  Proof.
    intros conv inv out s Ho.
    destruct s as [f|f t|f t|f m|f m|f m|txt]; [| | | | | |discriminate]; cbn [exec_stmt stmt_field is_call];
      eexists; (split; [reflexivity|]).
    - apply sset_sets.
    - apply copy_sets.
    - apply copy_sets.
    - apply sset_sets.
    - apply sset_sets.
    - apply sset_sets.
  Qed.

  (* a list of statements over pairwise distinct fields *)
  Lemma exec_stmts_effect : forall conv inv ss out,
      Forall (fun s => is_other s = false) ss ->
      NoDup (map stmt_field ss) ->
      (forall s, In s ss -> sget out (stmt_field s) = VZero) ->
      exists out', exec_stmts conv inv out ss = Some out' /\
        (forall g, ~ In g (map stmt_field ss) -> sget out' g = sget out g) /\
        (forall s, In s ss ->
           sget out' (stmt_field s) = if is_call s then conv (stmt_field s) (sget inv (stmt_field s))
                                       else sget inv (stmt_field s)).
  Proof.
    intros conv inv ss. induction ss as [|s r IH]; intros out Hoth Hnd Hz.
    - exists out. split; [reflexivity|]. split; [reflexivity|]. intros s [].
    - apply Forall_cons_iff in Hoth. destruct Hoth as [Hs Hr].
      cbn [map] in Hnd. apply NoDup_cons_iff in Hnd. destruct Hnd as [Hnotin Hnd'].
      destruct (exec_stmt_effect conv inv out s Hs) as [out1 [He [Hfr Hset]]].
      cbn [exec_stmts]. rewrite He.
      destruct (IH out1 Hr Hnd') as [out' [He' [Hfr' Hset']]].
      { intros s' Hin. rewrite Hfr.
        - apply Hz. right. exact Hin.
        - intros E. apply Hnotin. rewrite <- E. apply in_map. exact Hin. }
      exists out'. split; [exact He'|]. split.
      + intros g Hg. cbn [map] in Hg. rewrite Hfr'.
        * apply Hfr. intros E. apply Hg. left. symmetry. exact E.
        * intros Hin. apply Hg. right. exact Hin.
      + intros s' [E|Hin].
        * subst s'. rewrite Hfr'; [|exact Hnotin]. apply Hset. apply Hz. left. reflexivity.
        * apply Hset'. exact Hin.
  Qed.
End Copy.

Section Errors.
  Variable L : bytes -> bytes.
  Variable target : bytes.
  Variable c : cfg.

  (* not a struct, or no spec names a type: an error, and nothing rendered (TErr carries no text) *)
  Lemma generate_type_errors : forall ti,
      ti_enabled ti = true ->
      ti_name ti <> [] ->
      (ti_under ti = None -> generate_type L target c ti = TErr EMustStruct) /\
      (forall fs, ti_under ti = Some fs -> origin_loop c (ti_name ti) (ti_group ti) None = None ->
                  generate_type L target c ti = TErr ENeedNamed).
  Proof.
    intros ti Hen Hname. unfold generate_type. rewrite Hen. cbn [negb].
    destruct (ti_name ti) as [|x r] eqn:En; [congruence|]. cbn [gen_name].
    split.
    - intros Hu. rewrite Hu. reflexivity.
    - intros fs Hu Ho. rewrite Hu, Ho. reflexivity.
  Qed.

  Lemma generate_type_gen_inv : forall ti g i,
      generate_type L target c ti = TGen g i ->
      ti_enabled ti = true /\
      exists fs o, ti_under ti = Some fs /\ origin_loop c (ti_name ti) (ti_group ti) None = Some o /\
        g_origin g = fst (origin_ref L target o) /\
        (exists i1, gen_fields_loop L target c (ti_omit ti) (replace_map (ti_replace ti) []) fs [] [] = GOk (g_fields g) i1) /\
        (exists i3, gen_stmts_loop L target c (copy_skip (ti_omit ti)) (replace_map (ti_replace ti) []) fs [] [] = GOk (g_stmts g) i3).
  Proof.
    intros ti g i. unfold generate_type.
    destruct (ti_enabled ti); cbn [negb]; [|discriminate].
    destruct (gen_name (ti_name ti)) as [gname| |]; try discriminate.
    destruct (ti_under ti) as [fs|]; [|discriminate].
    destruct (origin_loop c (ti_name ti) (ti_group ti) None) as [o|] eqn:Eo; [|discriminate].
    destruct (gen_fields_loop L target c (ti_omit ti) (replace_map (ti_replace ti) []) fs [] []) as [gfs i1| |] eqn:Ef;
      try discriminate.
    destruct (origin_ref L target o) as [oref i2] eqn:Eor.
    destruct (gen_stmts_loop L target c (copy_skip (ti_omit ti)) (replace_map (ti_replace ti) []) fs [] []) as [sts i3| |] eqn:Es;
      try discriminate.
    intros H. injection H as <- _. cbn [g_origin g_fields g_stmts fst]. split; [reflexivity|].
    exists fs, o. split; [reflexivity|]. split; [reflexivity|]. split; [rewrite Eor; reflexivity|].
    split; [exists i1; exact Ef|exists i3; exact Es].
  Qed.

  (* the package: a declaration in error never lets a file through *)
  Definition decl_bad (ti : tinput) : Prop :=
    ti_enabled ti = true /\ ti_name ti <> [] /\
    (ti_under ti = None \/ origin_loop c (ti_name ti) (ti_group ti) None = None).

  Lemma generate_type_bad : forall ti, decl_bad ti -> exists k, generate_type L target c ti = TErr k.
  Proof.
    intros ti [Hen [Hn Hb]]. destruct (generate_type_errors ti Hen Hn) as [H1 H2].
    destruct (ti_under ti) as [fs|] eqn:Eu.
    - destruct Hb as [Hb|Hb]; [discriminate|]. exists ENeedNamed. eapply H2; eauto.
    - exists EMustStruct. apply H1. reflexivity.
  Qed.

  Lemma generate_pkg_no_file : forall tis acc imps,
      (exists ti, In ti tis /\ decl_bad ti) ->
      forall ts i, generate_pkg L target c tis acc imps <> OutFile ts i.
  Proof.
    induction tis as [|ti r IH]; intros acc imps [t [Hin Hbad]] ts i.
    - contradiction.
    - cbn [generate_pkg]. destruct Hin as [E|Hin].
      + subst t. destruct (generate_type_bad ti Hbad) as [k Hk]. rewrite Hk. discriminate.
      + destruct (generate_type L target c ti); try discriminate; apply IH; eauto.
  Qed.

  Lemma generate_pkg_error : forall tis acc imps,
      (exists ti, In ti tis /\ decl_bad ti) ->
      (forall ti, In ti tis -> generate_type L target c ti <> TPanic /\ generate_type L target c ti <> TGeneric) ->
      exists k, generate_pkg L target c tis acc imps = OutErr k.
  Proof.
    induction tis as [|ti r IH]; intros acc imps [t [Hin Hbad]] Hnp.
    - contradiction.
    - cbn [generate_pkg]. destruct Hin as [E|Hin].
      + subst t. destruct (generate_type_bad ti Hbad) as [k Hk]. rewrite Hk. eauto.
      + destruct (Hnp ti (or_introl eq_refl)) as [Hp Hg].
        assert (Hnp' : forall ti', In ti' r ->
                  generate_type L target c ti' <> TPanic /\ generate_type L target c ti' <> TGeneric).
        { intros ti' Hi. apply Hnp. right. exact Hi. }
        destruct (generate_type L target c ti) eqn:Eg; try congruence; eauto.
  Qed.

  Lemma origin_loop_skip : forall own specs cur,
      fx_group c = true ->
      ~ In own (map fst specs) ->
      origin_loop c own specs cur = cur.
  Proof.
    intros own specs. induction specs as [|[n r] rest IH]; intros cur Hg Hnot; cbn [origin_loop]; [reflexivity|].
    rewrite Hg. cbn [andb]. cbn [map fst] in Hnot.
    rewrite (proj2 (Order.bytes_eqb_neq n own)) by (intros E; apply Hnot; left; exact E).
    cbn [negb]. apply IH; [exact Hg|]. intros H. apply Hnot. right. exact H.
  Qed.

  Lemma origin_loop_own : forall own specs cur,
      fx_group c = true ->
      NoDup (map fst specs) ->
      origin_loop c own specs cur =
      match find (fun p => bytes_eqb (fst p) own) specs with
      | Some (_, r) => match rhs_obj r with Some o => Some o | None => cur end
      | None => cur
      end.
  Proof.
    intros own specs. induction specs as [|[n r] rest IH]; intros cur Hg Hnd; cbn [origin_loop find fst]; [reflexivity|].
    rewrite Hg. cbn [andb]. cbn [map fst] in Hnd. apply NoDup_cons_iff in Hnd. destruct Hnd as [Hnotin Hnd'].
    destruct (bytes_eqb n own) eqn:E; cbn [negb].
    - apply bytes_eqb_spec in E. subst n.
      destruct (rhs_obj r); apply origin_loop_skip; assumption.
    - apply IH; assumption.
  Qed.
End Errors.

Section Main.
  Variable L : bytes -> bytes.
  Variable target : bytes.
  Variable c : cfg.

  Lemma gen_stmts_loop_total : forall omit repl fs acc imps,
      fx_errnil c = true ->
      exists ss i, gen_stmts_loop L target c omit repl fs acc imps = GOk ss i.
  Proof.
    intros omit repl fs. induction fs as [|f r IH]; intros acc imps He; cbn [gen_stmts_loop]; [eauto|].
    destruct (omitted omit (f_name f)); [apply IH; exact He|].
    destruct (field_stmt_total L target c
                (match lookup (f_name f) repl with Some _ => true | None => false end) f He) as [s [j Hs]].
    rewrite Hs. apply IH. exact He.
  Qed.

  Lemma generate_total : forall ti fs o,
      fx_tag c = true -> fx_errnil c = true ->
      ti_enabled ti = true -> ti_name ti <> [] ->
      ti_under ti = Some fs ->
      origin_loop c (ti_name ti) (ti_group ti) None = Some o ->
      replace_modelled L target (ti_omit ti) (replace_map (ti_replace ti) []) fs ->
      exists g i, generate_type L target c ti = TGen g i.
  Proof.
    intros ti fs o Htag Herr Hen Hname Hu Ho Hm. unfold generate_type. rewrite Hen. cbn [negb].
    destruct (ti_name ti) as [|x r] eqn:En; [congruence|]. cbn [gen_name]. rewrite Hu, Ho.
    destruct (gen_fields_loop_total L target c Htag (ti_omit ti) (replace_map (ti_replace ti) []) fs [] [])
      as [gs [i1 Hf]].
    - apply replace_map_nonempty. intros k v [].
    - exact Hm.
    - rewrite Hf. destruct (origin_ref L target o) as [oref i2].
      destruct (gen_stmts_loop_total (copy_skip (ti_omit ti)) (replace_map (ti_replace ti) []) fs [] [] Herr) as [ss [i3 Hs]].
      rewrite Hs. eauto.
  Qed.

  Lemma stmts_of_fields : forall repl fl ss,
      Forall2 (fun f s => exists j, field_stmt L target c (is_replaced repl f) f = GOk s j) fl ss ->
      map stmt_field ss = map f_name fl /\ Forall (fun s => is_other s = false) ss.
  Proof.
    intros repl fl ss HF. induction HF as [|f s l l' [j Hfs] HF [IH1 IH2]]; [split; [reflexivity|constructor]|].
    destruct (field_stmt_field L target c _ _ _ _ Hfs) as [Hn Ho].
    split; [cbn; rewrite Hn, IH1; reflexivity|constructor; assumption].
  Qed.

  Lemma copy_semantics : forall ti g i fs conv,
      generate_type L target c ti = TGen g i ->
      ti_under ti = Some fs ->
      NoDup (map f_name fs) ->
      deep_copy_as conv (g_stmts g) None = Some None /\
      forall inv, exists out,
        deep_copy_as conv (g_stmts g) (Some inv) = Some (Some out) /\
        forall f, In f fs ->
          (omitted (copy_skip (ti_omit ti)) (f_name f) = true -> sget out (f_name f) = VZero) /\
          (omitted (copy_skip (ti_omit ti)) (f_name f) = false ->
             exists s j, In s (g_stmts g) /\
               field_stmt L target c (is_replaced (replace_map (ti_replace ti) []) f) f = GOk s j /\
               sget out (f_name f) = if is_call s then conv (f_name f) (sget inv (f_name f))
                                     else sget inv (f_name f)).
  Proof.
    intros ti g i fs conv H Hu Hnd. split; [reflexivity|].
    apply generate_type_gen_inv in H. destruct H as [_ [fs' [o [Hu' [_ [_ [_ [i3 Hs]]]]]]]].
    rewrite Hu in Hu'. injection Hu' as <-.
    apply gen_stmts_loop_spec in Hs. destruct Hs as [ss' [Hss HF]]. cbn [app] in Hss. subst ss'.
    destruct (stmts_of_fields _ _ _ HF) as [Hnames Hoth].
    intros inv.
    destruct (exec_stmts_effect conv inv (g_stmts g) [] Hoth) as [out [He [Hfr Hset]]].
    - rewrite Hnames. apply Order.NoDup_map_filter. exact Hnd.
    - intros s _. reflexivity.
    - exists out. split; [cbn [deep_copy_as]; rewrite He; reflexivity|].
      intros f Hin. split.
      + intros Hom. rewrite Hfr; [reflexivity|]. rewrite Hnames. intros Hi.
        apply in_map_iff in Hi. destruct Hi as [f' [Hn Hf']]. apply filter_In in Hf'. destruct Hf' as [_ Hr].
        unfold retained in Hr. rewrite Hn, Hom in Hr. discriminate.
      + intros Hom.
        assert (Hinf : In f (filter (retained (copy_skip (ti_omit ti))) fs)).
        { apply filter_In. split; [exact Hin|]. unfold retained. rewrite Hom. reflexivity. }
        destruct (Forall2_in_l _ _ _ _ HF Hinf) as [s [Hsin [j Hfs]]].
        exists s, j. split; [exact Hsin|]. split; [exact Hfs|].
        destruct (field_stmt_field L target c _ _ _ _ Hfs) as [Hn _].
        rewrite <- Hn. apply Hset. exact Hsin.
  Qed.

  (* a foreign named type without methods called DeepCopyAs / DeepCopyIntoAs is assigned *)
  Fixpoint no_as_methods (ms : list msig) : bool :=
    match ms with
    | [] => true
    | (name, _, _, _, _) :: r => negb (bytes_eqb name dc_name) && negb (bytes_eqb name dc_into_name) && no_as_methods r
    end.

  Lemma scan_no_as : forall ms hc hi ptr, no_as_methods ms = true ->
      scan_methods ms (hc, hi, ptr) = match ms with [] => (hc, hi, ptr) | _ => (false, false, ptr) end.
  Proof.
    induction ms as [|[[[[name np] nr] p0] r0] r IH]; intros hc hi ptr H; [reflexivity|].
    cbn [no_as_methods] in H. apply andb_true_iff in H. destruct H as [H Hr].
    apply andb_true_iff in H. destruct H as [H1 H2].
    apply negb_true_iff in H1. apply negb_true_iff in H2.
    cbn [scan_methods]. rewrite H1, H2. cbn [andb].
    rewrite IH; [|exact Hr]. destruct r; reflexivity.
  Qed.

  Lemma foreign_plain_named_assigned : forall f pkg name u ms s j,
      unalias (f_ty f) = TNamed pkg name u ms ->
      bytes_eqb pkg target = false ->
      no_as_methods ms = true ->
      field_stmt L target c false f = GOk s j ->
      s = SAssign (f_name f).
  Proof.
    intros f pkg name u ms s j Et Hp Hm H. unfold field_stmt, field_stmt_gen, switch_type in H. rewrite Et in H.
    cbv zeta in H. rewrite (scan_no_as ms false false true Hm) in H. rewrite Hp in H.
    destruct ms; inversion H; reflexivity.
  Qed.

  (* a slice or map field declared through an alias gets the container copy, and make(...) spells the alias's name *)
  Lemma alias_container_copied : forall b f p n r,
      f_ty f = TAlias p n r ->
      is_container (unalias r) = true ->
      exists s, field_stmt L target c b f = GOk s (snd (field_type_lit L target c (f_ty f))) /\
        (s = SCopySlice (f_name f) (fst (field_type_lit L target c (f_ty f))) \/
         s = SCopyMap (f_name f) (fst (field_type_lit L target c (f_ty f)))) /\
        fst (field_type_lit L target c (f_ty f)) = (if bytes_eqb p target then OIdent n else OSel (L p) n).
  Proof.
    intros b f p n r Et Hc. unfold field_stmt, field_stmt_gen, switch_type. cbv zeta. rewrite Et. cbn [unalias].
    assert (Hl : fst (field_type_lit L target c (TAlias p n r)) = (if bytes_eqb p target then OIdent n else OSel (L p) n)).
    { cbn [field_type_lit]. destruct (bytes_eqb p target); reflexivity. }
    destruct (unalias r) eqn:Eu; cbn [is_container] in Hc; try discriminate;
      destruct (field_type_lit L target c (TAlias p n r)) as [o i]; eexists; (split; [reflexivity|]); split; eauto.
  Qed.

  (* an alias of anything but a named, slice or map type is assigned, replaced or not *)
  Lemma alias_field_assigned : forall b f p n r,
      f_ty f = TAlias p n r ->
      (forall pkg name u ms, unalias r <> TNamed pkg name u ms) -> unalias r <> TError ->
      is_container (unalias r) = false ->
      field_stmt L target c b f = GOk (SAssign (f_name f)) [].
  Proof.
    intros b f p n r Et Hn He Hc. unfold field_stmt, field_stmt_gen, switch_type. cbv zeta. rewrite Et. cbn [unalias].
    destruct (unalias r) eqn:Eu; cbn [is_container] in Hc; try discriminate; try reflexivity.
    - exfalso. apply He. reflexivity.
    - exfalso. eapply Hn. reflexivity.
  Qed.

  Lemma origin_own_spec : forall ti,
      fx_group c = true ->
      NoDup (map fst (ti_group ti)) ->
      origin_loop c (ti_name ti) (ti_group ti) None = own_origin ti.
  Proof.
    intros ti Hg Hnd. rewrite (origin_loop_own c _ _ None Hg Hnd).
    unfold own_origin, own_rhs.
    destruct (find (fun p => bytes_eqb (fst p) (ti_name ti)) (ti_group ti)) as [[n r]|]; cbn; [|reflexivity].
    destruct (rhs_obj r); reflexivity.
  Qed.

  (* a type expression inside a method body mentions an import name that a template local shadows exactly when the
     declaration is in the class [shadow_type] of the known finding import_name_shadows_template_local: the origin's
     qualifier against the local `in` of DeepCopyAs, and, statement by statement, the qualifiers of a container copy
     (those of the field's declared type) against the locals of its block ([shadow_names_block]) *)
  Lemma scoping_eq : forall ti g i,
      (forall p, L p = last_segment p) ->
      fx_group c = true ->
      NoDup (map fst (ti_group ti)) ->
      generate_type L target c ti = TGen g i ->
      gtype_shadowed g = shadow_type target ti.
  Proof.
    intros ti g i HL Hg Hnd H.
    apply generate_type_gen_inv in H. destruct H as [Hen [fs [o [Hu [Ho [Hor [_ [i3 Hs]]]]]]]].
    rewrite (origin_own_spec ti Hg Hnd) in Ho.
    unfold shadow_type, gtype_shadowed. rewrite Hen, Hu, Ho, Hor. destruct o as [opkg oname]. cbn [andb]. f_equal.
    - unfold origin_ref. destruct (bytes_eqb opkg target); [reflexivity|]. cbn. rewrite HL, !orb_false_r. reflexivity.
    - apply gen_stmts_loop_spec in Hs. destruct Hs as [ss [-> HF]]. cbn [app].
      rewrite <- (existsb_Forall2 _ (fun f => is_container (unalias (f_ty f)) &&
                   existsb (fun p => negb (bytes_eqb p target) && name_in (last_segment p) shadow_names_block)
                           (fty_pkgs (f_ty f))) _ _ _ HF).
      + clear. induction fs as [|f r IH]; [reflexivity|]. cbn [filter existsb]. unfold retained at 1.
        destruct (omitted (copy_skip (ti_omit ti)) (f_name f)); cbn [negb existsb andb orb]; rewrite IH; reflexivity.
      + intros f s [j Hfs]. unfold stmt_shadowed. rewrite (field_stmt_quals L target c _ _ _ _ Hfs).
        destruct (is_container (unalias (f_ty f))); [|reflexivity].
        rewrite field_type_lit_quals, (map_ext _ _ HL). symmetry. apply existsb_map_filter.
  Qed.

  Lemma scoping_partial : forall ti g i,
      (forall p, L p = last_segment p) ->
      fx_group c = true ->
      NoDup (map fst (ti_group ti)) ->
      generate_type L target c ti = TGen g i ->
      shadow_type target ti = false ->
      gtype_shadowed g = false.
  Proof. intros ti g i HL Hg Hnd H <-. exact (scoping_eq ti g i HL Hg Hnd H). Qed.
End Main.

(* witnesses: the code before the repairs, and the recorded known finding *)
Definition w_target : bytes := bs "example.com/m/target".
Definition w_origin : bytes := bs "example.com/m/origin".

Definition w_ti (name : string) (group : list (bytes * rhs)) (fs : list field) (omit repl : list bytes) : tinput :=
  mk_tinput (bs name) true group (Some fs) omit repl.

Definition w_sel (n : string) : rhs := RSel (Some (w_origin, bs n)).

(* #25: `json:"a.b"` through snippet.ID — the tag is split at the dot and the left part goes to the import tracker *)
Definition w_tag_field : field := mk_field (bs "A") (TBasic (bs "int")) (of_string "json:""a.b""").
Definition w_tag_ti : tinput := w_ti "x" [(bs "x", w_sel "T")] [w_tag_field] [] [].
Definition cfg_tag_unfixed : cfg := mk_cfg false true true true.

(* #25: `x.G[int` through snippet.ID — processName panics with "invalid type ref" *)
Definition w_tag_panic_ti : tinput :=
  w_ti "x" [(bs "x", w_sel "T")] [mk_field (bs "A") (TBasic (bs "int")) (bs "x.G[int")] [] [].

Lemma tag_fixed_witness : forall L,
  exists g i, generate_type L w_target all_fixed w_tag_panic_ti = TGen g i /\
              map gf_tag (g_fields g) = [bs "x.G[int"].
Proof. intros L. eexists. eexists. split; reflexivity. Qed.

(* #31: type ( a origin.A; b origin.B ) — the last spec's origin is used for a *)
Definition w_group : list (bytes * rhs) := [(bs "a", w_sel "A"); (bs "b", w_sel "B")].
Definition w_group_ti : tinput := w_ti "a" w_group [mk_field (bs "X") (TBasic (bs "int")) []] [] [].
Definition cfg_group_unfixed : cfg := mk_cfg true false true true.

(* a struct literal grouped with a named spec is not reported before the repair *)
Definition w_group_lit_ti : tinput :=
  w_ti "a" [(bs "a", ROther); (bs "b", w_sel "B")] [mk_field (bs "X") (TBasic (bs "int")) []] [] [].

(* #15 / #23 (prerequisites owned by C11 / C17): a field of type error *)
Definition w_err_ti : tinput := w_ti "x" [(bs "x", w_sel "T")] [mk_field (bs "Err") TError []] [] [].

(* #33 known finding: the origin package is imported as `o` and a map field mentions it *)
Definition w_o : bytes := bs "example.com/m/o".
Definition w_shadow_ti : tinput :=
  mk_tinput (bs "x") true [(bs "x", RSel (Some (w_o, bs "T")))]
            (Some [mk_field (bs "M") (TMap (TBasic (bs "string")) (TNamed w_o (bs "Inner") UStruct [])) []]) [] [].

(* a non-trivial instance for the Examples of Props/C18.v *)
Definition ex_time : bytes := bs "time".
Definition ex_fields : list field :=
  [ mk_field (bs "A") (TBasic (bs "int")) (of_string "json:""a.b"" yaml:""x""");
    mk_field (bs "B") (TSlice (TBasic (bs "string"))) (bs "x.G[int @q %d 'r'");
    mk_field (bs "C") (TMap (TBasic (bs "string")) (TNamed w_origin (bs "Inner") UStruct [])) [];
    mk_field (bs "D") (TPtr (TNamed ex_time (bs "Duration") UOther [])) (bs "d");
    mk_field (bs "I") (TNamed w_origin (bs "Inner") UStruct []) (of_string "json:""i""");
    mk_field (bs "E") TError [];
    mk_field (bs "G") TAny (bs "g") ].
Definition ex_ti : tinput :=
  mk_tinput (bs "x") true [(bs "y", RSel (Some (w_origin, bs "Inner"))); (bs "x", RSel (Some (w_origin, bs "T")))]
            (Some ex_fields) [bs "B"; bs "Nope"] [of_string "I:Y json:""ii"" yaml:""q.r"""; bs "bad"; bs "Nope:string"].

Lemma example_hypotheses :
  NoDup (map f_name ex_fields) /\ NoDup (map fst (ti_group ex_ti)) /\ shadow_type w_target ex_ti = false /\
  own_origin ex_ti = Some (w_origin, bs "T") /\
  (forall f t0 rest, In f ex_fields -> retained (ti_omit ex_ti) f = true ->
     lookup (f_name f) (replace_map (ti_replace ex_ti) []) = Some (t0 :: rest) -> ref_modelled last_segment w_target t0 = true).
Proof.
  split; [apply nodupb_NoDup; vm_compute; reflexivity|].
  split; [apply nodupb_NoDup; vm_compute; reflexivity|].
  split; [vm_compute; reflexivity|]. split; [vm_compute; reflexivity|].
  (* whatever the field, the replacement is an entry of the replace map: check them all *)
  intros f t0 rest _ _ Hl. apply lookup_in in Hl. destruct Hl as [k Hin].
  assert (A : forallb (fun kv => match snd kv with t0 :: _ => ref_modelled last_segment w_target t0 | [] => true end)
                      (replace_map (ti_replace ex_ti) []) = true) by (vm_compute; reflexivity).
  rewrite forallb_forall in A. exact (A _ Hin).
Qed.
