(* The complete model of inflector.Pluralize / Singularize ([api_full]: irregular table, uninflected
   list and the ordered regexp suffix rules, all extracted from the source on this run): the
   theorems about the parametric model instantiated with the concrete suffix engine, and what the
   suffix engine itself does to a string. *)
Require Import Gengo.Base.Bytes Gengo.Model.Inflector Gengo.Model.InflectorRegexp Gengo.Gen.InflectorTables
  Gengo.Model.InflectorApi Gengo.Model.OnceCache
  Gengo.Proofs.Inflector Gengo.Proofs.InflectorRegexp Gengo.Proofs.OnceCache.

Lemma api_full_total : forall plural s, exists r, api_full true plural s = Ok r.
Proof. intros plural s. unfold api_full. apply api_total. Qed.

Lemma api_full_prefix_preserved :
  forall plural p w, irregular (api_table plural) w -> at_boundary p = true ->
  exists r, api_full true plural w = Ok r /\ api_full true plural (p ++ w) = Ok (p ++ r).
Proof. intros plural p w Hi Hb. unfold api_full. apply api_prefix_preserved; assumption. Qed.

Lemma api_full_irregular_alone :
  forall plural w, irregular (api_table plural) w ->
  exists c w' d repl, w = c :: w' /\ lookup (map to_lower w) (api_table plural) = Some (d :: repl)
    /\ api_full true plural w = Ok (c :: repl).
Proof.
  intros plural w Hi. unfold api_full. rewrite api_eq.
  apply inflected_irregular_alone; [apply api_table_wf|exact Hi].
Qed.

Lemma concurrent_api_full : forall plural (keys : nat -> bytes) sched t v,
  phases _ _ (run bytes (res bytes) bytes_eqb (api_full true plural) keys sched (init _ _)) t = Done v ->
  exists r, v = Ok r /\ api_full true plural (keys t) = Ok r.
Proof. intros plural keys sched t v H. unfold api_full in *. eapply concurrent_api. exact H. Qed.

(* the suffix rules of this run never exhaust the fuel of the matcher or of the replace loop *)
Lemma api_rules_fuel : forall plural s, suffix_res (api_rules plural) s = Ok (suffix_fn (api_rules plural) s).
Proof. intros. apply suffix_fuel_suffices. Qed.

(* an irregular word after a boundary, or a string the uninflected expression matches, is answered
   without consulting the suffix rules: with ANY other engine in their place the result is the same *)
Lemma api_irregular_skips_suffix_rules :
  forall plural p w, irregular (api_table plural) w -> at_boundary p = true ->
  api_reaches_suffix plural (p ++ w) = false.
Proof.
  intros plural p w Hi Hb. apply irregular_never_reaches_suffix; [apply api_table_wf|exact Hi|exact Hb].
Qed.

Lemma api_uninflected_skips_suffix_rules :
  forall plural s, uninflected_match (api_unf plural) s = true -> api_reaches_suffix plural s = false.
Proof. intros plural s H. unfold api_reaches_suffix. apply uninflected_never_reaches_suffix. exact H. Qed.

Lemma api_not_reaching_is_independent :
  forall plural s, api_reaches_suffix plural s = false ->
  forall engine, api_full true plural s = api true plural engine s.
Proof.
  intros plural s H engine. unfold api_full. rewrite !api_eq.
  apply inflected_suffix_independent. exact H.
Qed.

Lemma api_full_reaches :
  forall plural s, api_reaches_suffix plural s = true ->
  api_full true plural s = Ok (suffix_fn (api_rules plural) s).
Proof. intros plural s H. unfold api_full. rewrite api_eq. apply inflected_reaches_suffix. exact H. Qed.

Lemma api_full_suffix_shape :
  forall plural s, api_reaches_suffix plural s = true ->
  match first_matching (api_rules plural) s with
  | None => api_full true plural s = Ok s
  | Some (c, a0) => In c (api_rules plural) /\ a0 <= length s
                    /\ exists more, api_full true plural s = Ok (firstn a0 s ++ more)
  end.
Proof.
  intros plural s H. rewrite (api_full_reaches plural s H).
  pose proof (suffix_fn_shape (api_rules plural) s) as S.
  destruct (first_matching (api_rules plural) s) as [[c a0]|]; [destruct S as [S1 [S2 [more S]]]|]; rewrite S; eauto.
Qed.

(* C20's examples on "my quiz" share this evaluation; by [api_full_reaches] the full result then only has to run the
   suffix rules *)
Lemma my_quiz_reaches : api_reaches_suffix true (bs "my quiz") = true.
Proof. unfold api_reaches_suffix. rewrite api_unf_parsed. vm_compute. reflexivity. Qed.
