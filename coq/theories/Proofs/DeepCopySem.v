(* C17, heap semantics of the generated DeepCopy / DeepCopyInto methods: executing a generated body on a well-typed
   value returns a copy that is deeply equal to the original (same [snapshot]) and whose containers all lie in the part
   of the heap the call allocated ([exec_into_spec], [exec_copy_spec]), so no write through the copy is seen by the
   original ([copy_ok_unshared]).  Induction on the nesting depth of struct values, with the calls to other types'
   methods taken from [rec_spec]; [gen_well_formed]: the file the generator writes is [well_formed].
   The notions Props/C17.v and Props/C18.v are stated with are DEFINED here: [wt] / [wt_fields] (a value is well typed
   in a heap; [cell_is_map]), [vdepth] / [depth_fields], [dom] (the type graphs covered), [rec_spec] and its conclusion
   [copy_ok] (what a callee is assumed to do), [valid], [copy_unshared], and the record [well_formed] (what the
   semantic theorems need of the generated file). *)
Require Import Gengo.Base.Bytes Gengo.Base.Order Gengo.Model.DeepCopy Gengo.Proofs.DeepCopy.
Require Gengo.Base.Assoc.

(* Induction over values and their field lists together; after it the list-level companions of the nested
   fixpoints of the model. *)

Section ValueInd.
  Variables (P : value -> Prop) (Q : list (bytes * value) -> Prop).
  Hypothesis Hscalar : forall n, P (VScalar n).
  Hypothesis Hslice : forall l, P (VSlice l).
  Hypothesis Hmap : forall l, P (VMap l).
  Hypothesis Hiface : forall i, P (VIface i).
  Hypothesis Hstruct : forall fs, Q fs -> P (VStruct fs).
  Hypothesis Hnil : Q [].
  Hypothesis Hcons : forall f x r, P x -> Q r -> Q ((f, x) :: r).

  Fixpoint value_fields_ind (v : value) : P v :=
    match v with
    | VScalar n => Hscalar n
    | VSlice l => Hslice l
    | VMap l => Hmap l
    | VIface i => Hiface i
    | VStruct fs =>
        Hstruct fs ((fix go (l : list (bytes * value)) : Q l :=
                       match l with
                       | [] => Hnil
                       | (f, x) :: r => Hcons f x r (value_fields_ind x) (go r)
                       end) fs)
    end.

  Lemma value_fields_both : (forall v, P v) /\ (forall fs, Q fs).
  Proof.
    split; [exact value_fields_ind|]. induction fs as [|[f x] r IH]; [exact Hnil|].
    apply Hcons; [apply value_fields_ind|exact IH].
  Qed.
End ValueInd.

Fixpoint snap_fields (h : heap) (fs : list (bytes * value)) : list (bytes * snap) :=
  match fs with [] => [] | (f, x) :: r => (f, snapshot h x) :: snap_fields h r end.

Fixpoint locs_fields (fs : list (bytes * value)) : list loc :=
  match fs with [] => [] | (_, x) :: r => locs x ++ locs_fields r end.

Fixpoint zero_fields (fs : list (bytes * value)) : list (bytes * value) :=
  match fs with [] => [] | (f, x) :: r => (f, zero_like x) :: zero_fields r end.

Lemma snapshot_struct : forall h fs, snapshot h (VStruct fs) = PStruct (snap_fields h fs).
Proof. intros h fs. cbn [snapshot]. f_equal. induction fs as [|[f x] r IH]; cbn; [reflexivity|]. rewrite IH. reflexivity. Qed.

Lemma locs_struct : forall fs, locs (VStruct fs) = locs_fields fs.
Proof. reflexivity. Qed.

Lemma zero_struct : forall fs, zero_like (VStruct fs) = VStruct (zero_fields fs).
Proof. reflexivity. Qed.

(* nesting depth of struct values *)
Fixpoint vdepth (v : value) : nat :=
  match v with
  | VStruct fs => S ((fix go (l : list (bytes * value)) : nat :=
                        match l with [] => 0 | (_, x) :: r => Nat.max (vdepth x) (go r) end) fs)
  | _ => 0
  end.

Fixpoint depth_fields (fs : list (bytes * value)) : nat :=
  match fs with [] => 0 | (_, x) :: r => Nat.max (vdepth x) (depth_fields r) end.

Lemma vdepth_struct : forall fs, vdepth (VStruct fs) = S (depth_fields fs).
Proof. reflexivity. Qed.

Definition kind_of (G : pkg) (n : bytes) : option dkind :=
  match lookup G n with Some d => Some (d_kind d) | None => None end.

Definition cell_is_slice (h : heap) (l : option loc) : Prop :=
  match l with None => True | Some a => exists es, nth_error h a = Some (CSlice es) end.
Definition cell_is_map (h : heap) (l : option loc) : Prop :=
  match l with None => True | Some a => exists es, nth_error h a = Some (CMap es) end.

Fixpoint wt (G : pkg) (h : heap) (t : fty) (v : value) {struct v} : Prop :=
  match v with
  | VScalar _ =>
      match t with
      | FBasic _ | FTParam _ | FForeign _ => True
      | FNamed n _ => kind_of G n = Some DScalar
      | _ => False
      end
  | VSlice l => match t with FSlice _ => cell_is_slice h l | _ => False end
  | VMap l =>
      match t with
      | FMap _ _ => cell_is_map h l
      | FNamed n _ => (exists k e, kind_of G n = Some (DMap k e)) /\ cell_is_map h l
      | _ => False
      end
  | VIface _ =>
      match t with
      | FError | FIface => True
      | FNamed n _ => kind_of G n = Some DIface
      | _ => False
      end
  | VStruct fs =>
      match t with
      | FNamed n _ =>
          match kind_of G n with
          | Some (DStruct _ fields) =>
              (fix go (fields : list (bytes * fty)) (l : list (bytes * value)) {struct l} : Prop :=
                 match fields, l with
                 | [], [] => True
                 | (f, ft) :: r, (g, x) :: s => f = g /\ wt G h ft x /\ go r s
                 | _, _ => False
                 end) fields fs
          | _ => False
          end
      | _ => False
      end
  end.

Fixpoint wt_fields (G : pkg) (h : heap) (fields : list (bytes * fty)) (l : list (bytes * value)) : Prop :=
  match fields, l with
  | [], [] => True
  | (f, ft) :: r, (g, x) :: s => f = g /\ wt G h ft x /\ wt_fields G h r s
  | _, _ => False
  end.

Lemma wt_struct : forall G h n args fs,
  wt G h (FNamed n args) (VStruct fs) <->
  exists tp fields, kind_of G n = Some (DStruct tp fields) /\ wt_fields G h fields fs.
Proof.
  intros G h n args fs. cbn [wt]. destruct (kind_of G n) as [[tp fields|k e| |]|].
  2-5: split; [intros []|intros [tp' [fields' [E _]]]; discriminate E].
  (* the local fixpoint of [wt] recurses on the values, [wt_fields] on the types *)
  match goal with |- ?go fields fs <-> _ => assert (forall l fl, go fl l = wt_fields G h fl l) as Heq end.
  { induction l as [|[g x] s IH]; intros [|[f ft] r]; cbn; try reflexivity. rewrite IH. reflexivity. }
  rewrite Heq. split; [eauto|]. intros [tp' [fields' [E H]]]. injection E as _ <-. exact H.
Qed.

Lemma kind_of_lookup : forall G n k, kind_of G n = Some k <-> exists d, lookup G n = Some d /\ d_kind d = k.
Proof.
  intros G n k. unfold kind_of. destruct (lookup G n) as [d|]; split.
  - intros H. inversion H. eauto.
  - intros [d' [E H]]. inversion E; subst. reflexivity.
  - discriminate.
  - intros [d' [E _]]. discriminate.
Qed.

Lemma wt_named_shape : forall G h c args x dc,
  wt G h (FNamed c args) x -> lookup G c = Some dc ->
  match d_kind dc with
  | DScalar => exists n, x = VScalar n
  | DMap _ _ => exists l, x = VMap l /\ cell_is_map h l
  | DIface => exists i, x = VIface i
  | DStruct tp fields => exists fs, x = VStruct fs /\ wt_fields G h fields fs
  end.
Proof.
  intros G h c args x dc Hw Hl.
  assert (kind_of G c = Some (d_kind dc)) as Hk by (unfold kind_of; rewrite Hl; reflexivity).
  destruct x as [n|l|l|i|fs]; [| destruct Hw | | |apply wt_struct in Hw]; cbn [wt] in Hw; rewrite Hk in Hw.
  - injection Hw as ->. eauto.
  - destruct Hw as [[k [e E]] Hc]. injection E as ->. eauto.
  - injection Hw as ->. eauto.
  - destruct Hw as [tp [fields [E Hw]]]. injection E as ->. eauto.
Qed.

Lemma nth_error_ext : forall (h t : heap) a c, nth_error h a = Some c -> nth_error (h ++ t) a = Some c.
Proof. intros h t a c H. rewrite nth_error_app1; [exact H|]. apply nth_error_Some. congruence. Qed.

Lemma alloc_spec : forall (h : heap) c,
  nth_error (h ++ [c]) (List.length h) = Some c /\ List.length (h ++ [c]) = S (List.length h).
Proof.
  intros h c. split.
  - rewrite nth_error_app2, PeanoNat.Nat.sub_diag by lia. reflexivity.
  - rewrite app_length. cbn. lia.
Qed.

Definition valid (h : heap) (v : value) : Prop := forall a, In a (locs v) -> a < List.length h.

Lemma snapshot_agree : forall h1 h2,
  (forall v, (forall a, In a (locs v) -> nth_error h1 a = nth_error h2 a) -> snapshot h1 v = snapshot h2 v) /\
  (forall fs, (forall a, In a (locs_fields fs) -> nth_error h1 a = nth_error h2 a) -> snap_fields h1 fs = snap_fields h2 fs).
Proof.
  intros h1 h2. apply value_fields_both.
  - reflexivity.
  - intros [a|] H; [|reflexivity]. cbn [snapshot]. rewrite (H a (or_introl eq_refl)). reflexivity.
  - intros [a|] H; [|reflexivity]. cbn [snapshot]. rewrite (H a (or_introl eq_refl)). reflexivity.
  - reflexivity.
  - intros fs IH H. rewrite !snapshot_struct, (IH H). reflexivity.
  - reflexivity.
  - intros f x r IHx IHr H. cbn [snap_fields locs_fields] in *.
    rewrite IHx, IHr; [reflexivity| |]; intros a Ha; apply H, in_or_app; auto.
Qed.

Lemma snapshot_ext : forall h t v, valid h v -> snapshot (h ++ t) v = snapshot h v.
Proof. intros h t v Hv. apply snapshot_agree. intros a Ha. apply nth_error_app1, Hv, Ha. Qed.

Lemma wt_valid_both : forall G h,
  (forall v t, wt G h t v -> valid h v) /\ (forall fs fields, wt_fields G h fields fs -> valid h (VStruct fs)).
Proof.
  intros G h.
  assert (forall a c, nth_error h a = Some c -> valid h (VSlice (Some a))) as Hcell.
  { intros a c E b [<-|[]]. apply nth_error_Some. congruence. }
  apply value_fields_both.
  - intros n t _ a [].
  - intros [b|] t Hw; [|intros a []]. destruct t; cbn [wt] in Hw; try contradiction. destruct Hw as [es He]. eapply Hcell, He.
  - intros [b|] t Hw; [|intros a []]. destruct t; cbn [wt] in Hw; try contradiction; [|destruct Hw as [_ Hw]];
      destruct Hw as [es He]; eapply Hcell, He.
  - intros i t _ a [].
  - intros fs IH t Hw. destruct t; try destruct Hw. apply wt_struct in Hw. destruct Hw as [tp [fields [_ Hw]]]. eapply IH, Hw.
  - intros fields _ a [].
  - intros f x r IHx IHr [|[g ft] fields] Hw; [destruct Hw|]. destruct Hw as [_ [Hx Hr]].
    intros a Ha. apply in_app_or in Ha. destruct Ha as [Ha|Ha]; [eapply IHx|eapply IHr]; eassumption.
Qed.

Lemma wt_valid : forall G h v t, wt G h t v -> valid h v.
Proof. intros G h. apply wt_valid_both. Qed.

Lemma wt_ext : forall G h t0 v t, wt G h t v -> wt G (h ++ t0) t v.
Proof.
  intros G h t0.
  enough ((forall v t, wt G h t v -> wt G (h ++ t0) t v) /\
          (forall fs fields, wt_fields G h fields fs -> wt_fields G (h ++ t0) fields fs)) as H by apply H.
  assert (forall l, cell_is_slice h l -> cell_is_slice (h ++ t0) l) as Hs.
  { intros [a|] H; [|exact I]. destruct H as [es He]. exists es. apply nth_error_ext, He. }
  assert (forall l, cell_is_map h l -> cell_is_map (h ++ t0) l) as Hm.
  { intros [a|] H; [|exact I]. destruct H as [es He]. exists es. apply nth_error_ext, He. }
  apply value_fields_both.
  - intros n t Hw. exact Hw.
  - intros l t Hw. destruct t; try destruct Hw. apply Hs, Hw.
  - intros l t Hw. destruct t; try destruct Hw; [apply Hm, Hw|]. split; [assumption|apply Hm; assumption].
  - intros i t Hw. exact Hw.
  - intros fs IH t Hw. destruct t; try destruct Hw. apply wt_struct in Hw. apply wt_struct.
    destruct Hw as [tp [fields [Hk Hw]]]. exists tp, fields. split; [exact Hk|apply IH, Hw].
  - intros [|p fields] Hw; exact Hw.
  - intros f x r IHx IHr [|[g ft] fields] Hw; [destruct Hw|]. destruct Hw as [E [Hx Hr]].
    split; [exact E|]. split; [apply IHx, Hx|apply IHr, Hr].
Qed.

Lemma get_field_head : forall f v l, get_field f ((f, v) :: l) = Some v.
Proof. intros. cbn. rewrite bytes_eqb_refl. reflexivity. Qed.

Lemma get_field_app_notin : forall f (pre l : list (bytes * value)),
  ~ In f (map fst pre) -> get_field f (pre ++ l) = get_field f l.
Proof.
  intros f pre l. induction pre as [|[g v] pre IH]; intros H; [reflexivity|]. cbn in *.
  apply Decidable.not_or in H. rewrite (proj2 (bytes_eqb_neq g f) (proj1 H)). apply IH, H.
Qed.

Lemma set_field_app_notin : forall f v (pre l : list (bytes * value)),
  ~ In f (map fst pre) -> set_field f v (pre ++ l) = pre ++ set_field f v l.
Proof.
  intros f v pre l. induction pre as [|[g w] pre IH]; intros H; [reflexivity|]. cbn in *.
  apply Decidable.not_or in H. rewrite (proj2 (bytes_eqb_neq g f) (proj1 H)). f_equal. apply IH, H.
Qed.

Lemma set_field_head : forall f v w l, set_field f v ((f, w) :: l) = (f, v) :: l.
Proof. intros. cbn. rewrite bytes_eqb_refl. reflexivity. Qed.

Lemma set_field_same : forall f v l, get_field f l = Some v -> set_field f v l = l.
Proof.
  intros f v. induction l as [|[g w] l IH]; intros H; [reflexivity|]. cbn in *.
  destruct (bytes_eqb g f) eqn:E; [inversion H; subst; reflexivity|]. f_equal. apply IH. exact H.
Qed.

Fixpoint assoc_fty (f : bytes) (fs : list (bytes * fty)) : option fty :=
  match fs with [] => None | (g, t) :: r => if bytes_eqb g f then Some t else assoc_fty f r end.

Lemma field_type_assoc : forall G n d tp fs f,
  lookup G n = Some d -> d_kind d = DStruct tp fs -> field_type G n f = assoc_fty f fs.
Proof.
  intros G n d tp fs f Hl Hk. unfold field_type. rewrite Hl. clear Hl. destruct d as [dn dk dt di dh]. cbn in Hk. subst dk.
  induction fs as [|[g t] r IH]; [reflexivity|]. cbn. destruct (bytes_eqb g f); [reflexivity|exact IH].
Qed.

Lemma assoc_fty_in : forall f ft fs, NoDup (map fst fs) -> In (f, ft) fs -> assoc_fty f fs = Some ft.
Proof. intros f ft fs. exact (Assoc.get_In _ Assoc.bytes_eqbP' fs f ft). Qed.

(* the domain of type graphs, and what the semantic theorem needs of the generated file *)

Definition dom (G : pkg) : Prop :=
  (forall n d, lookup G n = Some d -> snd (scan (d_hand d)) = true) /\
  (forall n d tp fs, lookup G n = Some d -> d_kind d = DStruct tp fs ->
     NoDup (map fst fs) /\
     (forall f c args, In (f, FNamed c args) fs -> lookup G c <> None) /\
     (forall f ms, In (f, FForeign ms) fs -> field_stmt all_fixed G [] f (FForeign ms) = Ok (SAssign f, None))).

Definition callees_ok (G : pkg) (ms : list method) : Prop :=
  forall n body, find_into ms n = Some body ->
    exists d, lookup G n = Some d /\
      ((d_kind d = DScalar /\ body = [SStar]) \/
       (exists tp fs deps, d_kind d = DStruct tp fs /\ fields_copy all_fixed G [] fs = Ok (body, deps) /\
          forall f c args, In (f, FNamed c args) fs ->
            (is_map (lookup G c) = true -> has_map_methods ms c = true) /\
            (forall dc, lookup G c = Some dc ->
               (d_kind dc = DScalar \/ exists tp' fs', d_kind dc = DStruct tp' fs') -> find_into ms c <> None))).

Lemma choose_not_star : forall f hc hi ptr, choose f hc hi ptr <> SStar.
Proof. intros f [] [] []; discriminate. Qed.

Lemma field_stmt_not_star : forall G vis f t s dep, field_stmt all_fixed G vis f t = Ok (s, dep) -> s <> SStar.
Proof.
  intros G vis f t s dep H. rewrite field_stmt_fixed in H. injection H as <- _. unfold stmt_of. cbn [fst snd].
  destruct t as [n|e|k e|n args| | |n|ms]; try discriminate.
  - destruct (is_iface (lookup G n)); [discriminate|apply choose_not_star].
  - destruct (scan ms) as [[a b] c]. apply choose_not_star.
Qed.

Lemma fields_copy_not_star : forall G vis fs body deps,
  fields_copy all_fixed G vis fs = Ok (body, deps) -> body <> [SStar].
Proof.
  intros G vis fs body deps H. rewrite fields_copy_fixed in H. injection H as <- _.
  destruct fs as [|[f t] [|]]; try discriminate. intros E. injection E as E.
  exact (field_stmt_not_star _ _ _ _ _ _ (field_stmt_fixed G vis f t) E).
Qed.

Lemma exec_into_struct : forall fuel G ms n body fin fout h,
  find_into ms n = Some body -> body <> [SStar] ->
  exec_into (S fuel) G ms n (VStruct fin) (VStruct fout) h =
  (let! (fout', h') := exec_body (exec_into fuel G ms) G ms n fin body fout h in Ok (VStruct fout', h')).
Proof.
  intros fuel G ms n body fin fout h Hf Hb. cbn [exec_into]. rewrite Hf.
  destruct body as [|s [|s2 r]]; try reflexivity; destruct s; try reflexivity. exfalso. apply Hb. reflexivity.
Qed.

Definition rec_spec (G : pkg) (ms : list method) (rec : bytes -> value -> value -> heap -> res (value * heap)) (bound : nat) : Prop :=
  forall c args x h,
    wt G h (FNamed c args) x ->
    (exists dc, lookup G c = Some dc /\ (d_kind dc = DScalar \/ exists tp fs, d_kind dc = DStruct tp fs)) ->
    vdepth x < bound -> find_into ms c <> None ->
    exists x' t, rec c x (zero_like x) h = Ok (x', h ++ t) /\
                 snapshot (h ++ t) x' = snapshot h x /\
                 (forall a, In a (locs x') -> List.length h <= a < List.length (h ++ t)).

(* the result [r] of copying [x] in heap [h] (the conclusion of [rec_spec]): the heap has grown, the copy is deeply
   equal to [x], and its containers lie in the part that was added *)
Definition copy_ok (h : heap) (x : value) (r : res (value * heap)) : Prop :=
  exists x' t, r = Ok (x', h ++ t) /\
               snapshot (h ++ t) x' = snapshot h x /\
               (forall a, In a (locs x') -> List.length h <= a < List.length (h ++ t)).

Lemma copy_ok_word : forall h x, locs x = [] -> copy_ok h x (Ok (x, h)).
Proof.
  intros h x Hl. exists x, []. rewrite app_nil_r, Hl. split; [reflexivity|]. split; [reflexivity|]. intros a [].
Qed.

Lemma copy_ok_alloc : forall h x x' c,
  locs x' = [List.length h] -> snapshot (h ++ [c]) x' = snapshot h x -> copy_ok h x (Ok (x', h ++ [c])).
Proof.
  intros h x x' c Hl Hs. exists x', [c]. split; [reflexivity|]. split; [exact Hs|].
  rewrite Hl, (proj2 (alloc_spec h c)). intros a [<-|[]]. lia.
Qed.

Lemma copy_slice_cell_ok : forall h l, cell_is_slice h l -> copy_ok h (VSlice l) (copy_slice_cell h l).
Proof.
  intros h [a|] Hc; [|apply copy_ok_word; reflexivity]. destruct Hc as [es He].
  cbn [copy_slice_cell alloc]. rewrite He. apply copy_ok_alloc; [reflexivity|].
  cbn [snapshot]. rewrite (proj1 (alloc_spec h _)), He. reflexivity.
Qed.

Lemma copy_map_cell_ok : forall h l, cell_is_map h l -> copy_ok h (VMap l) (copy_map_cell h l).
Proof.
  intros h [a|] Hc; [|apply copy_ok_word; reflexivity]. destruct Hc as [es He].
  cbn [copy_map_cell alloc]. rewrite He. apply copy_ok_alloc; [reflexivity|].
  cbn [snapshot]. rewrite (proj1 (alloc_spec h _)), He. reflexivity.
Qed.

(* every statement that executes stores a copy [r] of the field [f] of the source into the destination *)
Definition store (f : bytes) (fout : list (bytes * value)) (r : res (value * heap)) : res (list (bytes * value) * heap) :=
  let! (v, h') := r in Ok (set_field f v fout, h').

Section Stmt.
  Variables (rec : bytes -> value -> value -> heap -> res (value * heap)) (G : pkg) (ms : list method) (n : bytes).
  Variables (fin fout : list (bytes * value)) (h : heap) (f : bytes).

  Lemma exec_stmt_assign : forall x, get_field f fin = Some x ->
    exec_stmt rec G ms n fin (SAssign f) fout h = store f fout (Ok (x, h)).
  Proof. intros x Hi. cbn [exec_stmt]. rewrite Hi. reflexivity. Qed.

  (* the destination field still holds its zero value, so skipping the statement on nil stores nil *)
  Lemma exec_stmt_copy_slice : forall ty l, get_field f fin = Some (VSlice l) -> get_field f fout = Some (VSlice None) ->
    exec_stmt rec G ms n fin (SCopySlice f ty) fout h = store f fout (copy_slice_cell h l).
  Proof.
    intros ty [a|] Hi Ho; cbn [exec_stmt]; rewrite Hi; [reflexivity|].
    cbn [copy_slice_cell store bind]. rewrite (set_field_same _ _ _ Ho). reflexivity.
  Qed.

  Lemma exec_stmt_copy_map : forall ty l, get_field f fin = Some (VMap l) -> get_field f fout = Some (VMap None) ->
    exec_stmt rec G ms n fin (SCopyMap f ty) fout h = store f fout (copy_map_cell h l).
  Proof.
    intros ty [a|] Hi Ho; cbn [exec_stmt]; rewrite Hi; [reflexivity|].
    cbn [copy_map_cell store bind]. rewrite (set_field_same _ _ _ Ho). reflexivity.
  Qed.

  Lemma exec_stmt_call_into : forall c args x o,
    field_type G n f = Some (FNamed c args) -> get_field f fin = Some x -> get_field f fout = Some o ->
    exec_stmt rec G ms n fin (SCallInto f) fout h = store f fout (rec c x o h).
  Proof. intros c args x o Ht Hi Ho. cbn [exec_stmt]. rewrite Ht, Hi, Ho. reflexivity. Qed.

  Lemma exec_stmt_call_copy_val : forall c args l,
    field_type G n f = Some (FNamed c args) -> get_field f fin = Some (VMap l) -> has_map_methods ms c = true ->
    exec_stmt rec G ms n fin (SCallCopyVal f) fout h = store f fout (copy_map_cell h l).
  Proof. intros c args l Ht Hi Hm. cbn [exec_stmt]. rewrite Ht, Hi, Hm. reflexivity. Qed.
End Stmt.

Lemma fresh_app : forall (h t1 t2 : heap) a,
  List.length h <= a < List.length (h ++ t1) \/ List.length (h ++ t1) <= a < List.length ((h ++ t1) ++ t2) ->
  List.length h <= a < List.length ((h ++ t1) ++ t2).
Proof. intros h t1 t2 a. rewrite !app_length. lia. Qed.

Lemma map_fst_zero_fields : forall fs, map fst (zero_fields fs) = map fst fs.
Proof. induction fs as [|[f x] r IH]; cbn; [reflexivity|]. rewrite IH. reflexivity. Qed.

(* what a body that calls the copy methods of the named type [c] needs of the file: DeepCopy and DeepCopyInto if [c] is
   a map type, DeepCopyInto if it is a struct or a defined scalar type *)
Definition callee_ok (G : pkg) (ms : list method) (c : bytes) : Prop :=
  (is_map (lookup G c) = true -> has_map_methods ms c = true) /\
  (forall dc, lookup G c = Some dc ->
     (d_kind dc = DScalar \/ exists tp' fs', d_kind dc = DStruct tp' fs') -> find_into ms c <> None).

(* one field [(f, ft)] of the struct type [n], as [field_step] needs it: [ft] is the static type of [n.f]
   ([field_type]), a named type of another package is copied by assignment, a named type of the package is declared and
   its copy methods are in the file ([callee_ok]) *)
Definition field_ok (G : pkg) (ms : list method) (n : bytes) (fft : bytes * fty) : Prop :=
  field_type G n (fst fft) = Some (snd fft) /\
  match snd fft with
  | FForeign _ => stmt_of G [] fft = SAssign (fst fft)
  | FNamed c _ => lookup G c <> None /\ callee_ok G ms c
  | _ => True
  end.

Section Body.
  Variables (G : pkg) (ms : list method) (rec : bytes -> value -> value -> heap -> res (value * heap)) (bound : nat).
  Hypothesis Hdom : dom G.
  Hypothesis Hrec : rec_spec G ms rec bound.

  Lemma field_step : forall n h f ft x fin fout,
    wt G h ft x ->
    get_field f fin = Some x -> get_field f fout = Some (zero_like x) ->
    field_ok G ms n (f, ft) ->
    vdepth x < bound ->
    exists r, exec_stmt rec G ms n fin (stmt_of G [] (f, ft)) fout h = store f fout r /\ copy_ok h x r.
  Proof.
    intros n h f ft x fin fout Hw Hgi Hgo [Hft Hok] Hd. cbn [fst snd] in Hft, Hok.
    assert (forall s, s = SAssign f -> locs x = [] -> exists r, exec_stmt rec G ms n fin s fout h = store f fout r /\ copy_ok h x r)
      as Hword.
    { intros s -> Hl. exists (Ok (x, h)). split; [apply exec_stmt_assign, Hgi|apply copy_ok_word, Hl]. }
    (* a type whose values are words: the statement is the assignment, by computation or, for a named type of another
       package, by [field_ok]; [wt] leaves no container among its values *)
    destruct ft as [bn|e|k e|c args| | |tn|fms];
      try (apply Hword; [first [reflexivity|exact Hok]|clear - Hw; destruct x; try destruct Hw; reflexivity]).
    - destruct x as [?|l|?|?|?]; try destruct Hw.
      exists (copy_slice_cell h l). split; [apply exec_stmt_copy_slice; assumption|apply copy_slice_cell_ok, Hw].
    - destruct x as [?|?|l|?|?]; try destruct Hw.
      exists (copy_map_cell h l). split; [apply exec_stmt_copy_map; assumption|apply copy_map_cell_ok, Hw].
    - (* named type of the package: by its kind *)
      destruct Hok as [Hres [Hmm Hfi]].
      destruct (lookup G c) as [dc|] eqn:Hlc; [clear Hres|contradiction].
      pose proof (wt_named_shape _ _ _ _ _ _ Hw Hlc) as Hsh.
      unfold stmt_of. cbn [fst snd]. rewrite Hlc, is_iface_kind, is_map_kind. rewrite is_map_kind in Hmm.
      cbn [hand_of sigs_of flat_map]. rewrite app_nil_r, (proj1 Hdom c dc Hlc).
      assert ((d_kind dc = DScalar \/ exists tp fs, d_kind dc = DStruct tp fs) ->
              exists r, exec_stmt rec G ms n fin (SCallInto f) fout h = store f fout r /\ copy_ok h x r) as Hinto.
      { intros Hk. exists (rec c x (zero_like x) h). split; [eapply exec_stmt_call_into; eassumption|].
        apply (Hrec c args x h Hw); [exists dc; auto|exact Hd|exact (Hfi dc eq_refl Hk)]. }
      destruct (d_kind dc) as [tp fs|kk ee| |].
      + apply Hinto. eauto.
      + (* out.F = in.F.DeepCopy() *)
        destruct Hsh as [l [-> Hc]]. exists (copy_map_cell h l).
        split; [eapply exec_stmt_call_copy_val; [eassumption|eassumption|exact (Hmm eq_refl)]|apply copy_map_cell_ok, Hc].
      + apply Hinto. auto.
      + destruct Hsh as [i ->]. apply Hword; reflexivity.
  Qed.

  (* [h0] is the heap the source was typed in, [h0 ++ t0] the heap after the fields of the prefix have been copied *)
  Lemma exec_body_spec : forall n h0 suf fin_pre out_pre fin_suf t0,
    wt_fields G h0 suf fin_suf ->
    NoDup (map fst fin_pre ++ map fst suf) -> map fst out_pre = map fst fin_pre ->
    Forall (field_ok G ms n) suf ->
    depth_fields fin_suf < bound ->
    exists out_suf t1,
      exec_body rec G ms n (fin_pre ++ fin_suf) (map (stmt_of G []) suf) (out_pre ++ zero_fields fin_suf) (h0 ++ t0)
        = Ok (out_pre ++ out_suf, (h0 ++ t0) ++ t1) /\
      map fst out_suf = map fst suf /\
      snap_fields ((h0 ++ t0) ++ t1) out_suf = snap_fields h0 fin_suf /\
      (forall a, In a (locs_fields out_suf) -> List.length (h0 ++ t0) <= a < List.length ((h0 ++ t0) ++ t1)).
  Proof.
    intros n h0. induction suf as [|[f ft] suf IH];
      intros fin_pre out_pre fin_suf t0 Hwt Hnd Hop Hok Hdep.
    - destruct fin_suf; [|destruct Hwt].
      exists [], []. rewrite !app_nil_r. split; [reflexivity|]. split; [reflexivity|]. split; [reflexivity|]. intros a [].
    - destruct fin_suf as [|[g x] fin_suf]; [destruct Hwt|]. destruct Hwt as [<- [Hwx Hwr]].
      cbn [map] in Hnd. assert (~ In f (map fst fin_pre)) as Hnotin by (intros Hin; apply (NoDup_remove_2 _ _ _ Hnd), in_or_app; left; exact Hin).
      cbn [depth_fields] in Hdep. cbn [zero_fields map exec_body].
      destruct (field_step n (h0 ++ t0) f ft x
                  (fin_pre ++ (f, x) :: fin_suf) (out_pre ++ (f, zero_like x) :: zero_fields fin_suf)
                  (wt_ext _ _ _ _ _ Hwx))
        as [r [-> [x' [t1 [-> [Hsn Hlo]]]]]].
      + rewrite get_field_app_notin by exact Hnotin. apply get_field_head.
      + rewrite get_field_app_notin by (rewrite Hop; exact Hnotin). apply get_field_head.
      + exact (Forall_inv Hok).
      + lia.
      + cbn [store bind]. rewrite set_field_app_notin by (rewrite Hop; exact Hnotin). rewrite set_field_head.
        rewrite (snapshot_ext h0 t0 x (wt_valid _ _ _ _ Hwx)) in Hsn.
        (* the copied field joins the prefix *)
        change (out_pre ++ (f, x') :: zero_fields fin_suf) with (out_pre ++ [(f, x')] ++ zero_fields fin_suf).
        change (fin_pre ++ (f, x) :: fin_suf) with (fin_pre ++ [(f, x)] ++ fin_suf).
        rewrite !(app_assoc _ [_]).
        destruct (IH (fin_pre ++ [(f, x)]) (out_pre ++ [(f, x')]) fin_suf (t0 ++ t1) Hwr)
          as [out_suf [t2 [Hex2 [Hnm [Hsn2 Hlo2]]]]].
        * rewrite map_app, <- app_assoc. exact Hnd.
        * rewrite !map_app, Hop. reflexivity.
        * exact (Forall_inv_tail Hok).
        * lia.
        * rewrite (app_assoc h0 t0 t1) in Hex2, Hsn2, Hlo2.
          exists ((f, x') :: out_suf), (t1 ++ t2). rewrite Hex2, (app_assoc _ t1 t2), <- app_assoc.
          split; [reflexivity|]. split; [cbn [map fst]; rewrite Hnm; reflexivity|]. split.
          -- cbn [snap_fields]. rewrite Hsn2, snapshot_ext, Hsn; [reflexivity|].
             exact (fun a Ha => proj2 (Hlo a Ha)).
          -- cbn [locs_fields]. intros a Ha. apply fresh_app. apply in_app_or in Ha.
             destruct Ha as [Ha|Ha]; [left; exact (Hlo a Ha)|right; exact (Hlo2 a Ha)].
  Qed.

  (* DeepCopyInto of a declared struct type whose callees are in the file, on a zeroed destination: a copy *)
  Lemma exec_struct_spec : forall n d tp fs body deps h fin,
    lookup G n = Some d -> d_kind d = DStruct tp fs ->
    fields_copy all_fixed G [] fs = Ok (body, deps) ->
    (forall f c args, In (f, FNamed c args) fs -> callee_ok G ms c) ->
    wt_fields G h fs fin -> depth_fields fin < bound ->
    copy_ok h (VStruct fin)
      (let! (fout', h') := exec_body rec G ms n fin body (zero_fields fin) h in Ok (VStruct fout', h')).
  Proof.
    intros n d tp fs body deps h fin Hl Hk Hfc Hcal Hwf Hd. rewrite fields_copy_fixed in Hfc. injection Hfc as <- _.
    destruct (proj2 Hdom n d tp fs Hl Hk) as [Hnd [Hres Hfor]].
    destruct (exec_body_spec n h fs [] [] fin [] Hwf Hnd eq_refl) as [out [t1 [Hex [_ [Hsn Hlo]]]]];
      [|exact Hd|].
    { apply Forall_forall. intros [f ft] Hin. split; cbn [fst snd].
      - rewrite (field_type_assoc G n d tp fs f Hl Hk). apply assoc_fty_in; assumption.
      - destruct ft as [| | |c args| | | |fms]; try exact I; [split; [eapply Hres|eapply Hcal]; exact Hin|].
        specialize (Hfor f fms Hin). rewrite field_stmt_fixed in Hfor. injection Hfor as Hfor. exact Hfor. }
    cbn [app] in Hex. rewrite app_nil_r in Hex, Hsn, Hlo. rewrite Hex.
    exists (VStruct out), t1. split; [reflexivity|]. split; [|exact Hlo]. rewrite !snapshot_struct, Hsn. reflexivity.
  Qed.
End Body.

Lemma exec_into_spec : forall G ms, dom G -> callees_ok G ms ->
  forall fuel, rec_spec G ms (exec_into fuel G ms) fuel.
Proof.
  intros G ms Hdom Hcal. induction fuel as [|fuel IH]; intros c args x h Hw [dc [Hlc Hkd]] Hd Hfi; [lia|].
  destruct (find_into ms c) as [body|] eqn:Hfind; [|contradiction]. clear Hfi.
  destruct (Hcal c body Hfind) as [d [Hl Hcase]]. rewrite Hlc in Hl. injection Hl as <-.
  pose proof (wt_named_shape _ _ _ _ _ _ Hw Hlc) as Hsh.
  destruct Hcase as [[Hk ->]|[tp [fs [deps [Hk [Hfc Hcallee]]]]]]; rewrite Hk in Hsh.
  - (* defined scalar type: *out = *in *)
    destruct Hsh as [n ->]. cbn [exec_into]. rewrite Hfind. apply copy_ok_word. reflexivity.
  - destruct Hsh as [fin [-> Hwf]]. rewrite zero_struct.
    rewrite (exec_into_struct fuel G ms c body fin (zero_fields fin) h Hfind (fields_copy_not_star _ _ _ _ _ Hfc)).
    rewrite vdepth_struct in Hd. eapply (exec_struct_spec G ms _ fuel Hdom IH); try eassumption. lia.
Qed.

(* [deep_copy] / [deep_copy_map] (Model/DeepCopy.v) execute the statements of the declared DeepCopy method, the receiver
   possibly nil.  On a non-nil receiver they are [exec_copy] / [exec_copy_map]; on nil the guard statement returns nil. *)
Lemma find_ptr_copy_has : forall ms n,
  find_ptr_copy ms n = if has_ptr_copy ms n then Some [CNilGuard; CNew; CCallInto; CReturnOut] else None.
Proof.
  induction ms as [|m ms IH]; intros n; [reflexivity|].
  destruct m; cbn [find_ptr_copy has_ptr_copy]; try apply IH.
  destruct (bytes_eqb t n); [reflexivity|]. cbn [orb]. apply IH.
Qed.

Lemma find_map_copy_has : forall ms n,
  find_map_copy ms n =
  if existsb (fun m => match m with MMapCopy t => bytes_eqb t n | _ => false end) ms
  then Some [CNilGuard; CMake; CCallInto; CReturnOut] else None.
Proof.
  induction ms as [|m ms IH]; intros n; [reflexivity|].
  destruct m; cbn [find_map_copy existsb orb]; try apply IH.
  destruct (bytes_eqb t n); [reflexivity|]. cbn [orb]. apply IH.
Qed.

(* the fixed text of a DeepCopy method with a pointer receiver, on a non-nil receiver *)
Lemma run_ptr_copy_body : forall into v h,
  run_ptr_copy into (Some v) [CNilGuard; CNew; CCallInto; CReturnOut] OUndeclared h =
  let! (v', h') := into v (zero_like v) h in Ok (Some v', h').
Proof. intros into v h. cbn [run_ptr_copy]. destruct (into v (zero_like v) h) as [[v' h']| |]; reflexivity. Qed.

Lemma deep_copy_some : forall fuel G ms n v h,
  deep_copy fuel G ms n (Some v) h = let! (v', h') := exec_copy fuel G ms n v h in Ok (Some v', h').
Proof.
  intros fuel G ms n v h. unfold deep_copy, exec_copy. rewrite find_ptr_copy_has.
  destruct (has_ptr_copy ms n); [apply run_ptr_copy_body|reflexivity].
Qed.

Lemma deep_copy_nil : forall fuel G ms n h,
  has_ptr_copy ms n = true -> deep_copy fuel G ms n None h = Ok (None, h).
Proof. intros fuel G ms n h H. unfold deep_copy. rewrite find_ptr_copy_has, H. reflexivity. Qed.

(* the guard is what makes it so: the same body without its first statement does not return nil on a nil receiver
   (whatever DeepCopyInto does), and a type without a declared DeepCopy method has no result at all *)
Lemma nil_guard_needed : forall into h r,
  run_ptr_copy into None [CNew; CCallInto; CReturnOut] OUndeclared h <> Ok r /\
  run_ptr_copy into None [CNew; CReturnOut] OUndeclared h <> Ok (None, h).
Proof. intros into h r. split; cbn; discriminate. Qed.

Lemma deep_copy_undeclared : forall fuel G ms n p h, has_ptr_copy ms n = false -> deep_copy fuel G ms n p h = Panic.
Proof. intros fuel G ms n p h H. unfold deep_copy. rewrite find_ptr_copy_has, H. reflexivity. Qed.

Lemma write_last : forall (h : heap) c c', write (h ++ [c]) (List.length h) c' = h ++ [c'].
Proof. induction h as [|x h IH]; intros c c'; [reflexivity|]. cbn. rewrite IH. reflexivity. Qed.

Lemma has_map_methods_copy : forall ms n, has_map_methods ms n = true ->
  find_map_copy ms n = Some [CNilGuard; CMake; CCallInto; CReturnOut] /\ has_map_into ms n = true.
Proof.
  intros ms n Hm. apply andb_true_iff in Hm. destruct Hm as [H1 H2]. rewrite find_map_copy_has, H1. auto.
Qed.

Lemma deep_copy_map_is_exec_copy_map : forall ms n l h,
  has_map_methods ms n = true -> cell_is_map h l ->
  deep_copy_map ms n (VMap l) h = exec_copy_map ms n (VMap l) h.
Proof.
  intros ms n l h Hm Hc. unfold deep_copy_map, exec_copy_map. rewrite Hm.
  destruct (has_map_methods_copy ms n Hm) as [-> ->].
  destruct l as [a|]; [|reflexivity]. destruct Hc as [es He].
  cbn [run_map_copy alloc copy_map_cell]. rewrite (nth_error_ext h [CMap []] a _ He), He, write_last. reflexivity.
Qed.

Lemma deep_copy_map_nil_guard : forall ms n h,
  has_map_methods ms n = true -> deep_copy_map ms n (VMap None) h = Ok (VMap None, h).
Proof. intros ms n h Hm. unfold deep_copy_map. destruct (has_map_methods_copy ms n Hm) as [-> _]. reflexivity. Qed.

(* without the guard: make + an empty range returns a non-nil empty map *)
Lemma map_nil_guard_needed : forall h,
  run_map_copy true None [CMake; CCallInto; CReturnOut] None h = Ok (VMap (Some (List.length h)), h ++ [CMap []]).
Proof. reflexivity. Qed.

Lemma deep_copy_map_nil : forall ms n h,
  has_map_methods ms n = true -> exec_copy_map ms n (VMap None) h = Ok (VMap None, h).
Proof. intros ms n h H. cbn. rewrite H. reflexivity. Qed.

Lemma exec_copy_spec : forall G ms, dom G -> callees_ok G ms ->
  forall n args v h dc,
    wt G h (FNamed n args) v ->
    lookup G n = Some dc -> (d_kind dc = DScalar \/ exists tp fs, d_kind dc = DStruct tp fs) ->
    has_ptr_copy ms n = true -> find_into ms n <> None ->
    forall fuel, vdepth v < fuel -> copy_ok h v (exec_copy fuel G ms n v h).
Proof.
  intros G ms Hdom Hcal n args v h dc Hw Hl Hk Hpc Hfi fuel Hd. unfold exec_copy. rewrite Hpc.
  eapply (exec_into_spec G ms Hdom Hcal fuel); eauto.
Qed.

Lemma exec_copy_map_spec : forall G ms n args v h k e dc,
  wt G h (FNamed n args) v -> lookup G n = Some dc -> d_kind dc = DMap k e ->
  has_map_methods ms n = true -> copy_ok h v (exec_copy_map ms n v h).
Proof.
  intros G ms n args v h k e dc Hw Hl Hk Hm.
  pose proof (wt_named_shape _ _ _ _ _ _ Hw Hl) as Hsh. rewrite Hk in Hsh. destruct Hsh as [l [-> Hc]].
  unfold exec_copy_map. rewrite Hm. apply copy_map_cell_ok, Hc.
Qed.

Lemma nth_error_write_other : forall h a c b, a <> b -> nth_error (write h a c) b = nth_error h b.
Proof.
  induction h as [|x h IH]; intros a c b Hne; [destruct a; reflexivity|].
  destruct a as [|a]; destruct b as [|b]; cbn; try reflexivity; try congruence.
  apply IH. congruence.
Qed.

Lemma snapshot_write_other : forall h a c v, ~ In a (locs v) -> snapshot (write h a c) v = snapshot h v.
Proof.
  intros h a c v Hn. apply snapshot_agree. intros b Hb. apply nth_error_write_other. intros ->. exact (Hn Hb).
Qed.

(* no sharing: a write through any container of the copy leaves the original as it was *)
Lemma no_sharing : forall h t v v' a c,
  valid h v ->
  (forall b, In b (locs v') -> List.length h <= b < List.length (h ++ t)) ->
  In a (locs v') ->
  snapshot (write (h ++ t) a c) v = snapshot h v.
Proof.
  intros h t v v' a c Hval Hfresh Ha. rewrite snapshot_write_other.
  - apply snapshot_ext. exact Hval.
  - intros Hin. apply Hval in Hin. apply Hfresh in Ha. lia.
Qed.

(* what the property asks of a copy [v'] of [v], made in heap [h] by allocating [t]: deeply equal, its containers fresh,
   and therefore no write through one of them seen by the original *)
Definition unshared (h : heap) (v v' : value) (t : heap) : Prop :=
  snapshot (h ++ t) v' = snapshot h v /\
  (forall a, In a (locs v') -> List.length h <= a < List.length (h ++ t)) /\
  (forall a c, In a (locs v') -> snapshot (write (h ++ t) a c) v = snapshot h v).

Definition copy_unshared (h : heap) (v : value) (r : res (value * heap)) : Prop :=
  exists v' t, r = Ok (v', h ++ t) /\ unshared h v v' t.

Lemma copy_ok_unshared : forall h v r, valid h v -> copy_ok h v r -> copy_unshared h v r.
Proof.
  intros h v r Hv [v' [t [Hr [Hs Hf]]]]. exists v', t. split; [exact Hr|]. split; [exact Hs|]. split; [exact Hf|].
  intros a c Ha. eapply no_sharing; eassumption.
Qed.

Lemma has_map_methods_in : forall ms n, In (MMapCopy n) ms -> In (MMapInto n) ms -> has_map_methods ms n = true.
Proof.
  intros ms n H1 H2. apply andb_true_iff. split; apply existsb_exists; [exists (MMapCopy n)|exists (MMapInto n)]; (split; [assumption|apply bytes_eqb_refl]).
Qed.

Definition obj_of (d : decl) (tp : list bytes) (ptr : bool) : list method :=
  match d_ifaces d with Some i => [MObject (d_name d) tp i ptr] | None => [] end.

Lemma emit_cases : forall G n d, lookup G n = Some d ->
  match d_kind d with
  | DStruct tp fs => emit G n = obj_of d tp true ++ [MPtrCopy n tp; MPtrInto n tp (map (stmt_of G []) fs)] /\
                     deps_of G n = map (fun k : key => (fst k, [])) (named_deps G fs)
  | DScalar => emit G n = obj_of d [] true ++ [MPtrCopy n []; MPtrInto n [] [SStar]] /\ deps_of G n = []
  | DMap _ _ => emit G n = obj_of d [] false ++ [MMapCopy n; MMapInto n] /\ deps_of G n = []
  | DIface => emit G n = [] /\ deps_of G n = []
  end.
Proof.
  intros G n d Hl. pose proof (lookup_name _ _ _ Hl) as <-. pose proof (emit_render G (d_name d) d) as He. unfold render in He.
  destruct (d_kind d) as [tp fs|k e| |]; [rewrite fields_copy_fixed in He|..]; exact (He _ _ Hl eq_refl).
Qed.

(* whatever the kind: an optional DeepCopyObject with the receiver of the type's DeepCopy, then DeepCopy and DeepCopyInto *)
Lemma emit_shape : forall G n,
  emit G n = [] \/
  exists o m1 m2, emit G n = o ++ [m1; m2] /\ method_id m1 = Some (n, 1) /\ method_id m2 = Some (n, 2) /\
                  (o = [] \/ exists tp i, o = [MObject n tp i (negb (is_map (lookup G n)))]).
Proof.
  intros G n. destruct (lookup G n) as [d|] eqn:Hl; [|left; unfold emit; rewrite Hl; reflexivity].
  pose proof (emit_cases G n d Hl) as Hc. rewrite is_map_kind.
  assert (forall tp p, obj_of d tp p = [] \/ exists tp' i, obj_of d tp p = [MObject n tp' i p]) as Ho
    by (intros tp p; unfold obj_of; rewrite (lookup_name _ _ _ Hl); destruct (d_ifaces d); eauto).
  destruct (d_kind d) as [tp fs|k e| |]; [| | |left; apply Hc]; right; do 3 eexists; (split; [apply Hc|]); auto.
Qed.

Lemma find_into_app : forall a b n,
  find_into (a ++ b) n = match find_into a n with Some x => Some x | None => find_into b n end.
Proof.
  induction a as [|m a IH]; intros b n; [reflexivity|]. cbn [app find_into].
  destruct m; try apply IH. destruct (bytes_eqb t n); [reflexivity|apply IH].
Qed.

Lemma has_ptr_copy_app : forall a b n, has_ptr_copy (a ++ b) n = has_ptr_copy a n || has_ptr_copy b n.
Proof.
  induction a as [|m a IH]; intros b n; [reflexivity|]. cbn [app has_ptr_copy].
  destruct m; try apply IH. now rewrite IH, orb_assoc.
Qed.

Lemma has_ptr_copy_in : forall ms n tp, In (MPtrCopy n tp) ms -> has_ptr_copy ms n = true.
Proof.
  intros ms n tp Hin. apply in_split in Hin. destruct Hin as [a [b ->]].
  rewrite has_ptr_copy_app. cbn [has_ptr_copy]. rewrite bytes_eqb_refl. apply orb_true_r.
Qed.

Lemma find_into_in : forall ms n tp body, In (MPtrInto n tp body) ms -> find_into ms n <> None.
Proof.
  intros ms n tp body Hin. apply in_split in Hin. destruct Hin as [a [b ->]].
  rewrite find_into_app. cbn [find_into]. rewrite bytes_eqb_refl. destruct (find_into a n); discriminate.
Qed.

Lemma find_into_obj : forall d tp p n, find_into (obj_of d tp p) n = None.
Proof. intros. unfold obj_of. destruct (d_ifaces d); reflexivity. Qed.

Lemma find_into_emit : forall G m n b, find_into (emit G m) n = Some b ->
  m = n /\ exists d, lookup G n = Some d /\
    ((d_kind d = DScalar /\ b = [SStar]) \/
     (exists tp fs, d_kind d = DStruct tp fs /\ b = map (stmt_of G []) fs /\
        deps_of G n = map (fun k : key => (fst k, [])) (named_deps G fs))).
Proof.
  intros G m n b H. destruct (lookup G m) as [d|] eqn:Hl; [|unfold emit in H; rewrite Hl in H; discriminate].
  pose proof (emit_cases G m d Hl) as Hc.
  (* by the kind of m: find_into passes the DeepCopyObject and the DeepCopy of m's block; the block of a map type or of an
     interface declares no DeepCopyInto with a pointer receiver, that of a struct or scalar type declares it for m *)
  destruct (d_kind d) as [tp fs|k e| |] eqn:Hk; destruct Hc as [He Hd]; rewrite He in H; try discriminate H;
    rewrite find_into_app, find_into_obj in H; cbn [find_into] in H; try discriminate H.
  all: destruct (bytes_eqb m n) eqn:E; [apply bytes_eqb_spec in E; subst m|discriminate H]; injection H as <-.
  all: split; [reflexivity|]; exists d; split; [exact Hl|].
  - right. exists tp, fs. auto.
  - left. auto.
Qed.

Lemma find_into_flat_map : forall G E n b,
  find_into (flat_map (emit G) E) n = Some b -> In n E /\ find_into (emit G n) n = Some b.
Proof.
  intros G. induction E as [|m E IH]; intros n b H; [discriminate|]. cbn [flat_map] in H.
  rewrite find_into_app in H. destruct (find_into (emit G m) n) as [x|] eqn:Hm.
  - inversion H; subst. destruct (find_into_emit _ _ _ _ Hm) as [-> _]. split; [left; reflexivity|exact Hm].
  - destruct (IH _ _ H) as [Hin Hf]. split; [right; exact Hin|exact Hf].
Qed.

(* the generated file as a whole *)
Record well_formed (G : pkg) (order : list bytes) (ms : list method) : Prop := {
  wf_callees : callees_ok G ms;
  wf_roots : forall n d, In n order -> lookup G n = Some d -> enabled G d = true ->
      match d_kind d with
      | DStruct _ _ | DScalar => has_ptr_copy ms n = true /\ find_into ms n <> None
      | DMap _ _ => has_map_methods ms n = true
      | DIface => True
      end;
  wf_once : exists E, NoDup E /\ ms = flat_map (emit G) E;    (* every type contributes its methods once *)
  wf_nodup : NoDup (map method_id ms);                         (* no method is declared twice *)
  wf_object : forall t tp i p, In (MObject t tp i p) ms -> p = negb (is_map (lookup G t))
}.

Lemma NoDup_flat_map : forall {A B} (g : A -> list B) l,
  (forall x, NoDup (g x)) -> (forall x y b, In b (g x) -> In b (g y) -> x = y) -> NoDup l -> NoDup (flat_map g l).
Proof.
  intros A B g. induction l as [|x l IH]; intros Hg Hinj Hl; [constructor|]. cbn. apply NoDup_cons_iff in Hl.
  apply NoDup_app_intro; [apply Hg|apply IH; [exact Hg|exact Hinj|apply Hl]|].
  intros b Hb Hin. apply in_flat_map in Hin. destruct Hin as [y [Hy Hby]].
  rewrite <- (Hinj x y b Hb Hby) in Hy. exact (proj1 Hl Hy).
Qed.

Lemma emit_ids : forall G n, NoDup (map method_id (emit G n)) /\
  (forall b, In b (map method_id (emit G n)) -> exists k, b = Some (n, k)).
Proof.
  intros G n. destruct (emit_shape G n) as [->|[o [m1 [m2 [-> [H1 [H2 Ho]]]]]]]; [split; [constructor|intros b []]|].
  assert (NoDup [Some (n, 1); Some (n, 2)]) as Hnd.
  { constructor; [intros [E|[]]; discriminate E|]. constructor; [intros []|constructor]. }
  destruct Ho as [->|[tp [i ->]]]; cbn [app map method_id]; rewrite H1, H2; split.
  - exact Hnd.
  - intros b [<-|[<-|[]]]; eauto.
  - constructor; [intros [E|[E|[]]]; discriminate E|exact Hnd].
  - intros b [<-|[<-|[<-|[]]]]; eauto.
Qed.

Lemma emit_object : forall G n t tp i p, In (MObject t tp i p) (emit G n) -> t = n /\ p = negb (is_map (lookup G n)).
Proof.
  intros G n t tp i p Hin.
  destruct (emit_shape G n) as [E|[o [m1 [m2 [E [H1 [H2 Ho]]]]]]]; rewrite E in Hin; [destruct Hin|].
  apply in_app_or in Hin. destruct Hin as [Hin|[->|[->|[]]]]; try discriminate.
  destruct Ho as [->|[tp' [i' ->]]]; [destruct Hin|]. destruct Hin as [E'|[]]. injection E' as <- _ _ <-. auto.
Qed.

(* a type of E that is no interface has its copy methods in the file *)
Lemma emitted_methods : forall G E n d, (d_kind d <> DIface -> In n E) -> lookup G n = Some d ->
  match d_kind d with
  | DStruct _ _ | DScalar => has_ptr_copy (flat_map (emit G) E) n = true /\ find_into (flat_map (emit G) E) n <> None
  | DMap _ _ => has_map_methods (flat_map (emit G) E) n = true
  | DIface => True
  end.
Proof.
  intros G E n d Hn Hl. pose proof (emit_cases G n d Hl) as Hc.
  (* every method of n's block is in the file; which they are: by the kind *)
  assert (d_kind d <> DIface -> forall m, In m (emit G n) -> In m (flat_map (emit G) E)) as Hin
    by (intros Hk m Hm; apply in_flat_map; eauto).
  destruct (d_kind d) as [tp fs|k e| |]; [| | |exact I]; destruct Hc as [He _]; specialize (Hin ltac:(discriminate)); rewrite He in Hin.
  1,3: split; [eapply has_ptr_copy_in|eapply find_into_in]; apply Hin, in_or_app; right; cbn; eauto.
  apply has_map_methods_in; apply Hin, in_or_app; right; cbn; auto.
Qed.

Lemma emitted_well_formed : forall G order E,
  NoDup E ->
  (forall n, In n E -> forall k, In k (deps_of G n) -> lookup G (fst k) <> None -> In (fst k) E) ->
  (forall n d, In n order -> lookup G n = Some d -> enabled G d = true -> d_kind d <> DIface -> In n E) ->
  well_formed G order (flat_map (emit G) E).
Proof.
  intros G order E Hnd Hclosed Hroots. constructor.
  - intros n body Hf. apply find_into_flat_map in Hf. destruct Hf as [Hn Hf].
    destruct (find_into_emit _ _ _ _ Hf) as [_ [d [Hl Hcase]]]. exists d. split; [exact Hl|].
    destruct Hcase as [Hs|[tp [fs [Hk [-> Hdeps]]]]]; [left; exact Hs|]. right. exists tp, fs, (named_deps G fs).
    split; [exact Hk|]. split; [apply fields_copy_fixed|]. intros f c args Hin.
    (* the type of a field is a dependency of n unless it is an interface, so E holds it *)
    assert (forall dc, lookup G c = Some dc -> d_kind dc <> DIface -> In c E) as Hc.
    { intros dc Hlc Hkc. apply (Hclosed n Hn (c, [])).
      - rewrite Hdeps. apply in_map_iff. exists (c, args). split; [reflexivity|].
        apply named_deps_In. split; [exists f; exact Hin|].
        rewrite Hlc, is_iface_kind. destruct (d_kind dc); congruence.
      - cbn [fst]. congruence. }
    split.
    + intros Hm. destruct (lookup G c) as [dc|] eqn:Hlc; [|discriminate]. rewrite is_map_kind in Hm.
      pose proof (emitted_methods G E c dc (Hc dc eq_refl) Hlc) as Hmc. destruct (d_kind dc); try discriminate Hm. exact Hmc.
    + intros dc Hlc Hkc. pose proof (emitted_methods G E c dc (Hc dc Hlc) Hlc) as Hmc.
      destruct Hkc as [Ek|[tp' [fs' Ek]]]; rewrite Ek in Hmc; apply Hmc.
  - intros n d Hin Hl He. exact (emitted_methods G E n d (Hroots n d Hin Hl He) Hl).
  - exists E. auto.
  - rewrite flat_map_concat_map, concat_map, map_map, <- flat_map_concat_map. apply NoDup_flat_map; [intros x; apply emit_ids| |exact Hnd].
    intros x y b Hx Hy. destruct (proj2 (emit_ids G x) b Hx) as [k1 E1]. destruct (proj2 (emit_ids G y) b Hy) as [k2 E2].
    congruence.
  - intros t tp i p Hin. apply in_flat_map in Hin. destruct Hin as [n [_ Hin]].
    destruct (emit_object _ _ _ _ _ _ Hin) as [-> ->]. reflexivity.
Qed.

Lemma gen_well_formed_first : forall G fuel order ms,
  gen_deepcopy fuel all_fixed G order [] = Ok ms -> well_formed G order ms.
Proof.
  intros G fuel order ms H. unfold gen_deepcopy in H. apply bind_ok in H. destruct H as [st [H Hms]].
  injection Hms as <-.
  destruct (gen_all_post G fuel order (mk_gstate [] []) st) as [[[Hout [Hsnd Hnd]] [_ Hclosed]] Hroots]; [|exact H|].
  { split; [reflexivity|]. split; [intros k []|constructor]. }
  rewrite Hout. apply emitted_well_formed.
  - apply NoDup_rev, Hnd.
  - intros n Hn k Hk _. apply in_rev, in_map_iff in Hn. destruct Hn as [j [<- Hj]].
    destruct (Hclosed j Hj) as [[]|Hcl]. rewrite <- in_rev. apply in_map, Hcl, Hk.
  - intros n d Hin Hl He _. rewrite <- in_rev. apply (in_map fst _ (n, [])). eapply Hroots; eassumption.
Qed.

Lemma gen_well_formed : forall G fuel order vis ms,
  vis_ok G vis -> gen_deepcopy fuel all_fixed G order vis = Ok ms -> well_formed G order ms.
Proof.
  intros G fuel order vis ms Hv H. rewrite gen_deepcopy_vis in H by assumption. exact (gen_well_formed_first _ _ _ _ H).
Qed.
