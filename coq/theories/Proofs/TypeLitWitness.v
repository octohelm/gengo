(* C11 — non-vacuity witnesses:
   1. an instance of strconv.CanBackquote that SATISFIES [cbq_hyp] (the constant [fun _ => true] does not);
   2. an instance of [type_leaf_denotes] (Props/C11.v C11_type_leaf_denotes_in_file): a concrete import table of a
      generated file, and a struct type with leaves from foreign packages, own-package types and struct tags. *)
Require Import Gengo.Base.Bytes Gengo.Model.TypeLit Gengo.Spec.TypeLit Gengo.Proofs.TypeLit.
Require Import Gengo.Model.GoIdent Gengo.Model.RenderStack.
Require Import Gengo.Proofs.RenderStackTracker Gengo.Proofs.RenderStack.
From Coq Require Import NArith Lia.

(* ---- 1. strconv.CanBackquote (strconv/quote.go), on bytes: no backquote, no DEL, no control byte except TAB (so no
   CR, no NL), and — approximating "valid UTF-8 without U+FEFF" from below — no byte >= 0x80 ---- *)
Definition cbq_byte (c : ascii) : bool :=
  let n := N_of_ascii c in
  (N.ltb n 128 && negb (N.eqb n 127) && negb (N.eqb n 96) && (N.leb 32 n || N.eqb n 9))%bool.

Definition can_backquote_ascii (s : bytes) : bool := forallb cbq_byte s.

Lemma cbq_byte_ok : forall c, cbq_byte c = true -> (Ascii.eqb c backquote || Ascii.eqb c cr)%bool = false.
Proof.
  intros c H. unfold cbq_byte in H.
  destruct (Ascii.eqb c backquote) eqn:E1.
  - apply Ascii.eqb_eq in E1. subst c. vm_compute in H. discriminate.
  - destruct (Ascii.eqb c cr) eqn:E2; [|reflexivity].
    apply Ascii.eqb_eq in E2. subst c. vm_compute in H. discriminate.
Qed.

Lemma can_backquote_ascii_hyp : cbq_hyp can_backquote_ascii.
Proof.
  intros s H. unfold tag_ok_raw. apply Bool.negb_true_iff.
  unfold can_backquote_ascii in H. induction s as [|c s IH]; [reflexivity|].
  cbn [forallb] in H. apply Bool.andb_true_iff in H. destruct H as [Hc Hs].
  cbn [existsb]. rewrite (cbq_byte_ok c Hc). cbn [orb]. apply IH. exact Hs.
Qed.

(* the constant-true function the earlier Examples used is NOT an instance *)
Lemma const_true_violates_cbq_hyp : ~ cbq_hyp (fun _ => true).
Proof. intros H. specialize (H [backquote] eq_refl). vm_compute in H. discriminate. Qed.

(* ---- 2. a generated file of package example.com/m/t that imports three packages whose last segments collide
   (x/o as o, b/o as bo, a/o as ao) and net/url;  the type
       struct {
         E error
         L ao.List[bo.Item]      `json:"l,omitempty"`
         M map[string][]*o.Node  `x:"a\tb"`          (tag with a TAB: still back-quotable)
         Own *Local                                   (a type of the target package itself: unqualified)
         U url.URL
       }
   is a leaf all of whose packages the file imports ---- *)
Definition wit_self : bytes := bs "example.com/m/t".

Definition wit_table : renv :=
  [(bs "x/o", bs "o"); (bs "b/o", bs "bo"); (bs "a/o", bs "ao"); (bs "net/url", bs "url")].

Definition wit_g : gty :=
  GStruct
    (GFCons (bs "E") false [] GError []
    (GFCons (bs "L") false [] (GNamed (bs "a/o") (bs "List") (GCons (GNamed (bs "b/o") (bs "Item") GNil) GNil))
            (of_string "json:""l,omitempty""")
    (GFCons (bs "M") false []
            (GMap (GBasic BString) (GSlice (GPtr (GNamed (bs "x/o") (bs "Node") GNil))))
            (bs "x:""a" ++ [ascii_of_N 9] ++ bs "b""")
    (GFCons (bs "Own") false [] (GPtr (GNamed wit_self (bs "Local") GNil)) []
    (GFCons (bs "U") false [] (GNamed (bs "net/url") (bs "URL") GNil) []
     GFNil))))).

Lemma wit_table_ok : table_ok the_pre wit_table.
Proof.
  unfold table_ok, wit_table. cbn [map fst snd]. split; [|split].
  - apply Gengo.Base.Order.nodup_bytes_NoDup. reflexivity.
  - apply Gengo.Base.Order.nodup_bytes_NoDup. reflexivity.
  - repeat constructor; try (vm_compute; reflexivity); cbn; discriminate.
Qed.

Lemma wit_self_not_imported : ~ In wit_self (map fst wit_table).
Proof. intros H. apply Gengo.Base.Order.existsb_bytes_eqb_in in H. vm_compute in H. discriminate. Qed.

Lemma wit_g_domain : in_domain all_tags wit_self wit_g = true /\ locals_exported wit_self wit_g = true.
Proof. vm_compute. split; reflexivity. Qed.

Lemma wit_g_imported : forall p, In p (foreign_pkgs wit_self wit_g) -> In p (map fst wit_table).
Proof.
  intros p H. vm_compute in H. apply Gengo.Base.Order.existsb_bytes_eqb_in.
  repeat (destruct H as [<-|H]; [reflexivity|]). contradiction.
Qed.

Lemma wit_g_foreign_pkgs_nonempty :
  foreign_pkgs wit_self wit_g = [bs "a/o"; bs "b/o"; bs "x/o"; bs "net/url"].
Proof. vm_compute. reflexivity. Qed.

(* the theorem, instantiated: for the reflect view (%T / snippet.ID(reflect.Type)) and for the go/types view *)
Lemma wit_leaf_denotes :
  (exists a, ident_frag the_pick parse_c15 wit_self can_backquote_ascii true true (IdR (view_of wit_g)) wit_table
             = Ok (a, wit_table) /\ resolve wit_table wit_self a = Some (canon wit_g)) /\
  (exists a, ident_frag the_pick parse_c15 wit_self can_backquote_ascii true true (IdT (view_of wit_g)) wit_table
             = Ok (a, wit_table) /\ resolve wit_table wit_self a = Some (canon wit_g)).
Proof.
  split.
  - exact (type_leaf_denotes wit_self can_backquote_ascii can_backquote_ascii_hyp wit_table (IdR (view_of wit_g)) wit_g
             wit_table_ok wit_self_not_imported (or_introl eq_refl) (proj1 wit_g_domain) (proj2 wit_g_domain) wit_g_imported).
  - exact (type_leaf_denotes wit_self can_backquote_ascii can_backquote_ascii_hyp wit_table (IdT (view_of wit_g)) wit_g
             wit_table_ok wit_self_not_imported (or_intror (or_introl eq_refl)) (proj1 wit_g_domain) (proj2 wit_g_domain)
             wit_g_imported).
Qed.
