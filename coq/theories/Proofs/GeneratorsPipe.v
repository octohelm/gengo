(* The real generators as instances of the pipeline's abstract generator (Model/Generators.v, part B): what
   Pipeline.gen_run makes of them is what the generator models compute for one package on its own, from the initial
   state; corollaries of the pipeline theorems (C05, C07, C02) and of C04's fixed point for these generators.
   DEFINED here and used in statements of Props/C07.v, C17.v and C18.v: [real_gens] (the three real generators in one
   list), [called] and [ps_called] (the types Execute calls the generator for, in the order of the sorted table). *)
Require Import Gengo.Base.Bytes.
Require Import Gengo.Model.Generators.
Require Gengo.Proofs.DeepCopy Gengo.Proofs.DeepCopyTop Gengo.Proofs.Pipeline Gengo.Proofs.PipelinePkg Gengo.Proofs.PipelineC07 Gengo.Proofs.PipelineC02 Gengo.Proofs.PipelineWitness
  Gengo.Proofs.Determinism Gengo.Proofs.GenRuntimeDoc.
From Coq Require Import Lia Arith PeanoNat Permutation.

Module PD := Gengo.Proofs.DeepCopy.
Module PPl := Gengo.Proofs.Pipeline.

(* what a call appends to the file does not depend on what the file already holds *)
Definition shift {A} (o : list DC.method) (r : res (A * DC.gstate)) : res (A * DC.gstate) :=
  match r with
  | Ok (g, st) => Ok (g, DC.mk_gstate (DC.gs_processed st) (o ++ DC.gs_out st))
  | Panic => Panic
  | OutOfFuel => OutOfFuel
  end.

Lemma loop_shift : forall rec,
  (forall k pr o o0, rec k (DC.mk_gstate pr (o ++ o0)) = shift o (rec k (DC.mk_gstate pr o0))) ->
  forall ds pr o o0,
    DC.loop_defers rec ds (DC.mk_gstate pr (o ++ o0)) = shift o (DC.loop_defers rec ds (DC.mk_gstate pr o0)).
Proof.
  intros rec Hrec. induction ds as [|dk r IH]; intros pr o o0; [reflexivity|].
  cbn [DC.loop_defers]. rewrite Hrec.
  destruct (rec dk (DC.mk_gstate pr o0)) as [[[|] [pr1 o1]]| |]; cbn [shift bind DC.gs_processed DC.gs_out]; try reflexivity.
  apply IH.
Qed.

Lemma gen_type_shift : forall fuel fx G vis b k pr o o0,
  DC.gen_type fuel fx G vis b k (DC.mk_gstate pr (o ++ o0)) = shift o (DC.gen_type fuel fx G vis b k (DC.mk_gstate pr o0)).
Proof.
  induction fuel as [|fuel IH]; intros fx G vis b k pr o o0; [reflexivity|].
  rewrite !PD.gen_type_S. cbn [DC.gs_processed DC.gs_out].
  destruct (DC.mem_key k pr); [reflexivity|].
  destruct (DC.lookup G (fst k)) as [d|]; [|reflexivity].
  destruct (DC.is_iface (Some d)); [reflexivity|].
  destruct (negb (b && DC.fx_deps fx) && negb (DC.enabled G d)); [reflexivity|].
  destruct (DC.render fx G vis d) as [[ms defers]| |]; cbn [bind shift]; try reflexivity.
  rewrite <- app_assoc. apply loop_shift. intros dk pr0. apply IH.
Qed.

Definition shift1 (o : list DC.method) (r : res DC.gstate) : res DC.gstate :=
  match r with
  | Ok st => Ok (DC.mk_gstate (DC.gs_processed st) (o ++ DC.gs_out st))
  | Panic => Panic
  | OutOfFuel => OutOfFuel
  end.

Lemma dc_calls_shift : forall fuel fx G vis names pr o,
  dc_calls fuel fx G vis names (DC.mk_gstate pr o) = shift1 o (dc_calls fuel fx G vis names (DC.mk_gstate pr [])).
Proof.
  intros fuel fx G vis names pr o. rewrite <- (app_nil_r o) at 1. generalize (@nil DC.method) as o0. revert pr.
  induction names as [|n r IH]; intros pr o0; [reflexivity|].
  cbn [dc_calls]. rewrite gen_type_shift.
  destruct (DC.gen_type _ _ _ _ _ _ _) as [[gr [pr1 o1]]| |]; cbn [shift bind DC.gs_processed DC.gs_out]; try reflexivity.
  apply IH.
Qed.

(* doGenerate of Model/DeepCopy.v (gen_all: lookup + enabled test per name) on names that are declared and enabled
   is the plain sequence of calls *)
Lemma gen_all_is_calls : forall fuel fx G vis names st,
  (forall n, In n names -> exists d, DC.lookup G n = Some d /\ DC.enabled G d = true) ->
  DC.gen_all fuel fx G vis names st = dc_calls fuel fx G vis names st.
Proof.
  intros fuel fx G vis. induction names as [|n r IH]; intros st H; [reflexivity|].
  cbn [DC.gen_all dc_calls]. destruct (H n (or_introl eq_refl)) as [d [Hl He]]. rewrite Hl, He.
  destruct (DC.gen_type fuel fx G vis false (n, []) st) as [[g st']| |]; cbn [bind]; try reflexivity.
  apply IH. intros m Hm. apply H. right. exact Hm.
Qed.

Section DeepCopyRun.
  Variables (fx : DC.fixes) (graph : PL.pkginfo -> DC.pkg) (vis : PL.pkginfo -> list DC.method)
            (print_method : DC.method -> bytes) (fuel : nat).
  Variable E : PL.env.

  Notation g := (deepcopy_gen fx graph vis print_method fuel).

  Lemma print_methods_app : forall a b,
    print_methods print_method (a ++ b) = print_methods print_method a ++ print_methods print_method b.
  Proof. intros. unfold print_methods. rewrite map_app, concat_app. reflexivity. Qed.

  (* the calls Execute makes for package p: the types of the sorted table for which the dispatch says yes *)
  Definition called (p : PL.pkginfo) : list PL.tyinfo :=
    filter (PL.should_call E g p) (PL.sort_by PL.ty_name (PL.pk_types p)).

  Lemma dc_res_goes_on : forall r, dc_res r = PL.RNil \/ dc_res r = PL.RSkip.
  Proof. intros [|]; [left|right]; reflexivity. Qed.

  (* every call starts from an empty buffer (dc_type), the model's calls accumulate theirs: dc_calls_shift *)
  Lemma call_loop_is_calls : forall p tys proc,
    match dc_calls fuel fx (graph p) (vis p) (map PL.ty_name (filter (PL.should_call E g p) tys)) (DC.mk_gstate proc []) with
    | Ok st => PPl.returned g (PL.call_loop E g p proc tys) (DC.gs_processed st) (print_methods print_method (DC.gs_out st)) []
    | _ => PL.ro_out (PL.call_loop E g p proc tys) = PL.Died
    end.
  Proof.
    intros p. induction tys as [|t r IH]; intros proc; [repeat split|].
    cbn [filter]. destruct (PL.should_call E g p t) eqn:Hs; [|rewrite (PPl.call_loop_skip Hs); apply IH].
    assert (Hg : PL.g_type g proc p t = dc_type fx graph vis print_method fuel proc p t) by reflexivity.
    unfold dc_type in Hg. cbn [map dc_calls].
    destruct (DC.gen_type _ _ _ _ _ _ _) as [[gr [pr1 o1]]| |]; cbn [bind DC.gs_processed DC.gs_out] in Hg |- *.
    2,3: exact (PPl.call_loop_stop Hs Hg).
    rewrite dc_calls_shift. specialize (IH pr1).
    destruct (dc_calls _ _ _ _ _ _) as [[pr2 o2]| |]; cbn [shift1 DC.gs_processed DC.gs_out] in IH |- *.
    2,3: rewrite (PPl.call_loop_stop Hs Hg); destruct gr; exact IH.
    rewrite print_methods_app. exact (PPl.returned_cons Hs Hg (dc_res_goes_on gr) IH).
  Qed.

  (* Pipeline.gen_run on the deepcopy instance = Model/DeepCopy.v's run of the generator on this package alone, from
     the EMPTY processed set.  Side condition: the dispatch calls the generator only for declared types on which
     gengo.IsGeneratorEnabled (as C17's [enabled] models it) says yes — both are the same Go function. *)
  Theorem deepcopy_gen_run : forall p,
    (forall t, In t (called p) -> exists d, DC.lookup (graph p) (PL.ty_name t) = Some d /\ DC.enabled (graph p) d = true) ->
    match DC.gen_deepcopy fuel fx (graph p) (map PL.ty_name (called p)) (vis p) with
    | Ok ms => PL.go_out (PL.gen_run E g p) = PL.Done /\
               PL.go_body (PL.gen_run E g p) = print_methods print_method ms /\
               PL.go_ignore (PL.gen_run E g p) = false
    | _ => PL.go_out (PL.gen_run E g p) = PL.Died
    end.
  Proof.
    intros p H. unfold DC.gen_deepcopy. rewrite gen_all_is_calls.
    2:{ intros n Hn. apply in_map_iff in Hn. destruct Hn as [t [<- Ht]]. apply H. exact Ht. }
    pose proof (call_loop_is_calls p (PL.sort_by PL.ty_name (PL.pk_types p)) []) as Hc. unfold called.
    destruct (dc_calls _ _ _ _ _ _) as [st| |]; cbn [bind].
    2,3: exact (PPl.gen_run_stopped E g p _ Hc ltac:(discriminate)).
    exact (PPl.gen_run_quiet E g p _ _ Hc).
  Qed.
End DeepCopyRun.

(* C04: the fixed-point hypothesis [reads_sources_only], discharged for deepcopy.
   deepcopy DOES see the file an earlier run left (go/types shows its methods: [dvis]); what it renders still depends
   on the sources only, because of C17_independent_of_previous_output.  Hypotheses: the declarations of the source
   files are a function of the sources ([src_eq]); what an earlier run left is shape-consistent ([vis_ok]: methods
   with map receivers belong to map types — true of every file gengo wrote, Proofs/DeepCopy.gen_deepcopy_vis_ok). *)
Module PDet := Gengo.Proofs.Determinism.

Theorem deepcopy_reads_sources_only : forall dgraph dvis print_method imports_of fuel,
  (forall p p', PDet.src_eq p p' -> dgraph p = dgraph p') ->
  (forall p, PD.vis_ok (dgraph p) (dvis p)) ->
  PDet.reads_sources_only (deepcopy_det_gen dgraph dvis print_method imports_of fuel).
Proof.
  intros dgraph dvis pm io fuel Hsrc Hvis p p' mv cs Heq. cbn [Det.g_run deepcopy_det_gen].
  rewrite (PD.gen_deepcopy_vis (dgraph p) (dvis p) fuel _ (Hvis p)).
  rewrite (PD.gen_deepcopy_vis (dgraph p') (dvis p') fuel _ (Hvis p')).
  rewrite (Hsrc p p' Heq). reflexivity.
Qed.

(* C04_fixed_point with the deepcopy generator among the generators: no assumption on it is left *)
Theorem fixed_point_with_deepcopy :
  forall dgraph dvis print_method imports_of fuel,
    (forall p p', PDet.src_eq p p' -> dgraph p = dgraph p') ->
    (forall p, PD.vis_ok (dgraph p) (dvis p)) ->
  forall render parse_sum (o1 o2 : Det.oracle) a e gens w w' f f1 log1,
    Det.shuffles o1 -> Det.shuffles o2 -> PDet.wf_args a -> PDet.wf_world w -> PDet.wf_world w' ->
    NoDup (map Det.pk_dir (Det.w_pkgs w)) -> PDet.is_gen_name a Det.sum_name = false ->
    Forall PDet.reads_sources_only gens -> PDet.reload w w' ->
    PDet.loaded a w f -> PDet.regen_all a w f ->
    let gens' := deepcopy_det_gen dgraph dvis print_method imports_of fuel :: gens in
    Det.run true true render parse_sum o1 a e w gens' f = Some (f1, log1) ->
    exists f2 log2,
      Det.run true true render parse_sum o2 a e w' gens' f1 = Some (f2, log2)
      /\ forall q, q <> (Det.w_moddir w', Det.sum_name) -> f2 q = f1 q.
Proof.
  intros dgraph dvis pm io fuel Hsrc Hvis render parse_sum o1 o2 a e gens w w' f f1 log1 H1 H2 H3 H4 H5 H6 H7 H8 H9 H10 H11 gens'.
  apply PDet.second_run_fixed_point; try assumption.
  constructor; [apply deepcopy_reads_sources_only; assumption|exact H8].
Qed.

Definition ps_shift (acc : list PS.gtype) (imps : list bytes) (o : PS.outcome) : PS.outcome :=
  match o with PS.OutFile ts i => PS.OutFile (acc ++ ts) (imps ++ i) | other => other end.

Lemma generate_pkg_shift : forall L target c tis acc imps,
  PS.generate_pkg L target c tis acc imps = ps_shift acc imps (PS.generate_pkg L target c tis [] []).
Proof.
  intros L target c tis acc imps.
  enough (H : forall a i acc0 imps0, PS.generate_pkg L target c tis (a ++ acc0) (i ++ imps0) =
                                     ps_shift a i (PS.generate_pkg L target c tis acc0 imps0)).
  { specialize (H acc imps [] []). rewrite !app_nil_r in H. exact H. }
  induction tis as [|ti r IH]; intros a i acc0 imps0; [reflexivity|].
  cbn [PS.generate_pkg]. destruct (PS.generate_type L target c ti) as [|k| | |gt j]; try reflexivity.
  - apply IH.
  - rewrite <- !app_assoc. apply IH.
Qed.

Section PartialStructRun.
  Variables (cfg : PS.cfg) (tracker : PL.pkginfo -> bytes -> bytes) (tin : PL.pkginfo -> PL.tyinfo -> PS.tinput)
            (print_gtype : PS.gtype -> bytes).
  Variable E : PL.env.

  Notation g := (partialstruct_gen cfg tracker tin print_gtype).

  Definition ps_called (p : PL.pkginfo) : list PL.tyinfo :=
    filter (PL.should_call E g p) (PL.sort_by PL.ty_name (PL.pk_types p)).

  Lemma ps_call_loop : forall p tys,
    match PS.generate_pkg (tracker p) (PL.pk_path p) cfg (map (tin p) (filter (PL.should_call E g p) tys)) [] [] with
    | PS.OutFile ts _ => PPl.returned g (PL.call_loop E g p tt tys) tt (print_gtypes print_gtype ts) []
    | PS.OutErr _ => PL.ro_out (PL.call_loop E g p tt tys) = PL.Failed (PL.EGen (bs "partialstruct") (PL.pk_path p))
    | PS.OutCrash => PL.ro_out (PL.call_loop E g p tt tys) = PL.Died
    | PS.OutGeneric => True
    end.
  Proof.
    intros p. induction tys as [|t r IH]; [repeat split|].
    cbn [filter]. destruct (PL.should_call E g p t) eqn:Hs; [|rewrite (PPl.call_loop_skip Hs); exact IH].
    assert (Hg : PL.g_type g tt p t = ps_type cfg tracker tin print_gtype tt p t) by reflexivity.
    unfold ps_type, no_out in Hg. cbn [map PS.generate_pkg].
    destruct (PS.generate_type _ _ _ _) as [|k| | |gt i].
    2,3: exact (PPl.call_loop_stop Hs Hg).
    2: exact I.
    - (* not enabled on its own tags: nothing rendered, the loop goes on *)
      destruct (PS.generate_pkg _ _ _ _ _ _) as [k| | |ts i0].
      1,2: rewrite (PPl.call_loop_stop Hs Hg); exact IH.
      + exact I.
      + exact (PPl.returned_cons Hs Hg (or_introl eq_refl) IH).
    - rewrite generate_pkg_shift. destruct (PS.generate_pkg _ _ _ _ [] []) as [k| | |ts i0]; cbn [ps_shift].
      1,2: rewrite (PPl.call_loop_stop Hs Hg); exact IH.
      + exact I.
      + exact (PPl.returned_cons Hs Hg (or_introl eq_refl) IH).
  Qed.

  (* Pipeline.gen_run on the partialstruct instance = C18's generate_pkg on this package's called declarations *)
  Theorem partialstruct_gen_run : forall p,
    match PS.generate_pkg (tracker p) (PL.pk_path p) cfg (map (tin p) (ps_called p)) [] [] with
    | PS.OutFile ts _ => PL.go_out (PL.gen_run E g p) = PL.Done /\
                         PL.go_body (PL.gen_run E g p) = print_gtypes print_gtype ts /\
                         PL.go_ignore (PL.gen_run E g p) = false
    | PS.OutErr _ => PL.go_out (PL.gen_run E g p) = PL.Failed (PL.EGen (bs "partialstruct") (PL.pk_path p))
    | PS.OutCrash => PL.go_out (PL.gen_run E g p) = PL.Died
    | PS.OutGeneric => True
    end.
  Proof.
    intros p. pose proof (ps_call_loop p (PL.sort_by PL.ty_name (PL.pk_types p))) as Hc. unfold ps_called.
    destruct (PS.generate_pkg _ _ _ _ _ _) as [k| | |ts i].
    1,2: exact (PPl.gen_run_stopped E g p _ Hc ltac:(discriminate)).
    - exact I.
    - exact (PPl.gen_run_quiet E g p _ _ Hc).
  Qed.
End PartialStructRun.

(* between two states of one generator instance the file only grows, by [new_items], and the number of registered
   callbacks grows by at most k *)
Definition rd_grows (k : nat) (st st' : RD.gstate) : Prop :=
  RD.gs_body st' = RD.gs_body st ++ new_items st st' /\ RD.gs_defers st <= RD.gs_defers st' <= RD.gs_defers st + k.

Lemma rd_grows_intro : forall k st st' X,
  RD.gs_body st' = RD.gs_body st ++ X -> RD.gs_defers st <= RD.gs_defers st' <= RD.gs_defers st + k -> rd_grows k st st'.
Proof. intros k st st' X Hb Hd. split; [|exact Hd]. unfold new_items. rewrite Hb at 2. rewrite Order.skipn_app_exact. exact Hb. Qed.

Lemma rd_grows_refl : forall k st, rd_grows k st st.
Proof. intros k st. apply (rd_grows_intro k st st []); [symmetry; apply app_nil_r|lia]. Qed.

Lemma rd_grows_trans : forall j k a b c, rd_grows j a b -> rd_grows k b c ->
  rd_grows (j + k) a c /\ new_items a c = new_items a b ++ new_items b c.
Proof.
  intros j k a b c [Hab Dab] [Hbc Dbc].
  assert (Hac : RD.gs_body c = RD.gs_body a ++ new_items a b ++ new_items b c).
  { rewrite Hbc, Hab at 1. apply app_assoc_reverse. }
  split; [apply (rd_grows_intro _ a c _ Hac); lia|].
  unfold new_items at 1. rewrite Hac. apply Order.skipn_app_exact.
Qed.

Lemma generate_type_grow : forall fd fs pk d st, rd_grows 0 st (RD.generate_type fd fs pk d st).
Proof.
  intros fd fs pk d st. unfold RD.generate_type.
  destruct (existsb (bytes_eqb (RD.t_name d)) (RD.gs_processed st)); [apply rd_grows_refl|].
  destruct (RD.method_of fd fs pk d) as [m|].
  - apply (rd_grows_intro _ _ _ [RD.IMethod (RD.t_name d) m]); [reflexivity|cbn; lia].
  - apply (rd_grows_intro _ _ _ []); [symmetry; apply app_nil_r|cbn; lia].
Qed.

(* `if !c.IsZero() { c.Defer(createHelperOnce) }`: at most one callback more *)
Lemma register_grow : forall st st1, rd_grows 0 st st1 -> rd_grows 1 st (Gengo.Proofs.GenRuntimeDoc.register st1).
Proof.
  intros st st1 H. unfold Gengo.Proofs.GenRuntimeDoc.register.
  destruct (RD.gs_body st1) as [|x l] eqn:Eb; [|rewrite <- Eb]; destruct H as [Hb Hd];
    (split; [exact Hb|cbn [RD.gs_defers]; lia]).
Qed.

Lemma GenerateType_grow : forall fd fs pk d st, rd_grows 1 st (RD.GenerateType fd fs pk d st).
Proof.
  intros fd fs pk d st. unfold RD.GenerateType.
  destruct (RD.t_kind d); [|apply rd_grows_refl|];
    (destruct (negb (RD.t_exported d)); [apply rd_grows_refl|exact (register_grow st _ (generate_type_grow fd fs pk d st))]).
Qed.

Lemma create_helper_grow : forall st, rd_grows 0 st (RD.create_helper_once st).
Proof.
  intros st. unfold RD.create_helper_once. destruct (RD.gs_helper st); [apply rd_grows_refl|].
  apply (rd_grows_intro _ _ _ [RD.IHelper]); [reflexivity|cbn; lia].
Qed.

Section RuntimeDocRun.
  Variables (fd fs : bool) (desc : PL.pkginfo -> PL.tyinfo -> RD.tydesc) (print_item : RD.item -> bytes) (fuel : nat).
  Variable E : PL.env.

  Notation g := (runtimedoc_gen fd fs desc print_item fuel).

  Lemma print_items_app : forall a b, print_items print_item (a ++ b) = print_items print_item a ++ print_items print_item b.
  Proof. intros. unfold print_items. rewrite map_app, concat_app. reflexivity. Qed.

  Definition rd_step (p : PL.pkginfo) (st : RD.gstate) (d : RD.tydesc) : RD.gstate :=
    if RD.t_enabled d then RD.GenerateType fd fs (rd_view desc p) d st else st.

  Lemma rd_res_goes_on : forall d, rd_res d = PL.RNil \/ rd_res d = PL.RSkip.
  Proof.
    intros d. unfold rd_res. destruct (RD.t_kind d); try (right; reflexivity); destruct (negb (RD.t_exported d)); auto.
  Qed.

  Lemma rd_step_grow : forall p st d, rd_grows 1 st (rd_step p st d).
  Proof. intros p st d. unfold rd_step. destruct (RD.t_enabled d); [apply GenerateType_grow|apply rd_grows_refl]. Qed.

  Lemma rd_call_loop : forall p tys st,
    (forall t, In t tys -> PL.should_call E g p t = RD.t_enabled (desc p t)) ->
    let stF := fold_left (rd_step p) (map (desc p) tys) st in
    PPl.returned g (PL.call_loop E g p st tys) stF (print_items print_item (new_items st stF))
             (repeat 0 (RD.gs_defers stF - RD.gs_defers st)) /\
    rd_grows (List.length tys) st stF.
  Proof.
    intros p. induction tys as [|t r IH]; intros st H; cbn zeta.
    - cbn [map fold_left List.length]. rewrite Nat.sub_diag. unfold new_items. rewrite skipn_all.
      split; [repeat split|apply rd_grows_refl].
    - cbn [map fold_left List.length].
      pose proof (rd_step_grow p st (desc p t)) as Hle1.
      destruct (IH (rd_step p st (desc p t)) (fun t0 Hin => H t0 (or_intror Hin))) as [Hrun Hle2].
      destruct (rd_grows_trans _ _ _ _ _ Hle1 Hle2) as [Hle Hnew].
      split; [|exact Hle]. clear Hle.
      (* rd_step tests C16's flag, the loop the dispatch: make it one test before splitting on it *)
      remember (rd_step p st (desc p t)) as st1 eqn:Hst. unfold rd_step in Hst. rewrite <- (H t (or_introl eq_refl)) in Hst.
      destruct (PL.should_call E g p t) eqn:Hs; subst st1.
      + set (st1 := RD.GenerateType fd fs (rd_view desc p) (desc p t) st) in *.
        set (stF := fold_left (rd_step p) (map (desc p) r) st1) in *.
        rewrite Hnew, print_items_app.
        replace (RD.gs_defers stF - RD.gs_defers st)
          with ((RD.gs_defers st1 - RD.gs_defers st) + (RD.gs_defers stF - RD.gs_defers st1))
          by (destruct Hle1, Hle2; lia).
        rewrite repeat_app.
        exact (PPl.returned_cons (g := g) (st := st) (st' := st1) (res := rd_res (desc p t)) Hs eq_refl (rd_res_goes_on _) Hrun).
      + rewrite (PPl.call_loop_skip Hs). exact Hrun.
  Qed.

  Lemma rd_defer_loop : forall p n fl st, n <= fl ->
    let dl := PL.defer_loop fl g p st (repeat 0 n) in
    PL.ro_out dl = PL.Done /\ rd_grows 0 st (RD.run_defers n st) /\
    PL.ro_body dl = print_items print_item (new_items st (RD.run_defers n st)).
  Proof.
    intros p. induction n as [|n IH]; intros fl st Hle; cbn zeta.
    - cbn [repeat RD.run_defers]. unfold new_items. rewrite skipn_all.
      destruct fl; (split; [reflexivity|]); (split; [apply rd_grows_refl|reflexivity]).
    - destruct fl as [|fl]; [lia|]. cbn [repeat PL.defer_loop]. cbn [PL.g_defer runtimedoc_gen]. unfold rd_defer.
      cbn [PL.so_res PL.so_body PL.so_defers]. rewrite app_nil_r.
      destruct (IH fl (RD.create_helper_once st) ltac:(lia)) as [H1 [H2 H3]].
      destruct (rd_grows_trans _ _ _ _ _ (create_helper_grow st) H2) as [Hle' Hnew].
      cbn [PL.ro_out PL.ro_body RD.run_defers]. rewrite H3, Hnew, print_items_app. repeat split; try assumption; apply Hle'.
  Qed.

  (* Pipeline.gen_run on the runtimedoc instance = C16's [gen] on this package alone, from gs_init (nothing processed,
     helper not written).  Side conditions: the dispatch and C16's t_enabled flag are the same decision; the callback
     bound covers one callback per type. *)
  Theorem runtimedoc_gen_run : forall p,
    (forall t, In t (PL.pk_types p) -> PL.should_call E g p t = RD.t_enabled (desc p t)) ->
    List.length (PL.pk_types p) <= fuel ->
    PL.go_out (PL.gen_run E g p) = PL.Done /\
    PL.go_body (PL.gen_run E g p) = print_items print_item (RD.gen fd fs (rd_view desc p)) /\
    PL.go_ignore (PL.gen_run E g p) = false.
  Proof.
    intros p H Hfuel.
    destruct (rd_call_loop p (PL.sort_by PL.ty_name (PL.pk_types p)) RD.gs_init) as [Hret [_ Hd]].
    { intros t Hin. apply H. apply (PPl.sort_by_In PL.ty_name). exact Hin. }
    destruct (PPl.gen_run_returned E g p _ _ _ Hret) as [G1 [G2 G3]]. rewrite G1, G2, G3. clear G1 G2 G3 Hret.
    change (PL.g_fuel g) with fuel.
    set (stF := fold_left (rd_step p) (map (desc p) (PL.sort_by PL.ty_name (PL.pk_types p))) RD.gs_init) in *.
    change (RD.gs_defers RD.gs_init) with 0 in *. rewrite Nat.sub_0_r.
    destruct (rd_defer_loop p (RD.gs_defers stF) fuel stF) as [D1 [[Hbody _] D3]].
    { rewrite (Permutation_length (PPl.sort_by_perm PL.ty_name (PL.pk_types p))) in Hd. lia. }
    split; [exact D1|]. split; [|reflexivity].
    rewrite D3, <- print_items_app. exact (f_equal (print_items print_item) (eq_sym Hbody)).
  Qed.
End RuntimeDocRun.

Module PPk := Gengo.Proofs.PipelinePkg.

Section Corollaries.
  Variable E : PL.env.

  Section DC.
    Variables (fx : DC.fixes) (graph : PL.pkginfo -> DC.pkg) (vis : PL.pkginfo -> list DC.method)
              (print_method : DC.method -> bytes) (fuel : nat).
    Notation g := (deepcopy_gen fx graph vis print_method fuel).

    (* C05 / C07 for deepcopy: whatever else is generated in the same process — other packages before it, other
       generators — after a successful run the deepcopy file of a processed package is the formatter's output for
       what Model/DeepCopy.v's generator renders for THAT package from an EMPTY processed set (gen_deepcopy starts at
       mk_gstate [] []): g.processed never carries over.  Nothing rendered: no file (a stale one is removed). *)
    Theorem deepcopy_fresh_per_package : forall a w gens s p,
      PPk.order_ok E -> NoDup (map PL.g_name gens) -> PPk.world_ok w ->
      PL.exec_outcome E a w gens s = PL.Done ->
      In p (PL.w_pkgs w) -> PPl.processed E a w s p = true -> In g gens ->
      (forall t, In t (called fx graph vis print_method fuel E p) ->
         exists d, DC.lookup (graph p) (PL.ty_name t) = Some d /\ DC.enabled (graph p) d = true) ->
      exists ms,
        DC.gen_deepcopy fuel fx (graph p) (map PL.ty_name (called fx graph vis print_method fuel E p)) (vis p) = Ok ms /\
        PL.fs_lookup (PL.gen_file a p (bs "deepcopy")) (PL.exec_fs E a w gens s) =
          (if negb (is_nil (print_methods print_method ms))
           then PL.e_fmt E (PL.assemble (PL.pk_name p) (bs "deepcopy") (print_methods print_method ms))
           else if PL.mem_bytes (PL.fname a (bs "deepcopy")) (PL.pk_files p) then None
           else PL.fs_lookup (PL.gen_file a p (bs "deepcopy")) s).
    Proof.
      intros a w gens s p Hord Hnd Hok Hdone Hp Hpr Hg Hcalled.
      pose proof (deepcopy_gen_run fx graph vis print_method fuel E p Hcalled) as Hrun.
      destruct (Gengo.Proofs.PipelineC07.generator_file_after E a w gens s p g Hord Hnd (proj1 Hok) Hdone Hp Hpr Hg) as [Hfile [_ Hgo]].
      destruct (DC.gen_deepcopy fuel fx (graph p) (map PL.ty_name (called fx graph vis print_method fuel E p)) (vis p)) as [ms| |].
      - exists ms. split; [reflexivity|]. destruct Hrun as [_ [Hb Hi]]. rewrite Hb, Hi in Hfile. exact Hfile.
      - rewrite Hrun in Hgo. discriminate.
      - rewrite Hrun in Hgo. discriminate.
    Qed.
  End DC.

  Section RDc.
    Variables (fd fs : bool) (desc : PL.pkginfo -> PL.tyinfo -> RD.tydesc) (print_item : RD.item -> bytes) (fuel : nat).
    Notation g := (runtimedoc_gen fd fs desc print_item fuel).

    (* C05 / C07 for runtimedoc: the file is C16's [gen] of that package alone, from gs_init — neither g.processed nor
       g.helperWritten carries over: every package's file that has a RuntimeDoc method has its own helper *)
    Theorem runtimedoc_fresh_per_package : forall a w gens s p,
      PPk.order_ok E -> NoDup (map PL.g_name gens) -> PPk.world_ok w ->
      PL.exec_outcome E a w gens s = PL.Done ->
      In p (PL.w_pkgs w) -> PPl.processed E a w s p = true -> In g gens ->
      (forall t, In t (PL.pk_types p) -> PL.should_call E g p t = RD.t_enabled (desc p t)) ->
      List.length (PL.pk_types p) <= fuel ->
      let body := print_items print_item (RD.gen fd fs (rd_view desc p)) in
      PL.fs_lookup (PL.gen_file a p (bs "runtimedoc")) (PL.exec_fs E a w gens s) =
        (if negb (is_nil body) then PL.e_fmt E (PL.assemble (PL.pk_name p) (bs "runtimedoc") body)
         else if PL.mem_bytes (PL.fname a (bs "runtimedoc")) (PL.pk_files p) then None
         else PL.fs_lookup (PL.gen_file a p (bs "runtimedoc")) s).
    Proof.
      intros a w gens s p Hord Hnd Hok Hdone Hp Hpr Hg Hen Hfuel body.
      destruct (runtimedoc_gen_run fd fs desc print_item fuel E p Hen Hfuel) as [_ [Hb Hi]].
      destruct (Gengo.Proofs.PipelineC07.generator_file_after E a w gens s p g Hord Hnd (proj1 Hok) Hdone Hp Hpr Hg) as [Hfile _].
      rewrite Hb, Hi in Hfile. exact Hfile.
    Qed.
  End RDc.

  Section PSc.
    Variables (cfg : PS.cfg) (tracker : PL.pkginfo -> bytes -> bytes) (tin : PL.pkginfo -> PL.tyinfo -> PS.tinput)
              (print_gtype : PS.gtype -> bytes).
    Notation g := (partialstruct_gen cfg tracker tin print_gtype).
    Notation model p := (PS.generate_pkg (tracker p) (PL.pk_path p) cfg (map (tin p) (ps_called cfg tracker tin print_gtype E p)) [] []).

    (* C05 / C07 for partialstruct (replace values with type arguments are outside C18's model) *)
    Theorem partialstruct_file_per_package : forall a w gens s p,
      PPk.order_ok E -> NoDup (map PL.g_name gens) -> PPk.world_ok w ->
      PL.exec_outcome E a w gens s = PL.Done ->
      In p (PL.w_pkgs w) -> PPl.processed E a w s p = true -> In g gens ->
      model p <> PS.OutGeneric ->
      exists ts i,
        model p = PS.OutFile ts i /\
        PL.fs_lookup (PL.gen_file a p (bs "partialstruct")) (PL.exec_fs E a w gens s) =
          (if negb (is_nil (print_gtypes print_gtype ts))
           then PL.e_fmt E (PL.assemble (PL.pk_name p) (bs "partialstruct") (print_gtypes print_gtype ts))
           else if PL.mem_bytes (PL.fname a (bs "partialstruct")) (PL.pk_files p) then None
           else PL.fs_lookup (PL.gen_file a p (bs "partialstruct")) s).
    Proof.
      intros a w gens s p Hord Hnd Hok Hdone Hp Hpr Hg Hgen.
      pose proof (partialstruct_gen_run cfg tracker tin print_gtype E p) as Hrun.
      destruct (Gengo.Proofs.PipelineC07.generator_file_after E a w gens s p g Hord Hnd (proj1 Hok) Hdone Hp Hpr Hg) as [Hfile [_ Hgo]].
      destruct (model p) as [k| | |ts i].
      - rewrite Hrun in Hgo. discriminate.
      - rewrite Hrun in Hgo. discriminate.
      - contradiction.
      - exists ts, i. split; [reflexivity|]. destruct Hrun as [_ [Hb Hi]]. rewrite Hb, Hi in Hfile. exact Hfile.
    Qed.

    (* C02 for partialstruct: a declaration that is `not a struct` (or not made from a named type) in a processed
       package makes the run fail — with any other packages and generators in it —; gengo.sum is left as it was; and
       when Execute names partialstruct and this package, no file of the package's directory has changed *)
    Theorem partialstruct_error_aborts : forall a w gens s p k,
      PPk.order_ok E -> NoDup (map PL.g_name gens) -> PPk.world_ok w ->
      In p (PL.w_pkgs w) -> PPl.processed E a w s p = true -> In g gens ->
      model p = PS.OutErr k ->
      PL.exec_outcome E a w gens s <> PL.Done /\
      (PPk.files_ok w -> PL.fs_lookup (PL.sum_path w) (PL.exec_fs E a w gens s) = PL.fs_lookup (PL.sum_path w) s) /\
      (PL.exec_outcome E a w gens s = PL.Failed (PL.EGen (bs "partialstruct") (PL.pk_path p)) ->
       forall f, PL.fs_lookup (PL.pk_dir p, f) (PL.exec_fs E a w gens s) = PL.fs_lookup (PL.pk_dir p, f) s).
    Proof.
      intros a w gens s p k Hord Hnd Hok Hp Hpr Hg Hm.
      pose proof (partialstruct_gen_run cfg tracker tin print_gtype E p) as Hrun. rewrite Hm in Hrun.
      assert (Hnot : PL.exec_outcome E a w gens s <> PL.Done).
      { intros Hdone. destruct (Gengo.Proofs.PipelineC07.generator_file_after E a w gens s p g Hord Hnd (proj1 Hok) Hdone Hp Hpr Hg) as [_ [_ Hgo]].
        rewrite Hrun in Hgo. discriminate. }
      split; [exact Hnot|]. split.
      - intros Hf. apply Gengo.Proofs.PipelineC02.sum_untouched_unless_done; assumption.
      - intros Hfail.
        destruct (Gengo.Proofs.PipelineC02.failed_names_pkg E a w gens s _ _ (proj1 Hok) (or_introl Hfail))
          as [p' [g' [Hp' [Hpath [_ [_ [_ Hsame]]]]]]].
        assert (p' = p) as ->.
        { destruct Hok as [_ Hpaths]. apply (Order.NoDup_map_inj_in PL.pk_path (PL.w_pkgs w)); assumption. }
        exact Hsame.
    Qed.
  End PSc.
End Corollaries.

(* the three real generators in one run: every pipeline theorem (C07 frame, C05, C02, C08 through Whole) quantifies
   over the generator list, hence holds of this one; their names are distinct *)
Definition real_gens fx graph vis pm fuel fd fs desc pi rfuel cfg tracker tin pg : list PL.generator :=
  [deepcopy_gen fx graph vis pm fuel; partialstruct_gen cfg tracker tin pg; runtimedoc_gen fd fs desc pi rfuel].

Lemma real_gens_names : forall fx graph vis pm fuel fd fs desc pi rfuel cfg tracker tin pg,
  NoDup (map PL.g_name (real_gens fx graph vis pm fuel fd fs desc pi rfuel cfg tracker tin pg)).
Proof.
  intros. apply Order.nodup_bytes_NoDup. reflexivity.
Qed.

Theorem real_gens_frame : forall (E : PL.env) fx graph vis pm fuel fd fs desc pi rfuel cfg tracker tin pg a w s q,
  ~ PPl.own_output E a w s q ->
  PL.fs_lookup q (PL.exec_fs E a w (real_gens fx graph vis pm fuel fd fs desc pi rfuel cfg tracker tin pg) s) = PL.fs_lookup q s.
Proof. intros. apply PPl.frame. assumption. Qed.

(* non-vacuity: two packages with the same declarations (Dep untagged, Root{D Dep} tagged), one All run, the deepcopy
   instance: the second package gets Dep's methods again (processed starts empty for it) *)
Module PW := Gengo.Proofs.PipelineWitness.
Module PDT := Gengo.Proofs.DeepCopyTop.

Definition wg_print (m : DC.method) : bytes :=
  match m with
  | DC.MPtrCopy t _ => bs "func (in *" ++ t ++ bs ") DeepCopy() {}" ++ [ascii_of_N 10]
  | DC.MPtrInto t _ body => bs "func (in *" ++ t ++ bs ") DeepCopyInto() {}" ++ [ascii_of_N 10]
  | _ => bs "func other() {}" ++ [ascii_of_N 10]
  end.
Definition wg_gen : PL.generator := deepcopy_gen DC.all_fixed (fun _ => PDT.w_dep) (fun _ => []) wg_print 8.
Definition wg_types : list PL.tyinfo :=
  [PL.Build_tyinfo (bs "Root") PL.KNamed (PW.tag "deepcopy"); PL.Build_tyinfo (bs "Dep") PL.KNamed []].
Definition wg_a : PL.pkginfo := PL.Build_pkginfo (bs "m/a") (bs "a") (bs "a") [bs "a.go"] [] wg_types (bs "h1:a").
Definition wg_b : PL.pkginfo := PL.Build_pkginfo (bs "m/b") (bs "b") (bs "b") [bs "b.go"] [] wg_types (bs "h1:b").
Definition wg_world : PL.world := PL.Build_world [] [wg_b; wg_a] [bs "m/a"; bs "m/b"].
Definition wg_body : bytes :=
  bs "func (in *Root) DeepCopy() {}" ++ [ascii_of_N 10] ++ bs "func (in *Root) DeepCopyInto() {}" ++ [ascii_of_N 10] ++
  bs "func (in *Dep) DeepCopy() {}" ++ [ascii_of_N 10] ++ bs "func (in *Dep) DeepCopyInto() {}" ++ [ascii_of_N 10].

Lemma deepcopy_instance_witness :
  PL.exec_outcome (PW.wit_env true) PW.wc_args wg_world [wg_gen] PW.wc_fs = PL.Done /\
  map PL.ty_name (called DC.all_fixed (fun _ => PDT.w_dep) (fun _ => []) wg_print 8 (PW.wit_env true) wg_a) = [bs "Root"] /\
  DC.gen_deepcopy 8 DC.all_fixed PDT.w_dep [bs "Root"] [] =
    Ok [DC.MPtrCopy (bs "Root") []; DC.MPtrInto (bs "Root") [] [DC.SCallInto (bs "D")];
        DC.MPtrCopy (bs "Dep") []; DC.MPtrInto (bs "Dep") [] [DC.SCopySlice (bs "X") (bs "[]int")]] /\
  PL.fs_lookup (bs "a", bs "zz_generated.deepcopy.go") (PL.exec_fs (PW.wit_env true) PW.wc_args wg_world [wg_gen] PW.wc_fs)
    = Some (PL.assemble (bs "a") (bs "deepcopy") wg_body) /\
  PL.fs_lookup (bs "b", bs "zz_generated.deepcopy.go") (PL.exec_fs (PW.wit_env true) PW.wc_args wg_world [wg_gen] PW.wc_fs)
    = Some (PL.assemble (bs "b") (bs "deepcopy") wg_body).
Proof. repeat split; vm_compute; reflexivity. Qed.

(* the hypotheses of deepcopy_reads_sources_only are satisfiable: any graph that depends on the sources only, with the
   methods of the generator's own output as what an earlier run left *)
Lemma deepcopy_det_witness : forall pm io,
  PDet.reads_sources_only
    (deepcopy_det_gen (fun _ => PDT.w_all)
       (fun p => match DC.gen_deepcopy 8 DC.all_fixed PDT.w_all PDT.w_all_order [] with
                 | Ok ms => if is_nil (Det.pk_files p) then [] else ms
                 | _ => [] end) pm io 8).
Proof.
  intros pm io. apply deepcopy_reads_sources_only.
  { intros; reflexivity. }
  intros p. destruct (DC.gen_deepcopy 8 DC.all_fixed PDT.w_all PDT.w_all_order []) as [ms| |] eqn:Hg; try constructor.
  destruct (is_nil (Det.pk_files p)); [constructor|].
  eapply PD.gen_deepcopy_vis_ok. exact Hg.
Qed.
