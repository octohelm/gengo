(* RenderStack, part 1: C03's tracker satisfies every hypothesis C11 and C15 make about "the tracker",
   and C15's ParseTypeRef satisfies the hypothesis C11 makes about "the parser". *)
Require Import Gengo.Base.Bytes.
Require Gengo.Base.Order Gengo.Base.Assoc.
Require Import Gengo.Model.GoIdent Gengo.Model.TrackerSpec Gengo.Model.RenderStack.
Require Gengo.Model.Tracker Gengo.Proofs.Tracker Gengo.Proofs.StdTable Gengo.Gen.StdList.
Require Gengo.Model.TypeLit Gengo.Spec.TypeLit Gengo.Proofs.TypeLit.
Require Gengo.Model.TypeRef Gengo.Proofs.TypeRef.

Module TLS := Gengo.Spec.TypeLit.

(* ---- the names are lower-case: no upper-case first byte (C11: [exported n = false]) ---- *)

Definition no_upper (n : bytes) : Prop := Forall (fun c => is_upper c = false) n.

Lemma raw_local_name_no_upper : forall parts r, Tk.raw_local_name parts = Ok r -> no_upper r.
Proof.
  intros parts r. unfold Tk.raw_local_name.
  destruct (Gengo.Model.CamelCase.c_conv true 4 _) as [x| |]; try discriminate.
  intros H. inversion H; subst. unfold no_upper. apply Forall_forall. intros c Hc.
  apply in_map_iff in Hc. destruct Hc as (y & <- & _). apply Order.is_upper_to_lower.
Qed.

Lemma no_upper_filter : forall f n, no_upper n -> no_upper (filter f n).
Proof.
  intros f n H. unfold no_upper in *. rewrite Forall_forall in *. intros c Hc.
  apply filter_In in Hc. apply H, Hc.
Qed.

Lemma sanitize_no_upper : forall raw, no_upper raw -> no_upper (Tk.sanitize raw).
Proof.
  intros raw H. unfold Tk.sanitize.
  destruct (is_nil (filter ident_char raw) || is_blank (filter ident_char raw)).
  - unfold no_upper. repeat constructor.
  - destruct (Tk.hd_is_digit (filter ident_char raw) || is_keyword (filter ident_char raw)).
    + constructor; [reflexivity|apply no_upper_filter, H].
    + apply no_upper_filter, H.
Qed.

Definition lower_first (n : bytes) : Prop := n <> [] /\ TLS.exported n = false.

Lemma valid_no_upper_lower_first : forall n, valid_name_b n = true -> no_upper n -> lower_first n.
Proof.
  intros n V U. split; [apply Proofs.Tracker.valid_name_nonempty, V|].
  destruct n as [|c r]; [reflexivity|]. inversion U; subst. assumption.
Qed.

Lemma to_local_name_lower_first : forall parts nm, Tk.to_local_name true parts = Ok nm -> lower_first nm.
Proof.
  intros parts nm H. unfold Tk.to_local_name in H.
  destruct (Tk.raw_local_name parts) as [raw| |] eqn:E; cbn [bind] in H; try discriminate.
  inversion H; subst. apply valid_no_upper_lower_first; [apply Proofs.Tracker.sanitize_valid|].
  apply sanitize_no_upper. eapply raw_local_name_no_upper; eauto.
Qed.

Lemma lower_first_num : forall nm k, lower_first nm -> lower_first (nm ++ Tk.itoa k).
Proof.
  intros nm k [NE E]. destruct nm as [|c r]; [congruence|]. split; [discriminate|exact E].
Qed.

(* association lists: C11's [alookup] is C03's [lookup]; reversal does not matter for membership *)

Lemma alookup_lookup : forall k (m : list (bytes * bytes)), TL.alookup k m = Tk.lookup k m.
Proof. exact Proofs.TypeLit.alookup_eq. Qed.

Lemma alookup_none_notin : forall k (m : list (bytes * bytes)), TL.alookup k m = None <-> ~ In k (map fst m).
Proof. intros k m. rewrite alookup_lookup. apply Proofs.Tracker.lookup_none_keys. Qed.

Lemma lookup_rev_none : forall k (m : list (bytes * bytes)), TL.alookup k m = None -> Tk.lookup k (rev m) = None.
Proof. intros k m. rewrite alookup_lookup, !(Assoc.get_None _ Order.bytes_eqbP : forall m k, Tk.lookup k m = None <-> _), map_rev, <- in_rev. auto. Qed.

Lemma lookup_rev_some : forall k v (m : list (bytes * bytes)),
  TL.alookup k m = Some v -> exists w, Tk.lookup k (rev m) = Some w.
Proof.
  intros k v m H. apply (Assoc.get_Some_keys _ Order.bytes_eqbP). rewrite map_rev, <- in_rev.
  apply (Assoc.get_Some_keys _ Order.bytes_eqbP). exists v. now rewrite <- Proofs.TypeLit.alookup_eq.
Qed.

(* with pairwise distinct keys the order of an association list is irrelevant *)
Lemma lookup_rev_nodup : forall k (m : list (bytes * bytes)),
  NoDup (map fst m) -> Tk.lookup k (rev m) = TL.alookup k m.
Proof. intros k m ND. rewrite Proofs.TypeLit.alookup_eq. exact (Assoc.get_rev _ Order.bytes_eqbP m k ND). Qed.

Lemma map_swap_fst : forall m : list (bytes * bytes), map fst (map swap m) = map snd m.
Proof. exact (map_map swap fst). Qed.

(* AddType changes the table in one way only: a path that is not registered gets the name the tracker picks, at the
   end.  What that step keeps, every sequence of AddType calls keeps ([tr_add p] is [add_all [p]]). *)
Lemma add_all_inv : forall pick (I : TL.renv -> Prop),
  (forall p e n, TL.alookup p e = None -> pick p e = Some n -> I e -> I (e ++ [(p, n)])) ->
  forall ps e, I e -> I (add_all pick ps e).
Proof.
  intros pick I S. induction ps as [|p r IH]; intros e H; [exact H|]. apply IH. unfold TL.tr_add.
  destruct (TL.alookup p e) eqn:A; [exact H|]. destruct (pick p e) as [n|] eqn:E; [exact (S p e n A E H)|exact H].
Qed.

Section Concrete.
  Variable pre : list bytes.
  Variable std : option Tk.tracker.

  Notation cadd := (cadd pre std).
  Notation pick := (pick_c03 pre std).

  Lemma cadd_ok : forall tr p, Tk.add true pre std tr p = Ok (cadd tr p).
  Proof.
    intros tr p. unfold RenderStack.cadd. destruct (Proofs.Tracker.add_total true pre std tr p) as [tr' E]. rewrite E. reflexivity.
  Qed.

  (* a fold of [cadd] is C03's [add_all], i.e. a history of AddType calls *)
  Lemma fold_cadd_add_all : forall ps tr, Tk.add_all true pre std tr ps = Ok (fold_left cadd ps tr).
  Proof.
    induction ps as [|p r IH]; intros tr; [reflexivity|]. cbn [Tk.add_all fold_left].
    rewrite cadd_ok. cbn [bind]. apply IH.
  Qed.

  (* ---- C15's two hypotheses, for EVERY tracker state ---- *)

  Lemma fold_cadd_ext : forall qs tr p n,
    Tk.lookup p (Tk.p2n tr) = Some n -> Tk.lookup p (Tk.p2n (fold_left cadd qs tr)) = Some n.
  Proof. intros qs tr. exact (Proofs.Tracker.add_all_ext _ _ _ _ _ _ (fold_cadd_add_all qs tr)). Qed.

  Lemma cadd_ext : forall tr q p n,
    Tk.lookup p (Tk.p2n tr) = Some n -> Tk.lookup p (Tk.p2n (cadd tr q)) = Some n.
  Proof. intros tr q. exact (fold_cadd_ext [q] tr). Qed.

  Lemma cadd_bound : forall tr p, exists n, Tk.lookup p (Tk.p2n (cadd tr p)) = Some n.
  Proof. intros tr p. exact (proj1 (Proofs.Tracker.add_fixed_bound _ _ _ _ _ (cadd_ok tr p))). Qed.

  (* "stable names": a name handed out is not changed by later additions *)
  Lemma cadd_stable : forall tr p qs, cname (fold_left cadd qs (cadd tr p)) p = cname (cadd tr p) p.
  Proof.
    intros tr p qs. destruct (cadd_bound tr p) as [n L]. unfold cname, Tk.lookup_or_empty.
    rewrite (fold_cadd_ext qs _ _ _ L), L. reflexivity.
  Qed.

  (* "add registers exactly that path" *)
  Lemma cadd_registers : forall tr p q, In q (cpaths (cadd tr p)) <-> q = p \/ In q (cpaths tr).
  Proof. intros tr p q. exact (proj2 (Proofs.Tracker.add_fixed_bound _ _ _ _ _ (cadd_ok tr p)) q). Qed.

  Lemma cadd_fresh : forall tr p, Tk.lookup p (Tk.p2n tr) = None ->
    exists nm, cadd tr p = Tk.mk_tracker ((p, nm) :: Tk.p2n tr) ((nm, p) :: Tk.n2p tr)
               /\ Tk.lookup nm (Tk.n2p tr) = None /\ name_in pre nm = false
               /\ valid_name_b nm = true /\ lower_first nm.
  Proof.
    intros tr p L. destruct (Proofs.Tracker.add_char true pre std tr p) as (tr' & E & [(_ & j & B & _)|[_ F]]);
      [|destruct (F eq_refl L)].
    rewrite cadd_ok in E. injection E as <-. exists (Proofs.Tracker.cand_at true p j).
    destruct (Proofs.Tracker.bind_some _ _ _ _ _ _ B) as (_ & N & E).
    repeat split; [exact E|exact N|eapply Proofs.Tracker.bind_some_not_pre; eauto|apply Proofs.Tracker.cand_at_valid|..];
      apply (Proofs.Tracker.cand_at_pred true lower_first to_local_name_lower_first lower_first_num).
  Qed.

  Lemma cadd_registered : forall tr p n, Tk.lookup p (Tk.p2n tr) = Some n -> cadd tr p = tr.
  Proof.
    intros tr p n L. unfold RenderStack.cadd, Tk.add. rewrite L. reflexivity.
  Qed.

  Lemma pick_spec : forall p e n, pick p e = Some n ->
    TL.alookup p e = None /\
    cadd (tr_of e) p = Tk.mk_tracker ((p, n) :: rev e) ((n, p) :: map swap (rev e)) /\
    ~ In n (map snd e) /\ name_in pre n = false /\ valid_name_b n = true /\ lower_first n.
  Proof.
    intros p e n H. unfold pick_c03 in H. destruct (TL.alookup p e) eqn:A; [discriminate|].
    rewrite cadd_ok in H.
    destruct (cadd_fresh (tr_of e) p (lookup_rev_none _ _ A)) as (nm & E & N & NP & V & LF).
    rewrite E in H. cbn [Tk.p2n] in H. rewrite Proofs.Tracker.lookup_hd in H. inversion H; subst nm.
    split; [reflexivity|]. split; [exact E|]. split; [|auto].
    apply Proofs.Tracker.lookup_none_keys in N. cbn [tr_of Tk.n2p] in N. unfold keys in N.
    rewrite map_swap_fst, map_rev in N. intros Hin. apply N. apply in_rev. rewrite rev_involutive. exact Hin.
  Qed.

  Lemma pick_total : forall p e, TL.alookup p e = None -> pick p e <> None.
  Proof.
    intros p e A. unfold pick_c03. rewrite A, cadd_ok.
    destruct (cadd_bound (tr_of e) p) as [n L]. rewrite L. discriminate.
  Qed.

  Theorem tracker_hyps_c03 : Proofs.TypeLit.tracker_hyps pick.
  Proof.
    split; [|split].
    - intros p e n H. apply (pick_spec _ _ _ H).
    - intros p e n H. apply Proofs.Tracker.valid_name_nonempty. apply (pick_spec _ _ _ H).
    - exact pick_total.
  Qed.

  Theorem tracker_lower_case_c03 : Proofs.TypeLit.tracker_lower_case pick.
  Proof. intros p e n H. apply (pick_spec _ _ _ H). Qed.

  Theorem tracker_not_predeclared_c03 :
    (forall n, TLS.is_predeclared n = true -> In n pre) -> Proofs.TypeLit.tracker_not_predeclared pick.
  Proof.
    intros Hpre p e n H. destruct (TLS.is_predeclared n) eqn:E; [|reflexivity]. exfalso.
    destruct (pick_spec _ _ _ H) as (_ & _ & _ & NP & _).
    apply Hpre in E. apply Proofs.Tracker.name_in_spec in E. congruence.
  Qed.

  (* ---- the renv of C11 and the record of C03 move in lock step ---- *)

  Lemma tr_of_app1 : forall e p n,
    tr_of (e ++ [(p, n)]) = Tk.mk_tracker ((p, n) :: rev e) ((n, p) :: map swap (rev e)).
  Proof. intros e p n. unfold tr_of. rewrite rev_unit. reflexivity. Qed.

  Theorem tr_add_simulation : forall p e, tr_of (TL.tr_add pick p e) = cadd (tr_of e) p.
  Proof.
    intros p e. unfold TL.tr_add. destruct (TL.alookup p e) as [n|] eqn:A.
    - destruct (lookup_rev_some _ _ _ A) as [w L]. symmetry. exact (cadd_registered (tr_of e) p w L).
    - destruct (pick p e) as [n|] eqn:P; [|exfalso; exact (pick_total p e A P)].
      destruct (pick_spec _ _ _ P) as (_ & E & _). rewrite E. apply tr_of_app1.
  Qed.

  Lemma fold_tr_add_simulation : forall ps e,
    tr_of (fold_left (fun e p => TL.tr_add pick p e) ps e) = fold_left cadd ps (tr_of e).
  Proof.
    induction ps as [|p r IH]; intros e; [reflexivity|]. cbn [fold_left]. rewrite IH, tr_add_simulation. reflexivity.
  Qed.

  (* LocalNameOf agrees as soon as no path is registered twice (an invariant of [tr_add]) *)
  Lemma local_name_simulation : forall p e,
    NoDup (map fst e) -> TL.local_name_of p e = cname (tr_of e) p.
  Proof.
    intros p e ND. unfold TL.local_name_of, cname, Tk.lookup_or_empty. cbn [tr_of Tk.p2n].
    rewrite lookup_rev_nodup by exact ND. reflexivity.
  Qed.

  Lemma tr_add_nodup : forall p e, NoDup (map fst e) -> NoDup (map fst (TL.tr_add pick p e)).
  Proof.
    intros p. refine (add_all_inv pick (fun e => NoDup (map fst e)) _ [p]). intros q e n A _ ND.
    rewrite map_app. apply alookup_none_notin in A. apply Order.NoDup_app_one; assumption.
  Qed.
End Concrete.

(* C15's ParseTypeRef is the parser C11 assumes *)

Scheme tref_mind := Induction for TL.tref Sort Prop
  with trefs_mind := Induction for TL.trefs Sort Prop.
Combined Scheme tref_mutind from tref_mind, trefs_mind.

Lemma of15_eq : forall p n a, of15 (TR.TRef p n a) = TL.TRef p n (of15s a).
Proof. reflexivity. Qed.

Lemma of15_to15 :
  (forall t, of15 (to15 t) = t) /\ (forall l, of15s (to15s l) = l).
Proof.
  apply tref_mutind.
  - intros p n a IH. cbn [to15]. rewrite of15_eq, IH. reflexivity.
  - reflexivity.
  - intros t IHt r IHr. cbn [to15s of15s]. rewrite IHt, IHr. reflexivity.
Qed.

Lemma print_to15 :
  (forall t, TR.print (to15 t) = TL.tref_string t) /\
  (forall l, TR.join_comma (map TR.print (to15s l)) = TL.trefs_string l).
Proof.
  apply tref_mutind.
  - intros p n a IH. cbn [to15 TR.print TL.tref_string]. unfold TR.head_str. rewrite <- app_assoc. f_equal. f_equal.
    destruct a as [|t r]; [reflexivity|]. rewrite IH. reflexivity.
  - reflexivity.
  - intros t IHt r IHr. cbn [to15s map TR.join_comma TL.trefs_string]. rewrite IHt.
    destruct r as [|t2 r2]; [cbn; apply app_nil_r|]. rewrite <- IHr. reflexivity.
Qed.

(* the four delimiters of C15's grammar are not identifier characters *)
Lemma is_ident_char_ident_b : forall c, TL.is_ident_char c = true -> TR.ident_b c = true.
Proof.
  intros c H.
  assert (N : forall d, TL.is_ident_char d = false -> Ascii.eqb c d = false).
  { intros d Hd. destruct (Ascii.eqb_spec c d); [congruence|reflexivity]. }
  unfold TR.ident_b, TR.plain_b, TR.lbr, TR.rbr, TR.comma, TR.dot. rewrite !N by reflexivity. reflexivity.
Qed.

Lemma pkg_ok_plain : forall p, TLS.pkg_ok p = true -> forallb TR.plain_b p = true.
Proof.
  intros p H. unfold TLS.pkg_ok in H. apply andb_true_iff in H. destruct H as [_ H].
  rewrite forallb_forall in *. intros c Hc. specialize (H c Hc).
  unfold TR.plain_b, TR.lbr, TR.rbr, TR.comma. unfold TL.lbrack, TL.rbrack, TL.comma in H.
  apply negb_true_iff in H. apply orb_false_iff in H. destruct H as [H H3].
  apply orb_false_iff in H. destruct H as [H1 H2]. rewrite H1, H2, H3. reflexivity.
Qed.

Lemma tref_wf_wf :
  (forall t, Proofs.TypeLit.tref_wf t = true -> TR.wf_b (to15 t) = true) /\
  (forall l, Proofs.TypeLit.trefs_wf l = true -> forallb TR.wf_b (to15s l) = true).
Proof.
  apply tref_mutind.
  - intros p n a IH W. cbn [Proofs.TypeLit.tref_wf] in W.
    apply andb_true_iff in W. destruct W as [W Wa]. apply andb_true_iff in W. destruct W as [Wp Wn].
    cbn [to15 TR.wf_b]. rewrite (IH Wa), andb_true_r. apply andb_true_iff. split.
    + destruct p as [|c r]; [reflexivity|]. cbn [is_nil orb] in Wp. apply pkg_ok_plain, Wp.
    + unfold TL.is_ident in Wn. apply andb_true_iff in Wn. destruct Wn as [N1 N2].
      rewrite N1. cbn [andb]. rewrite forallb_forall in *. intros c Hc. apply is_ident_char_ident_b, N2, Hc.
  - reflexivity.
  - intros t IHt r IHr W. cbn [Proofs.TypeLit.trefs_wf] in W. apply andb_true_iff in W. destruct W as [W1 W2].
    cbn [to15s forallb]. rewrite (IHt W1), (IHr W2). reflexivity.
Qed.

Theorem parse_hyp_c15 : Proofs.TypeLit.parse_hyp parse_c15.
Proof.
  intros t W. unfold parse_c15, TR.parse_type_ref.
  rewrite <- (proj1 print_to15 t).
  rewrite (Proofs.TypeRef.roundtrip (to15 t) (proj1 tref_wf_wf t W) (S (length (TR.print (to15 t)))) (PeanoNat.Nat.lt_succ_diag_r _)).
  rewrite (proj1 of15_to15). reflexivity.
Qed.

Theorem the_tracker_hyps :
  Proofs.TypeLit.tracker_hyps the_pick /\ Proofs.TypeLit.tracker_not_predeclared the_pick /\ Proofs.TypeLit.tracker_lower_case the_pick.
Proof.
  split; [apply tracker_hyps_c03|]. split; [|apply tracker_lower_case_c03].
  apply tracker_not_predeclared_c03. exact Gengo.Proofs.StdTable.c11_predeclared_in_universe.
Qed.
