(* C18's reading of Dumper.TypeLit coincides with C11's model (Model/TypeLit.v) on the common domain. *)
Require Import Gengo.Base.Bytes.
Require Import Gengo.Model.GeneratorsTypes.
Require Gengo.Proofs.TypeLit Gengo.Model.RenderStack Gengo.Proofs.RenderStackTracker.
Require Import Gengo.Proofs.RenderStackLeaves Gengo.Proofs.RenderStackTypes.

Section Agree.
  Variable pick : bytes -> TL.renv -> option bytes.
  Variable parse_tref : bytes -> option TL.tref.
  Variable target : bytes.
  Variable can_backquote : bytes -> bool.
  Variable fx_tag : bool.
  Variable c : PS.cfg.

  (* C15: an identifier is a type reference without package and without type arguments *)
  Hypothesis Hparse : forall n, TL.is_ident n = true -> parse_tref n = Some (TL.TRef [] n TL.TRNil).
  (* C03: the tracker finds a name for a path it has not seen, and never the empty one *)
  Hypothesis pick_total : forall p e, TL.alookup p e = None -> pick p e <> None.
  Hypothesis pick_nonempty : forall p e n, TL.alookup p e = None -> pick p e = Some n -> n <> [].

  Notation tl := (TL.type_lit pick parse_tref target can_backquote (PS.fx_errlit c) fx_tag).
  Notation foreign := (fun p => negb (bytes_eqb p target)).
  Notation renders := (renders pick foreign).

  Lemma tl_iface_nil : forall e, tl (TL.VIface []) e = Ok (TL.ANamed [] (bs "any") TL.ANil, e).
  Proof.
    intros e. cbn [TL.type_lit]. replace (bytes_eqb [] (bs "error")) with false by reflexivity.
    rewrite andb_false_r. reflexivity.
  Qed.

  Lemma view18_renders : forall t, wf18 t = true ->
    renders (tl (view18 t)) (fun a => a) (PS.ty_pkgs t) (fun L => ast18 (fst (PS.type_lit L target c t))).
  Proof.
    induction t as [n| | |pkg name u ms|x IH|x IH|len x IH|k IHk v IHv|txt|ap an ar IHa]; intros Hwf; cbn [wf18] in Hwf.
    - apply (renders_ret _ (TL.raw_ast n)); [reflexivity|].
      intros L. unfold TL.raw_ast. rewrite Hwf. reflexivity.
    - apply (renders_ret _ _ tl_iface_nil). reflexivity.
    - apply (renders_ret _ (TL.ANamed [] (if PS.fx_errlit c then bs "error" else bs "any") TL.ANil)); [|reflexivity].
      intros e. cbn [view18 TL.type_lit]. rewrite bytes_eqb_refl, andb_true_r. destruct (PS.fx_errlit c); reflexivity.
    - apply andb_true_iff in Hwf.
      apply (renders_named pick_total pick_nonempty Hparse); [reflexivity|apply Hwf|].
      intros L. cbn [PS.type_lit]. destruct (bytes_eqb pkg target); reflexivity.
    - refine (renders_map _ TL.AStar _ (IH Hwf)).
      intros a L ->. cbn [PS.type_lit]. destruct (PS.type_lit L target c x). reflexivity.
    - refine (renders_map _ TL.ASlice _ (IH Hwf)).
      intros a L ->. cbn [PS.type_lit]. destruct (PS.type_lit L target c x). reflexivity.
    - refine (renders_map _ (TL.AArray len) _ (IH Hwf)).
      intros a L ->. cbn [PS.type_lit]. destruct (PS.type_lit L target c x). reflexivity.
    - (* map: the key is rendered first, the tracker state flows into the element *)
      apply andb_true_iff in Hwf.
      refine (renders_seq pick_total pick_nonempty _ _ TL.AMap _ (IHk (proj1 Hwf)) (IHv (proj2 Hwf))).
      intros ak av L -> ->. cbn [PS.type_lit]. destruct (PS.type_lit L target c k), (PS.type_lit L target c v). reflexivity.
    - apply (renders_ret _ _ tl_iface_nil). reflexivity.
    - (* alias: both readings go to the right-hand side *)
      exact (IHa Hwf).
  Qed.

  Definition agrees18 (t : PS.ty) (e : TL.renv) : Prop :=
    exists a e' suf,
      tl (view18 t) e = Ok (a, e') /\ e' = e ++ suf /\ env_ok e' /\
      (forall p, In p (foreign18 target t) -> TL.alookup p e' <> None) /\
      (forall p, TL.alookup p e' <> None -> TL.alookup p e <> None \/ In p (foreign18 target t)) /\
      (forall L, (forall p, In p (foreign18 target t) -> L p = TL.local_name_of p e') ->
                 a = ast18 (fst (PS.type_lit L target c t))).

  Theorem type_lit_agree : forall t, wf18 t = true -> forall e, env_ok e -> agrees18 t e.
  Proof.
    intros t Hwf e He. destruct (view18_renders t Hwf e He) as (a & Ea & Sa).
    destruct (add_all_ext pick (foreign18 target t) e) as [suf Es].
    exists a, (RenderStack.add_all pick (foreign18 target t) e), suf. split; [exact Ea|]. split; [exact Es|].
    split; [exact (add_all_found_ok pick pick_nonempty _ e He)|].
    split; [intros p; apply (add_all_bound pick pick_total)|]. split; [apply (add_all_only pick pick_total)|exact Sa].
  Qed.
End Agree.

(* the hypotheses in C11's own vocabulary (Proofs/TypeLit.v), and discharged by C03's tracker and C15's parser *)
Theorem type_lit_agree_c11 : forall pick parse_tref target can_backquote fx_tag c,
  Gengo.Proofs.TypeLit.tracker_hyps pick -> Gengo.Proofs.TypeLit.parse_hyp parse_tref ->
  forall t, wf18 t = true -> forall e, env_ok e -> agrees18 pick parse_tref target can_backquote fx_tag c t e.
Proof.
  intros pick parse_tref target cbq fx_tag c [_ [Hne Hsome]] Hparse.
  exact (type_lit_agree pick parse_tref target cbq fx_tag c (parse_hyp_ident parse_tref Hparse) Hsome (fun p e n _ => Hne p e n)).
Qed.

Theorem type_lit_agree_concrete : forall pre std target can_backquote fx_tag c,
  forall t, wf18 t = true -> forall e, env_ok e ->
    agrees18 (Gengo.Model.RenderStack.pick_c03 pre std) Gengo.Model.RenderStack.parse_c15 target can_backquote fx_tag c t e.
Proof.
  intros pre std target cbq fx_tag c. apply type_lit_agree_c11.
  - apply Gengo.Proofs.RenderStackTracker.tracker_hyps_c03.
  - apply Gengo.Proofs.RenderStackTracker.parse_hyp_c15.
Qed.

(* non-vacuity: map[string]origin.Inner through the empty tracker state *)
Lemma type_lit_agree_example :
  let t := PS.TMap (PS.TBasic (bs "string")) (PS.TNamed (bs "example.com/m/origin") (bs "Inner") PS.UStruct []) in
  wf18 t = true /\ env_ok [] /\
  exists e', TL.type_lit Gengo.Model.RenderStack.the_pick Gengo.Model.RenderStack.parse_c15 (bs "example.com/m/target") (fun _ => true) true true (view18 t) []
             = Ok (ast18 (PS.OMap (PS.OIdent (bs "string")) (PS.OSel (bs "origin") (bs "Inner"))), e')
             /\ TL.local_name_of (bs "example.com/m/origin") e' = bs "origin".
Proof.
  cbn zeta. split; [reflexivity|]. split; [intros p n H; discriminate|].
  eexists. split; vm_compute; reflexivity.
Qed.
