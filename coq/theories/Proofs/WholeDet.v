(* Agreement of two models of the same Go code (gengo.Execute end to end):
     Model/Determinism.v  (C04: every map range taken from an order oracle; generators as functions of the call list)
     Model/Pipeline.v     (C07/C05/C02) under whole_env
   For every order oracle [o] that is a rearrangement of positions ([natural]), Determinism.run on the input derived
   from the pipeline's input (Model/WholeDet.v) — taking the one order the pipeline leaves open (the sync.Map of
   retained genfiles) from [o] — succeeds exactly when Pipeline.exec does, with the same content at every path, the
   same gengo.sum bytes and the same call log.
   The hypotheses [pkg_wf] and [world_wf] of these theorems in Props/C04.v and Props/Whole.v are DEFINED here: what Go
   maps and go/types guarantee of the pipeline's input. *)
Require Import Gengo.Base.Bytes Gengo.Model.Pipeline Gengo.Model.Whole Gengo.Model.WholeDet.
Require Import Gengo.Proofs.Pipeline Gengo.Proofs.PipelinePkg Gengo.Proofs.WholeTrace Gengo.Proofs.WholeSum.
Require Gengo.Base.Order Gengo.Base.Assoc Gengo.Model.Dispatch Gengo.Proofs.Dispatch Gengo.Model.SumFile Gengo.Proofs.SumFile Gengo.Proofs.Determinism.
From Coq Require Import Permutation PeanoNat.

Module D := Gengo.Model.Dispatch.

Lemma only_gfs_shuffles : forall o, Det.shuffles o -> Det.shuffles (only_gfs o).
Proof. intros o Hs A site l. unfold only_gfs. destruct (is_gfs_site site); [apply Hs | apply Permutation_refl]. Qed.

Lemma only_gfs_other : forall (o : Det.oracle) A k site (l : list A),
  bytes_eqb k gfs_site = false -> only_gfs o A (k :: site) l = l.
Proof. intros o A k site l H. unfold only_gfs. cbn [is_gfs_site]. rewrite H. reflexivity. Qed.

Lemma aset_dt : forall m k v, Det.aset k (concat v) (dt m) = dt (D.map_set k v m).
Proof.
  intros m k v. unfold dt. rewrite Proofs.Determinism.aset_eq, (Assoc.set_map bytes_eqb (@concat ascii) k v m).
  now rewrite (Assoc.set_ext _ (fun a b => bytes_eqb b a) Order.bytes_eqb_sym).
Qed.

Lemma fold_aset_dt : forall t m,
  fold_left (fun m kv => Det.aset (fst kv) (snd kv) m) (dt t) (dt m) = dt (D.merge_into m t).
Proof.
  intros t m. symmetry. apply (Order.fold_left_sim dt (fun kv => (fst kv, concat (snd kv)))).
  intros s x. symmetry. apply aset_dt.
Qed.

Lemma merge_dt : forall o site G P T,
  Det.merge (only_gfs o) site (dt G) (dt P) (dt T) = dt (D.merge [G; P; T]).
Proof.
  intros o site G P T. unfold Det.merge, Det.set_all, D.merge. cbn [fold_left].
  rewrite !only_gfs_other by reflexivity.
  change (@nil (bytes * bytes)%type) with (dt []) at 1. rewrite !fold_aset_dt. reflexivity.
Qed.

Lemma enabled_loop_dt : forall prefix t en, Det.enabled_loop prefix (dt t) en = D.enabled_loop prefix t en.
Proof.
  intros prefix. induction t as [|[k v] r IH]; intros en; cbn; [reflexivity|].
  destruct (bytes_eqb k prefix); [reflexivity|].
  fold (dt r). replace (Det.has_prefix (prefix ++ [":"%char]) k) with (D.has_prefix (prefix ++ [":"%char]) k) by reflexivity.
  destruct (D.has_prefix (prefix ++ [":"%char]) k); apply IH.
Qed.

Lemma enabled_dt : forall o site g t, Det.enabled (only_gfs o) site g (dt t) = D.is_generator_enabled g t.
Proof.
  intros o site g t. unfold Det.enabled, D.is_generator_enabled, D.gengo_prefix.
  rewrite only_gfs_other by reflexivity. apply enabled_loop_dt.
Qed.

Lemma merge_into_fresh : forall t m, NoDup (D.keys m ++ D.keys t) -> D.merge_into m t = m ++ t.
Proof.
  intros t m H. rewrite <- (Proofs.Determinism.map_pair_eta t) at 2. exact (Assoc.sets_fresh _ Assoc.bytes_eqbP' fst snd t m H).
Qed.

Lemma pkg_tags_dt : forall o p, NoDup (D.keys (pk_tags p)) -> Det.pkg_tags (only_gfs o) (det_pkg p) = dt (pk_tags p).
Proof.
  intros o p Hnd. unfold Det.pkg_tags, Det.set_all. cbn [det_pkg Det.pk_filetags fold_left fst snd Det.pk_path].
  rewrite only_gfs_other by reflexivity.
  change (@nil (bytes * bytes)%type) with (dt []) at 1. rewrite fold_aset_dt.
  rewrite merge_into_fresh; [reflexivity | exact Hnd].
Qed.

Lemma keys_dt : forall t, Det.keys (dt t) = D.keys t.
Proof. intros t. unfold Det.keys, D.keys, dt. rewrite map_map. reflexivity. Qed.

Lemma sort_names {A} (key : A -> bytes) : forall l,
  Det.sort_strings (map key l) = map key (Pipeline.sort_by key l).
Proof.
  intros l. unfold Det.sort_strings. rewrite Proofs.Determinism.sort_by_eq, sort_by_eq. apply (Order.sort_by_map key). reflexivity.
Qed.

(* well-formedness of the pipeline's input (what Go maps and go/types guarantee) *)
Record pkg_wf (p : pkginfo) : Prop := {
  pw_names : NoDup (map ty_name (pk_types p));
  pw_tags : NoDup (D.keys (pk_tags p));
  pw_tytags : forall t, In t (pk_types p) -> NoDup (D.keys (ty_tags t))
}.
Definition world_wf (w : world) : Prop :=
  NoDup (map pk_path (w_pkgs w)) /\ forall p, In p (w_pkgs w) -> pkg_wf p.

Lemma det_tdefs_pkgscope : forall tys, filter Det.td_pkgscope (map det_tdef tys) = map det_tdef tys.
Proof. induction tys as [|t r IH]; cbn; [reflexivity|]. f_equal. exact IH. Qed.

Lemma det_pkg_wf : forall p, pkg_wf p -> Proofs.Determinism.wf_pkg (det_pkg p).
Proof.
  intros p [Hn Ht Htt]. constructor; cbn [det_pkg Det.pk_defs Det.pk_filetags Det.pk_meths].
  - rewrite det_tdefs_pkgscope, map_map. exact Hn.
  - constructor; [|constructor]. cbn [snd]. fold (Det.keys (dt (pk_tags p))). rewrite keys_dt. exact Ht.
  - apply Forall_forall. intros d Hd. apply in_map_iff in Hd. destruct Hd as [t [<- Hin]].
    cbn [det_tdef Det.td_tags]. fold (Det.keys (dt (ty_tags t))). rewrite keys_dt. apply Htt. exact Hin.
  - constructor.
Qed.

Lemma det_world_wf : forall w, world_wf w -> Proofs.Determinism.wf_world (det_world w).
Proof.
  intros w [Hnd Hp]. constructor; cbn [det_world Det.w_pkgs].
  - rewrite map_map. exact Hnd.
  - apply Forall_forall. intros dp Hdp. apply in_map_iff in Hdp. destruct Hdp as [p [<- Hin]].
    apply det_pkg_wf. apply Hp. exact Hin.
Qed.

Definition call_of (t : tyinfo) : Det.call :=
  Det.mk_call (match ty_kind t with KAlias => Det.CAlias | _ => Det.CType end) (ty_name t) 0.

Section Agree.
  Variable fmt : bytes -> option bytes.
  Variable G : tags.
  Variable o : Det.oracle.
  Variable rk : pkginfo -> bytes -> nat.
  Variable a : args.
  Variable w : world.
  Hypothesis Hw : world_wf w.
  Hypothesis Hs : Det.shuffles o.
  Hypothesis Hnat : natural o.

  Let E := whole_env fmt (order_of o) rk G.
  Notation o' := (only_gfs o).
  Notation a' := (det_args G a).

  Lemma table_same : forall p, pkg_wf p ->
    Det.type_table true o' (det_pkg p) = map (fun t => (ty_name t, det_tdef t)) (pk_types p).
  Proof.
    intros p Hp. rewrite (Proofs.Determinism.type_table_eq o' (det_pkg p) (only_gfs_shuffles o Hs) (det_pkg_wf p Hp)).
    cbn [det_pkg Det.pk_defs Det.pk_path].
    rewrite only_gfs_other, det_tdefs_pkgscope, map_map; reflexivity.
  Qed.

  Lemma lookup_table : forall tys t, NoDup (map ty_name tys) -> In t tys ->
    Det.lookup (ty_name t) (map (fun t => (ty_name t, det_tdef t)) tys) = Some (det_tdef t).
  Proof.
    intros tys t Hnd Hin. apply Proofs.Determinism.lookup_In.
    - unfold Det.keys. rewrite map_map. exact Hnd.
    - apply (in_map (fun t => (ty_name t, det_tdef t))). exact Hin.
  Qed.

  (* Doc + IsGeneratorEnabled + the kind switch: the same decision *)
  Lemma dispatch_one_same : forall p g t,
    Det.dispatch_one o' a' (det_pkg p) (dt (pk_tags p)) (det_gen w g) (det_tdef t)
    = if should_call E g p t then [call_of t] else [].
  Proof.
    intros p g t. unfold Det.dispatch_one, should_call, call_of.
    cbn [det_tdef Det.td_kind Det.td_name Det.td_uid Det.td_tags det_args Det.a_globals det_gen Det.g_name Det.g_alias].
    rewrite merge_dt, enabled_dt.
    change (e_enabled E (g_name g) p t) with (D.is_generator_enabled (g_name g) (D.merge [G; pk_tags p; ty_tags t])).
    destruct (ty_kind t); cbn [dkind]; destruct (D.is_generator_enabled (g_name g) (D.merge [G; pk_tags p; ty_tags t]));
      cbn [andb]; try reflexivity; destruct (g_alias g); reflexivity.
  Qed.

  Lemma dispatch_same : forall p g, pkg_wf p ->
    Det.dispatch true o' a' (det_pkg p) (dt (pk_tags p)) (det_gen w g)
    = map call_of (filter (should_call E g p) (sort_by ty_name (pk_types p))).
  Proof.
    intros p g Hp. unfold Det.dispatch. rewrite (table_same p Hp).
    rewrite only_gfs_other by reflexivity. unfold Det.keys. rewrite map_map. cbn [fst]. rewrite (sort_names ty_name).
    assert (Hsub : forall t, In t (sort_by ty_name (pk_types p)) -> In t (pk_types p))
      by (intros t Ht; apply (sort_by_In ty_name); exact Ht).
    induction (sort_by ty_name (pk_types p)) as [|t r IH]; cbn [map flat_map filter]; [reflexivity|].
    rewrite (lookup_table (pk_types p) t (pw_names p Hp) (Hsub t (or_introl eq_refl))).
    rewrite (dispatch_one_same p g t), IH by (intros x Hx; apply Hsub; right; exact Hx).
    destruct (should_call E g p t); reflexivity.
  Qed.

  Lemma find_ty_in : forall tys t, NoDup (map ty_name tys) -> In t tys -> find_ty (ty_name t) tys = Some t.
  Proof. apply (Assoc.find_unfold _ ty_name Assoc.bytes_eqbP' find_ty). intros k [|y r]; reflexivity. Qed.

  Lemma tys_of_calls_same : forall p tys', pkg_wf p -> (forall t, In t tys' -> In t (pk_types p)) ->
    tys_of_calls p (map call_of tys') = tys'.
  Proof.
    intros p tys' Hp. unfold tys_of_calls. induction tys' as [|t r IH]; intros Hsub; cbn [map flat_map]; [reflexivity|].
    cbn [call_of Det.c_name]. rewrite (find_ty_in (pk_types p) t (pw_names p Hp) (Hsub t (or_introl eq_refl))).
    cbn [app]. rewrite IH by (intros x Hx; apply Hsub; right; exact Hx). reflexivity.
  Qed.

  Lemma call_loop_filter : forall (E0 : env) g p tys st, e_fixed E0 = true ->
    call_loop E0 g p st tys = call_loop env_all g p st (filter (should_call E0 g p) tys).
  Proof.
    intros E0 g p tys st Hfix. revert st. induction tys as [|t r IH]; intros st; cbn [filter call_loop]; [reflexivity|].
    destruct (should_call E0 g p t) eqn:Hsc; [|apply IH].
    assert (Hall : should_call env_all g p t = true).
    { unfold should_call in *. cbn [e_enabled env_all]. destruct (ty_kind t); [reflexivity| |discriminate Hsc].
      apply andb_true_iff in Hsc. destruct Hsc as [_ Ha]. rewrite Ha. reflexivity. }
    cbn [call_loop]. rewrite Hall. destruct (g_type g st p t) as [st' out].
    unfold sets_ignore. rewrite Hfix. cbn [e_fixed env_all]. rewrite !IH. reflexivity.
  Qed.

  Lemma gen_run_session : forall g p,
    gen_run E g p = session env_all g p (filter (should_call E g p) (sort_by ty_name (pk_types p))).
  Proof. intros g p. unfold gen_run, session. rewrite (call_loop_filter E g p _ _ eq_refl). reflexivity. Qed.

  Lemma g_run_same : forall p g mv, In p (w_pkgs w) ->
    Det.g_run (det_gen w g) (det_pkg p) mv (Det.dispatch true o' a' (det_pkg p) (dt (pk_tags p)) (det_gen w g))
    = Det.mk_genout (negb (is_done (go_out (gen_run E g p)))) (go_ignore (gen_run E g p)) (go_body (gen_run E g p)) [].
  Proof.
    intros p g mv Hin. destruct Hw as [Hnd Hpw]. pose proof (Hpw p Hin) as Hp.
    rewrite (dispatch_same p g Hp). cbn [Det.g_run det_gen det_pkg Det.pk_path].
    rewrite (find_pkg_in w p Hnd Hin).
    rewrite tys_of_calls_same; [| exact Hp |].
    - rewrite <- gen_run_session. reflexivity.
    - intros t Ht. apply filter_In in Ht. apply (sort_by_In ty_name). apply Ht.
  Qed.

  Lemma flat_log_app : forall l1 l2, flat_log (l1 ++ l2) = flat_log l1 ++ flat_log l2.
  Proof. intros. unfold flat_log. apply flat_map_app. Qed.
  Lemma flat_trace_app : forall l1 l2, flat_trace (l1 ++ l2) = flat_trace l1 ++ flat_trace l2.
  Proof. intros. unfold flat_trace. apply flat_map_app. Qed.

  (* what the call log says about one session that came back with Done *)
  Lemma call_loop_flat : forall (E0 : env) g p tys st, ro_out (call_loop E0 g p st tys) = Done ->
    flat_trace (ro_trace (call_loop E0 g p st tys))
    = map (fun t => (pk_path p, g_name g, ty_name t)) (filter (should_call E0 g p) tys).
  Proof.
    intros E0 g p tys. induction tys as [|t r IH]; intros st Hd; cbn [call_loop filter] in *; [reflexivity|].
    destruct (should_call E0 g p t); [|apply IH; exact Hd].
    destruct (g_type g st p t) as [st' out]. destruct (so_res out); cbn [ro_out ro_trace] in *; try discriminate Hd;
      cbn [flat_trace flat_map map app]; f_equal; apply IH; exact Hd.
  Qed.

  Lemma defer_loop_flat : forall fuel g p ids st, flat_trace (ro_trace (defer_loop fuel g p st ids)) = [].
  Proof.
    intros fuel g p. induction fuel as [|f IH]; intros ids st; (destruct ids as [|i r]; cbn [defer_loop]; [reflexivity|]);
      [reflexivity|].
    destruct (g_defer g st p i) as [st' out]. destruct (so_res out); cbn [ro_trace flat_trace flat_map app]; try reflexivity.
    apply IH.
  Qed.

  Lemma gen_run_flat : forall g p, go_out (gen_run E g p) = Done ->
    flat_trace (go_trace (gen_run E g p))
    = map (fun t => (pk_path p, g_name g, ty_name t)) (filter (should_call E g p) (sort_by ty_name (pk_types p))).
  Proof.
    intros g p Hd. unfold gen_run in *.
    destruct (ro_out (call_loop E g p (g_new g p) (sort_by ty_name (pk_types p)))) eqn:Hc; cbn [go_out go_trace] in *;
      try discriminate Hd.
    rewrite flat_trace_app, (call_loop_flat E g p _ _ Hc), defer_loop_flat. apply app_nil_r.
  Qed.

  Definition proj (kv : bytes * Det.genout) : bytes * bytes := (fst kv, Det.go_body (snd kv)).
  Definition no_imports (kv : bytes * Det.genout) : Prop := Det.go_imports (snd kv) = [].

  (* Determinism's generator loop, write loop and package loop are taken in the closed forms of Proofs/Determinism.v
     (gens_loop_spec, write_loop_spec, pkgs_loop_spec: every entry succeeds, and then what the entries yield, in order)
     and compared with the pipeline's loops entry by entry *)
  Definition gfs_rel (gfsD : Det.alist Det.genout) (gfs : list (bytes * bytes)) : Prop :=
    map proj gfsD = gfs /\ Forall no_imports gfsD.

  Lemma gens_agree : forall p, In p (w_pkgs w) -> forall gs,
    if forallb (Proofs.Determinism.g_ok o' a' (det_pkg p) (dt (pk_tags p))) (map (det_gen w) gs)
    then snd (gen_phase E gs p) = Done
         /\ gfs_rel (flat_map (Proofs.Determinism.g_entry o' a' (det_pkg p) (dt (pk_tags p))) (map (det_gen w) gs))
                    (fst (fst (gen_phase E gs p)))
         /\ flat_log (flat_map (Proofs.Determinism.g_log o' a' (det_pkg p) (dt (pk_tags p))) (map (det_gen w) gs))
            = flat_trace (snd (fst (gen_phase E gs p)))
    else snd (gen_phase E gs p) <> Done.
  Proof.
    intros p Hin. induction gs as [|g r IH].
    { split; [reflexivity|]. split; [split; [reflexivity | constructor] | reflexivity]. }
    cbn [map forallb flat_map]. rewrite gen_phase_cons. cbv zeta.
    unfold Proofs.Determinism.g_ok at 1, Proofs.Determinism.g_entry at 1, Proofs.Determinism.g_log at 1, Det.gen_one.
    rewrite (g_run_same p g _ Hin).
    cbn [Det.go_err Det.go_body Det.go_ignore Det.g_name det_gen Det.pk_path det_pkg].
    destruct (go_out (gen_run E g p)) eqn:Hgo; cbn [is_done negb andb]; [|cbn; discriminate..].
    destruct (forallb _ (map (det_gen w) r)); [|exact IH].
    destruct IH as [Hd [Hg Hlog]]. split; [exact Hd|]. cbn [fst snd]. split.
    - change (is_nil (go_body (gen_run E g p)) && negb (go_ignore (gen_run E g p))) with (is_zero (gen_run E g p)).
      destruct (is_zero (gen_run E g p)); [exact Hg|]. destruct Hg as [<- Hni].
      split; [reflexivity | constructor; [reflexivity | exact Hni]].
    - rewrite flat_log_app, flat_trace_app, Hlog. f_equal.
      unfold flat_log. cbn [flat_map fst snd]. rewrite app_nil_r.
      destruct Hw as [_ Hpw]. rewrite (dispatch_same p g (Hpw p Hin)), map_map. symmetry. apply gen_run_flat. exact Hgo.
  Qed.

  Definition frel (f : Det.fs) (s : fs) : Prop := forall q, f q = fs_lookup q s.
  Definition erel (esD : list Det.effect) (esP : list effect) : Prop :=
    forall f s, frel f s -> frel (Det.apply esD f) (apply_all esP s).

  Lemma erel_nil : erel [] [].
  Proof. intros f s H. exact H. Qed.

  Lemma erel_app : forall d1 p1 d2 p2, erel d1 p1 -> erel d2 p2 -> erel (d1 ++ d2) (p1 ++ p2).
  Proof. intros d1 p1 d2 p2 H1 H2 f s H. rewrite Proofs.Determinism.apply_app, apply_all_app. apply H2, H1, H. Qed.

  Lemma erel_write : forall q b, erel [Det.EWrite q b] (write_effects q b).
  Proof.
    intros q b f s H q'. cbn [Det.apply fold_left Det.apply1]. rewrite apply_write_effects. unfold write_file_fs.
    destruct (Det.path_eqb q' q) eqn:Heq.
    - apply path_eqb_spec in Heq. subst q'. rewrite lookup_set_same. reflexivity.
    - apply path_eqb_neq in Heq. rewrite !lookup_set_other by exact Heq. apply H.
  Qed.

  Lemma apply_all_removes : forall ps s q,
    fs_lookup q (apply_all (map ERemove ps) s) = if existsb (Pipeline.path_eqb q) ps then None else fs_lookup q s.
  Proof.
    induction ps as [|x r IH]; intros s q; [reflexivity|]. cbn [map existsb].
    rewrite apply_all_cons, IH. cbn [apply_effect]. destruct (Pipeline.path_eqb q x) eqn:Heq.
    - apply path_eqb_spec in Heq. subst x. cbn [orb]. rewrite lookup_del_same.
      destruct (existsb (Pipeline.path_eqb q) r); reflexivity.
    - cbn [orb]. apply path_eqb_neq in Heq. rewrite lookup_del_other by exact Heq. reflexivity.
  Qed.

  Lemma erel_removes : forall psD psP, (forall q, In q psD <-> In q psP) ->
    erel (map Det.ERemove psD) (map ERemove psP).
  Proof.
    intros psD psP Hiff f s H q. rewrite Proofs.Determinism.apply_removes, apply_all_removes.
    rewrite (Order.existsb_ext_in (Det.path_eqb q) psD psP Hiff). rewrite H. reflexivity.
  Qed.

  (* both write one file, or none, per entry; the pipeline also says which entry did not parse *)
  Lemma write_agree : forall p l rem, Forall no_imports l ->
    match snd (write_loop E a p (map proj l) rem) with
    | None => forallb (Proofs.Determinism.wl_ok (det_render fmt) o' (det_pkg p)) l = true
              /\ erel (flat_map (Proofs.Determinism.wl_eff (det_render fmt) o' a' (det_pkg p)) l)
                      (fst (fst (write_loop E a p (map proj l) rem)))
    | Some _ => forallb (Proofs.Determinism.wl_ok (det_render fmt) o' (det_pkg p)) l = false
    end.
  Proof.
    intros p. induction l as [|[n out] r IH]; intros rem Hni.
    { split; [reflexivity | apply erel_nil]. }
    apply Forall_cons_iff in Hni. destruct Hni as [Hn Hni']. unfold no_imports in Hn. cbn [snd] in Hn.
    specialize (IH (strike (fname a n) rem) Hni').
    cbn [map forallb flat_map]. change (proj (n, out)) with (n, Det.go_body out). rewrite write_loop_cons. cbv zeta.
    unfold Proofs.Determinism.wl_ok at 1 3, Proofs.Determinism.wl_eff at 1. cbn [fst snd].
    destruct (is_nil (Det.go_body out)); [exact IH|]. cbn [orb].
    unfold Det.mk_file. rewrite Hn.
    change (det_render fmt (Det.mk_gfile (Det.pk_name (det_pkg p)) n
              (Det.sorted_entries o' [bs "imports"; Det.pk_path (det_pkg p); n] []) (Det.go_body out)))
      with (e_fmt E (assemble (pk_name p) n (Det.go_body out))).
    destruct (e_fmt E (assemble (pk_name p) n (Det.go_body out))) as [b|]; [|reflexivity]. cbn [fst snd andb].
    destruct (snd (write_loop E a p (map proj r) (strike (fname a n) rem))); [exact IH|].
    destruct IH as [Hok Her]. split; [exact Hok|]. exact (erel_app [_] _ _ _ (erel_write _ b) Her).
  Qed.

  Lemma prefix_same : forall x y, Det.has_prefix x y = prefixb x y.
  Proof. reflexivity. Qed.

  (* Determinism's package step and package loop fail with None; the pipeline's return an outcome *)
  Definition run_rel (D : option (list Det.effect * Det.calllog)) (R : list effect * trace * outcome) : Prop :=
    match D with
    | None => snd R <> Done
    | Some (es, log) => snd R = Done /\ erel es (fst (fst R)) /\ flat_log log = flat_trace (snd (fst R))
    end.

  Variable gens : list generator.
  Hypothesis Hgn : NoDup (map g_name gens).

  (* what is left of generatedFiles is removed, each side in its own map order: on both sides these are the listed files
     named <base>.* that no retained genfile is named like (stale_of_In, wrote_left) *)
  Lemma erel_stale : forall p gfs l effs rem, (forall x, In x l <-> In x gfs) ->
    wrote E a p (map proj l) (generated_files a p) effs rem None ->
    erel (map (fun kv => Det.ERemove (snd kv)) (Proofs.Determinism.stale_of o' a' (det_pkg p) gfs))
         (map (fun f => ERemove (pk_dir p, f)) (removal_order E p rem)).
  Proof.
    intros p gfs l effs rem Hl Hwr.
    assert (Hk : forall k, In k rem <-> (In k (pk_files p) /\ Proofs.Determinism.is_gen_name a' k = true)
                                       /\ forall g, In g (Det.keys gfs) -> k <> fname a g).
    { intros k. rewrite (wrote_left E Hwr k). unfold generated_files. rewrite filter_In, map_map. apply and_iff_compat_l.
      split.
      - intros H g Hg Hkg. apply in_map_iff in Hg. destruct Hg as [x [<- Hx]]. apply H, in_map_iff. exists x.
        split; [symmetry; exact Hkg | apply Hl, Hx].
      - intros H Hin. apply in_map_iff in Hin. destruct Hin as [x [Hx Hin]].
        exact (H (fst x) (in_map fst _ _ (proj1 (Hl x) Hin)) (eq_sym Hx)). }
    rewrite <- (map_map snd Det.ERemove), <- (map_map (fun f => (pk_dir p, f)) ERemove).
    apply erel_removes. intros q. unfold removal_order. rewrite !in_map_iff. split.
    - intros [[k v] [<- Hkv]]. apply Proofs.Determinism.stale_of_In in Hkv; [|exact (only_gfs_shuffles o Hs)].
      destruct Hkv as [-> Hkv]. exists k. split; [reflexivity | apply rank_sort_In, Hk, Hkv].
    - intros [k [<- Hkr]]. apply rank_sort_In, Hk in Hkr. exists (k, (pk_dir p, k)). split; [reflexivity|].
      apply Proofs.Determinism.stale_of_In; [exact (only_gfs_shuffles o Hs) | split; [reflexivity | exact Hkr]].
  Qed.

  Lemma pkg_agree : forall p, In p (w_pkgs w) ->
    run_rel (Det.pkg_execute true true (det_render fmt) o' a' (map (det_gen w) gens) (det_pkg p)) (pkg_effects E a gens p).
  Proof.
    intros p Hin. destruct Hw as [_ Hpw]. pose proof (Hpw p Hin) as Hp.
    rewrite Proofs.Determinism.pkg_execute_spec, Proofs.Determinism.gens_loop_spec, pkg_effects_eq, (pkg_tags_dt o p (pw_tags p Hp)).
    cbv zeta. pose proof (gens_agree p Hin gens) as Hg.
    destruct (forallb _ (map (det_gen w) gens)).
    2:{ destruct (snd (gen_phase E gens p)); [exfalso; apply Hg; reflexivity | cbn; discriminate..]. }
    rewrite (Proofs.Determinism.fold_aset_nodup fst snd), Proofs.Determinism.map_pair_eta
      by (apply Proofs.Determinism.g_entry_keys; rewrite map_map; exact Hgn).
    destruct Hg as [Hd [[Hm Hni] Hlog]]. rewrite Hd, <- Hm. cbn [app option_map].
    set (added := flat_map _ (map (det_gen w) gens)) in *.
    unfold Proofs.Determinism.finish, Proofs.Determinism.finish_effects.
    change (only_gfs o (bytes * Det.genout)%type [bs "gfs"; Det.pk_path (det_pkg p)] added)
      with (o (bytes * Det.genout)%type [gfs_site; pk_path p] added).
    change (e_order E p (map proj added)) with (o (bytes * bytes)%type [gfs_site; pk_path p] (map proj added)).
    rewrite (Hnat _ _ proj). set (l := o (bytes * Det.genout)%type [gfs_site; pk_path p] added).
    assert (Hl : forall x, In x l <-> In x added) by (intros x; apply Proofs.Determinism.shuffled_In, Hs).
    assert (Hni' : Forall no_imports l) by (rewrite Forall_forall in *; intros x Hx; apply Hni, Hl, Hx).
    pose proof (write_agree p l (generated_files a p) Hni') as Hwr.
    pose proof (write_loop_wrote E a p (map proj l) (generated_files a p)) as Hwp.
    destruct (snd (write_loop E a p (map proj l) (generated_files a p))); [rewrite Hwr; cbn; discriminate|].
    destruct Hwr as [-> Her]. split; [reflexivity|]. split; [|exact Hlog].
    exact (erel_app _ _ _ _ Her (erel_stale p added l _ _ Hl Hwp)).
  Qed.

  Lemma det_sum_get : forall k m, Det.sum_get k m = Pipeline.sum_get m k.
  Proof.
    intros k m. unfold Det.sum_get. now rewrite sum_get_eq, Proofs.Determinism.lookup_eq, (Assoc.get_ext _ _ Order.bytes_eqb_sym).
  Qed.

  Lemma det_changed : forall prev p,
    Det.pkg_changed a' prev (current_sum w) (pk_path p) = pkg_changed a w prev p.
  Proof.
    intros prev p. unfold Det.pkg_changed, pkg_changed. cbn [det_args Det.a_force].
    destruct (a_force a); [reflexivity|]. destruct prev as [pv|]; [|reflexivity]. rewrite !det_sum_get. reflexivity.
  Qed.

  Lemma det_find_pkg : forall p, In p (w_pkgs w) -> Det.find_pkg (pk_path p) (det_world w) = Some (det_pkg p).
  Proof.
    intros p Hin. destruct Hw as [Hnd _].
    apply (Assoc.find_by_In _ Det.pk_path Order.bytes_eqbP (map det_pkg (w_pkgs w)) (det_pkg p)).
    - rewrite map_map. exact Hnd.
    - apply in_map. exact Hin.
  Qed.

  Lemma loop_agree_det : forall ps prev, incl ps (w_pkgs w) ->
    run_rel
      (Det.pkgs_loop true true (det_render fmt) o' a' (det_world w) (map (det_gen w) gens) prev (current_sum w)
                     (map (locf w) ps) [] [])
      (run_pkgs E a w gens prev ps).
  Proof.
    intros ps prev Hincl. rewrite Proofs.Determinism.pkgs_loop_spec. cbn [app]. induction ps as [|p r IH].
    { split; [reflexivity|]. split; [apply erel_nil | reflexivity]. }
    assert (Hin : In p (w_pkgs w)) by (apply Hincl; left; reflexivity).
    assert (IH' := IH (fun x Hx => Hincl x (or_intror Hx))). clear IH.
    cbn [map filter]. rewrite run_pkgs_cons. cbv zeta.
    change (Proofs.Determinism.visits a' prev (current_sum w) (locf w p))
      with (selected a w p && Det.pkg_changed a' prev (current_sum w) (pk_path p)).
    rewrite (det_changed prev p). destruct (selected a w p && pkg_changed a w prev p); [|exact IH'].
    cbn [forallb flat_map].
    unfold Proofs.Determinism.ok_at at 1, Proofs.Determinism.effs_at at 1, Proofs.Determinism.log_at at 1, Proofs.Determinism.pkg_at.
    cbn [locf fst]. rewrite (det_find_pkg p Hin).
    pose proof (pkg_agree p Hin) as Hpk.
    destruct (Det.pkg_execute true true (det_render fmt) o' a' (map (det_gen w) gens) (det_pkg p)) as [[esp logp]|];
      cbn [run_rel] in Hpk.
    2:{ destruct (snd (pkg_effects E a gens p)); [exfalso; apply Hpk; reflexivity | cbn; discriminate..]. }
    destruct Hpk as [Hd [Her Hlog]]. rewrite Hd. cbn [andb].
    destruct (forallb _ _); [|exact IH']. destruct IH' as [Hd' [Her' Hlog']]. cbn [run_rel fst snd].
    split; [exact Hd'|]. split; [apply erel_app; assumption|].
    rewrite flat_log_app, flat_trace_app, Hlog, Hlog'. reflexivity.
  Qed.

  Lemma sort_keys_same : forall l, Det.sort_strings l = SumFile.sort_keys l.
  Proof. intros l. unfold SumFile.sort_keys, Det.sort_strings. rewrite Proofs.Determinism.sort_by_eq, SumFile.sort_by_eq. reflexivity. Qed.

  Lemma sum_bytes_same : forall m, Det.sum_bytes o' m = SumFile.sumfile_bytes m.
  Proof.
    intros m. unfold Det.sum_bytes, Det.sorted_entries, SumFile.sumfile_bytes.
    rewrite only_gfs_other by reflexivity.
    rewrite flat_map_concat_map, map_map. unfold Det.keys. rewrite sort_keys_same. f_equal.
    apply map_ext. intros k. cbn [fst snd]. fold (Det.sum_get k m). rewrite det_sum_get, sum_get_sum_sum. reflexivity.
  Qed.

  Variable s : fs.

  Theorem det_agree :
    match Det.run true true (det_render fmt) det_parse_sum o' a' (w_direct w) (det_world w) (map (det_gen w) gens) (det_fs s) with
    | None => exec_outcome E a w gens s <> Done
    | Some (f', log) =>
        exec_outcome E a w gens s = Done
        /\ (forall q, f' q = fs_lookup q (exec_fs E a w gens s))
        /\ flat_log log = flat_trace (exec_trace E a w gens s)
    end.
  Proof.
    unfold Det.run, Det.plan.
    assert (Hsl : Det.sorted_local o' (w_direct w) (det_world w) = map (locf w) (sorted_pkgs w)).
    { rewrite (Proofs.Determinism.sorted_local_canon o' _ _ (only_gfs_shuffles o Hs) (Proofs.Determinism.wf_paths _ (det_world_wf w Hw))).
      cbn [det_world Det.w_pkgs]. rewrite map_map. cbn [det_pkg Det.pk_path].
      rewrite (sort_names pk_path), map_map. reflexivity. }
    assert (Hcur : Det.sum_data o' (det_world w) = current_sum w).
    { rewrite (Proofs.Determinism.sum_data_eq o' _ (only_gfs_shuffles o Hs) (det_world_wf w Hw)).
      rewrite only_gfs_other by reflexivity. apply map_map. }
    rewrite Hsl, Hcur. cbn [det_args Det.a_all det_world Det.w_moddir].
    rewrite existsb_locals, (Order.existsb_ext_in (is_direct w) (sorted_pkgs w) (w_pkgs w) (sort_by_In pk_path (w_pkgs w))).
    assert (Hprev : (if a_all a && existsb (is_direct w) (w_pkgs w)
                     then match det_fs s (w_modroot w, Det.sum_name) with
                          | Some b => Some (det_parse_sum b) | None => None end
                     else None) = load_prev E a w s) by reflexivity.
    rewrite Hprev.
    pose proof (loop_agree_det (sorted_pkgs w) (load_prev E a w s)) as Hl. unfold run_rel in Hl.
    assert (Hincl : incl (sorted_pkgs w) (w_pkgs w)) by (intros x Hx; apply (sort_by_In pk_path); exact Hx).
    specialize (Hl Hincl).
    unfold exec_outcome, exec_trace, exec_fs. rewrite exec_eq. unfold effects, exec_trace, exec_outcome, run_all. cbn [fst snd].
    destruct (Det.pkgs_loop _ _ _ _ _ _ _ _ _ _ [] []) as [[es log]|];
      destruct (run_pkgs E a w gens (load_prev E a w s) (sorted_pkgs w)) as [[effs tr] out]; cbn [fst snd] in Hl |- *; [|exact Hl].
    destruct Hl as [-> [Her Hlog]].
    split; [reflexivity|]. split; [|exact Hlog].
    assert (Hf0 : frel (det_fs s) s) by (intros q; reflexivity).
    destruct (a_all a).
    - assert (Hsave : erel [Det.EWrite (w_modroot w, Det.sum_name) (Det.sum_bytes o' (current_sum w))] (save_effects E w)).
      { rewrite sum_bytes_same. apply erel_write. }
      exact (erel_app _ _ _ _ Her Hsave _ _ Hf0).
    - exact (Her _ _ Hf0).
  Qed.

  (* what C07 / C02 prove, OF Determinism.run (on inputs that come from the pipeline's): a failing run of Determinism (None) is a
     run of the pipeline that did not come back with Done: C02's theorems say what such a run has and has not done *)
  Theorem det_fails_iff :
    Det.run true true (det_render fmt) det_parse_sum o' a' (w_direct w) (det_world w) (map (det_gen w) gens) (det_fs s) = None
    <-> exec_outcome E a w gens s <> Done.
  Proof.
    pose proof det_agree as H.
    destruct (Det.run _ _ _ _ _ _ _ _ _ _) as [[f' log]|]; split; intros Hx; try discriminate Hx; try reflexivity; try exact H.
    destruct H as [Hd _]. contradiction.
  Qed.

  (* C07's frame: a successful run leaves every path that is not gengo's own output as it was *)
  Theorem det_frame : forall f' log q,
    Det.run true true (det_render fmt) det_parse_sum o' a' (w_direct w) (det_world w) (map (det_gen w) gens) (det_fs s) = Some (f', log) ->
    ~ own_output E a w s q -> f' q = det_fs s q.
  Proof.
    intros f' log q Hr Hq. pose proof det_agree as H. rewrite Hr in H. destruct H as [_ [Hf _]]. rewrite Hf. unfold det_fs. apply frame. exact Hq.
  Qed.
End Agree.

(* C04's order independence, OF Pipeline.exec *)
Theorem pipeline_order_independent : forall fmt G (o1 o2 : Det.oracle) rk1 rk2 a w gens s,
  world_wf w -> Det.shuffles o1 -> Det.shuffles o2 -> natural o1 -> natural o2 ->
  NoDup (D.keys G) -> NoDup (map g_name gens) ->
  let E1 := whole_env fmt (order_of o1) rk1 G in
  let E2 := whole_env fmt (order_of o2) rk2 G in
  (exec_outcome E1 a w gens s = Done <-> exec_outcome E2 a w gens s = Done)
  /\ (exec_outcome E1 a w gens s = Done ->
      (forall q, fs_lookup q (exec_fs E1 a w gens s) = fs_lookup q (exec_fs E2 a w gens s))
      /\ flat_trace (exec_trace E1 a w gens s) = flat_trace (exec_trace E2 a w gens s)).
Proof.
  intros fmt G o1 o2 rk1 rk2 a w gens s Hw Hs1 Hs2 Hn1 Hn2 HG Hgn E1 E2.
  pose proof (det_agree fmt G o1 rk1 a w Hw Hs1 Hn1 gens Hgn s) as H1.
  pose proof (det_agree fmt G o2 rk2 a w Hw Hs2 Hn2 gens Hgn s) as H2.
  fold E1 in H1. fold E2 in H2.
  assert (Hwa : Proofs.Determinism.wf_args (det_args G a)).
  { unfold Proofs.Determinism.wf_args. cbn [det_args Det.a_globals]. fold (Det.keys (dt G)). rewrite keys_dt. exact HG. }
  pose proof (Proofs.Determinism.run_order_independent (det_render fmt) det_parse_sum (only_gfs o1) (only_gfs o2) (det_args G a)
                (w_direct w) (w_direct w) (det_world w) (map (det_gen w) gens) (det_fs s)
                (only_gfs_shuffles o1 Hs1) (only_gfs_shuffles o2 Hs2) Hwa (det_world_wf w Hw) (Permutation_refl _)) as Heq.
  destruct (Det.run _ _ _ _ (only_gfs o1) _ _ _ _ _) as [[f1 l1]|]; destruct (Det.run _ _ _ _ (only_gfs o2) _ _ _ _ _) as [[f2 l2]|];
    cbn [Proofs.Determinism.out_equiv] in Heq; try contradiction.
  - destruct H1 as [Hd1 [Hf1 Hl1]]. destruct H2 as [Hd2 [Hf2 Hl2]]. destruct Heq as [Hfe Hle].
    split; [split; intros _; assumption|]. intros _. split.
    + intros q. rewrite <- Hf1, <- Hf2. apply Hfe.
    + rewrite <- Hl1, <- Hl2, Hle. reflexivity.
  - split; [split; intros Hx; contradiction|]. intros Hx. contradiction.
Qed.
