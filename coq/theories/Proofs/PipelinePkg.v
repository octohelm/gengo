(* Per-package analysis of the pipeline model: what a successful package run leaves at each of its paths,
   localisation (a package's directory only sees that package's effects), independence of the rest of the run.
   DEFINED here and used in statements of Props/C02.v, C05.v, C07.v, C08.v and Whole.v: the hypotheses [world_ok]
   (distinct directories, distinct paths), [files_ok] (no package lists gengo.sum among its files) and [order_ok] (the
   order oracle permutes), [kept] (what the generator returned for the package is not the zero value) and [has_direct]
   (some loaded package is direct). *)
Require Import Gengo.Base.Bytes Gengo.Base.Order Gengo.Model.Pipeline Gengo.Proofs.Pipeline.

Lemma NoDup_cons_dir {A B} {f : A -> B} {a : A} {r : list A} :
  NoDup (map f (a :: r)) -> (forall x, In x r -> f x <> f a) /\ NoDup (map f r).
Proof.
  cbn [map]. intros Hnd. apply NoDup_cons_iff in Hnd. destruct Hnd as [Hnotin Hnd']. split; [|exact Hnd'].
  intros x Hx Heq. apply Hnotin. rewrite <- Heq. apply in_map. exact Hx.
Qed.

Lemma removes_lookup : forall d names f s,
  fs_lookup (d, f) (apply_all (map (fun x => ERemove (d, x)) names) s) =
  if mem_bytes f names then None else fs_lookup (d, f) s.
Proof.
  intros d names f. induction names as [|x r IH]; intros s; [reflexivity|].
  cbn [map]. rewrite apply_all_cons, IH. change (mem_bytes f (x :: r)) with (bytes_eqb f x || mem_bytes f r).
  destruct (mem_bytes f r); [rewrite orb_true_r; reflexivity|]. rewrite orb_false_r. cbn [apply_effect].
  destruct (bytes_eqbP f x) as [->|Hne]; [apply lookup_del_same | apply lookup_del_other; congruence].
Qed.

Lemma mem_generated_files : forall a p n,
  mem_bytes (fname a n) (generated_files a p) = mem_bytes (fname a n) (pk_files p).
Proof.
  intros a p n. apply eq_true_iff_eq. unfold generated_files. rewrite !mem_bytes_In, filter_In, fname_prefix.
  split; [intros [H _]; exact H | intros H; split; [exact H | reflexivity]].
Qed.

(* parts that work in directories of their own: in the directory of one, only that one counts *)
Lemma flat_map_local {X} (f : X -> list effect) (d : X -> bytes) :
  (forall y e, In e (f y) -> fst (effect_path e) = d y) ->
  forall l, NoDup (map d l) -> forall x, In x l -> forall n s,
  fs_lookup (d x, n) (apply_all (flat_map f l) s) = fs_lookup (d x, n) (apply_all (f x) s).
Proof.
  intros Hown. induction l as [|y r IH]; intros Hnd x Hin n s; [contradiction|].
  destruct (NoDup_cons_dir Hnd) as [Hne Hnd']. cbn [flat_map]. rewrite apply_all_app. destruct Hin as [<-|Hin].
  - (* the later parts work in other directories *)
    apply apply_all_other. intros e He Heq. apply in_flat_map in He. destruct He as (z & Hz & He).
    apply (Hne z Hz). rewrite <- (Hown z e He), Heq. reflexivity.
  - (* so did the first one *)
    rewrite (IH Hnd' x Hin). apply apply_all_congr, apply_all_other. intros e He Heq.
    apply (Hne x Hin). rewrite <- (Hown y e He), Heq. reflexivity.
Qed.

Section Analysis.
Variable E : env.

Definition kept (g : generator) (p : pkginfo) : bool := negb (is_zero (gen_run E g p)).

Lemma kept_nil : forall g p, kept g p = true -> go_body (gen_run E g p) = [] -> go_ignore (gen_run E g p) = true.
Proof.
  intros g p Hk Hb. unfold kept, is_zero in Hk. rewrite Hb in Hk. cbn [is_nil andb] in Hk.
  now rewrite negb_involutive in Hk.
Qed.

Lemma not_kept : forall g p,
  kept g p = false -> go_body (gen_run E g p) = [] /\ go_ignore (gen_run E g p) = false.
Proof.
  intros g p Hk. apply negb_false_iff, andb_true_iff in Hk. destruct Hk as [Hb Hi].
  apply negb_true_iff in Hi. split; [|exact Hi]. now destruct (go_body (gen_run E g p)).
Qed.

Lemma gen_phase_done : forall gens p gfs tr,
  gen_phase E gens p = (gfs, tr, Done) ->
  gfs = map (fun g => (g_name g, go_body (gen_run E g p))) (filter (fun g => kept g p) gens)
  /\ forall g, In g gens -> go_out (gen_run E g p) = Done.
Proof.
  induction gens as [|g r IH]; intros p gfs tr H.
  - injection H as <- _. split; [reflexivity | intros g []].
  - rewrite gen_phase_cons in H. cbv zeta in H. destruct (go_out (gen_run E g p)) eqn:Hout; try discriminate H.
    specialize (IH p). destruct (gen_phase E r p) as [[gfs' tr'] out']. injection H as <- _ ->.
    destruct (IH gfs' tr' eq_refl) as [-> Hall]. split.
    + cbn [filter]. unfold kept. destruct (is_zero (gen_run E g p)); reflexivity.
    + intros g0 [<-|Hg0]; [exact Hout | exact (Hall g0 Hg0)].
Qed.

Definition retained (gens : list generator) (p : pkginfo) : list (bytes * bytes) :=
  map (fun g => (g_name g, go_body (gen_run E g p))) (filter (fun g => kept g p) gens).

Lemma retained_In : forall gens p n body,
  In (n, body) (retained gens p) <->
  exists g, In g gens /\ kept g p = true /\ n = g_name g /\ body = go_body (gen_run E g p).
Proof.
  intros gens p n body. unfold retained. rewrite in_map_iff. split.
  - intros [g [Heq [Hg Hk]%filter_In]]. injection Heq as <- <-. exists g. repeat split; assumption.
  - intros (g & Hg & Hk & -> & ->). exists g. split; [reflexivity | apply filter_In; split; assumption].
Qed.

Lemma retained_NoDup : forall gens p, NoDup (map g_name gens) -> NoDup (map fst (retained gens p)).
Proof. intros gens p H. unfold retained. rewrite map_map. apply NoDup_map_filter. exact H. Qed.

Lemma wrote_fail {a p gfs rem effs rem' x} :
  wrote E a p gfs rem effs rem' (Some x) ->
  exists n body,
    In (n, body) gfs /\ body <> [] /\ e_fmt E (assemble (pk_name p) n body) = None /\ x = EParse (gen_file a p n) /\
    (NoDup (map fst gfs) -> forall e, In e effs -> effect_path e <> gen_file a p n).
Proof.
  intros H. remember (Some x) as e eqn:He.
  induction H as [rem|n r rem effs rem' e _ IH|n body out r rem effs rem' e Hb Hf _ IH|n body r rem Hb Hf].
  - discriminate He.
  - destruct (IH He) as (n' & body' & Hin & Hb' & Hf' & Hx & Heffs). exists n', body'.
    split; [right; exact Hin|]. repeat (split; [assumption|]).
    intros Hnd. exact (Heffs (proj2 (NoDup_cons_dir Hnd))).
  - destruct (IH He) as (n' & body' & Hin & Hb' & Hf' & Hx & Heffs). exists n', body'.
    split; [right; exact Hin|]. repeat (split; [assumption|]).
    intros Hnd eff Heff. destruct (NoDup_cons_dir Hnd) as [Hne Hnd']. apply in_app_or in Heff.
    destruct Heff as [Heff|Heff]; [|exact (Heffs Hnd' eff Heff)].
    rewrite (write_effects_path Heff). intros Heq. apply gen_file_inj in Heq. exact (Hne _ Hin (eq_sym Heq)).
  - injection He as <-. exists n, body. split; [left; reflexivity|]. repeat (split; [assumption|]). split; [reflexivity|].
    intros _ e [].
Qed.

Lemma wrote_left {a p gfs rem effs rem'} :
  wrote E a p gfs rem effs rem' None ->
  forall f, In f rem' <-> In f rem /\ ~ In f (map (fun gf => fname a (fst gf)) gfs).
Proof.
  intros H f. remember None as e eqn:He.
  assert (Hstep : forall x rem l, In f (strike x rem) /\ ~ In f l <-> In f rem /\ ~ In f (x :: l)).
  { intros x rem0 l. rewrite strike_In, not_in_cons. apply and_assoc. }
  induction H as [rem|n r rem effs rem' e _ IH|n body out r rem effs rem' e Hb Hf _ IH|n body r rem Hb Hf].
  - split; [intros Hin; split; [exact Hin | intros []] | intros [Hin _]; exact Hin].
  - exact (iff_trans (IH He) (Hstep _ _ _)).
  - exact (iff_trans (IH He) (Hstep _ _ _)).
  - discriminate He.
Qed.

Lemma wrote_untouched {a p gfs rem effs rem' e} q s :
  wrote E a p gfs rem effs rem' e ->
  (forall n body, In (n, body) gfs -> body <> [] -> q <> gen_file a p n) ->
  fs_lookup q (apply_all effs s) = fs_lookup q s.
Proof.
  intros Hw H. apply apply_all_other. intros eff He Heq.
  destruct (wrote_paths E Hw eff He) as (n & body & Hin & Hb & Hp). apply (H n body Hin Hb). congruence.
Qed.

Lemma wrote_written {a p gfs rem effs rem'} :
  wrote E a p gfs rem effs rem' None -> NoDup (map fst gfs) ->
  forall n body s, In (n, body) gfs -> body <> [] ->
  exists out, e_fmt E (assemble (pk_name p) n body) = Some out /\
              fs_lookup (gen_file a p n) (apply_all effs s) = Some out.
Proof.
  intros H. remember None as e eqn:He.
  induction H as [rem|n0 r rem effs rem' e _ IH|n0 b0 out r rem effs rem' e Hb0 Hf Hr IH|n0 b0 r rem Hb0 Hf];
    intros Hnd n body s Hin Hb; try discriminate He; try contradiction;
    destruct (NoDup_cons_dir Hnd) as [Hne Hnd'].
  - destruct Hin as [Hin|Hin]; [congruence|]. exact (IH He Hnd' n body s Hin Hb).
  - rewrite apply_all_app. destruct Hin as [Hin|Hin].
    + (* the head: the later writes are at other files *)
      injection Hin as <- <-. exists out. split; [exact Hf|].
      rewrite (wrote_untouched _ _ Hr); [rewrite apply_write_effects; apply lookup_set_same|].
      intros n' body' Hin' _ Heq. apply gen_file_inj in Heq. subst n'. exact (Hne _ Hin' eq_refl).
    + exact (IH He Hnd' n body _ Hin Hb).
Qed.

Definition order_ok : Prop := forall p l, Permutation (e_order E p l) l.

Lemma order_In : order_ok -> forall p l (x : bytes * bytes), In x (e_order E p l) <-> In x l.
Proof. intros H p l x. split; apply Permutation_in; [|symmetry]; apply H. Qed.

Lemma order_NoDup : order_ok -> forall p l, NoDup (map fst l) -> NoDup (map fst (e_order E p l)).
Proof. intros H p l. apply Permutation_NoDup, Permutation_map, Permutation_sym, H. Qed.

Lemma pkg_effects_done_inv {a gens p} :
  snd (pkg_effects E a gens p) = Done ->
  (forall g, In g gens -> go_out (gen_run E g p) = Done) /\
  exists weffs rem,
    wrote E a p (e_order E p (retained gens p)) (generated_files a p) weffs rem None /\
    fst (fst (pkg_effects E a gens p)) = weffs ++ map (fun f => ERemove (pk_dir p, f)) (removal_order E p rem).
Proof.
  unfold pkg_effects. pose proof (gen_phase_done gens p) as Hgd.
  destruct (gen_phase E gens p) as [[gfs tr0] out]. destruct out; try discriminate.
  destruct (Hgd gfs tr0 eq_refl) as [-> Hall]. intros H. split; [exact Hall|]. fold (retained gens p) in H |- *.
  pose proof (write_loop_wrote E a p (e_order E p (retained gens p)) (generated_files a p)) as Hw.
  destruct (write_loop E a p (e_order E p (retained gens p)) (generated_files a p)) as [[weffs rem] e].
  destruct e; [discriminate H|]. exists weffs, rem. split; [exact Hw | reflexivity].
Qed.

Lemma removal_lookup : forall p weffs rem f s,
  fs_lookup (pk_dir p, f) (apply_all (weffs ++ map (fun f => ERemove (pk_dir p, f)) (removal_order E p rem)) s) =
  if mem_bytes f rem then None else fs_lookup (pk_dir p, f) (apply_all weffs s).
Proof. intros. rewrite apply_all_app, removes_lookup. unfold removal_order. rewrite mem_rank_sort. reflexivity. Qed.

Lemma pkg_done_other : forall a gens p f,
  order_ok -> snd (pkg_effects E a gens p) = Done ->
  (forall g, In g gens -> kept g p = true -> f <> fname a (g_name g)) ->
  forall s,
  fs_lookup (pk_dir p, f) (apply_all (fst (fst (pkg_effects E a gens p))) s) =
  if mem_bytes f (generated_files a p) then None else fs_lookup (pk_dir p, f) s.
Proof.
  intros a gens p f Hord H Hf s.
  destruct (pkg_effects_done_inv H) as [_ (weffs & rem & Hw & ->)].
  assert (Hnot : forall n body, In (n, body) (e_order E p (retained gens p)) -> f <> fname a n).
  { intros n body Hin. apply order_In, retained_In in Hin; [|exact Hord].
    destruct Hin as (g & Hg & Hk & -> & _). exact (Hf g Hg Hk). }
  rewrite removal_lookup.
  rewrite (wrote_untouched _ s Hw).
  - replace (mem_bytes f rem) with (mem_bytes f (generated_files a p)); [reflexivity|].
    apply eq_true_iff_eq. rewrite !mem_bytes_In, (wrote_left Hw f), in_map_iff.
    split; [|intros [Hin _]; exact Hin]. intros Hin. split; [exact Hin|]. intros [[n body] [Hn Hin']]. exact (Hnot n body Hin' (eq_sym Hn)).
  - intros n body Hin _ Heq. injection Heq as Heq. exact (Hnot n body Hin Heq).
Qed.

Lemma pkg_done_generator : forall a gens p g,
  order_ok -> NoDup (map g_name gens) ->
  snd (pkg_effects E a gens p) = Done -> In g gens ->
  forall s,
  fs_lookup (gen_file a p (g_name g)) (apply_all (fst (fst (pkg_effects E a gens p))) s) =
    (if negb (is_nil (go_body (gen_run E g p))) then e_fmt E (assemble (pk_name p) (g_name g) (go_body (gen_run E g p)))
     else if go_ignore (gen_run E g p) then fs_lookup (gen_file a p (g_name g)) s
     else if mem_bytes (fname a (g_name g)) (pk_files p) then None
     else fs_lookup (gen_file a p (g_name g)) s)
  /\ (go_body (gen_run E g p) <> [] ->
      e_fmt E (assemble (pk_name p) (g_name g) (go_body (gen_run E g p))) <> None).
Proof.
  intros a gens p g Hord Hnd H Hg s. destruct (kept g p) eqn:Hk.
  - (* retained: an entry of the write loop, whose name was struck from the removal set *)
    destruct (pkg_effects_done_inv H) as [_ (weffs & rem & Hw & ->)].
    assert (HndO : NoDup (map fst (e_order E p (retained gens p)))) by (apply order_NoDup, retained_NoDup; assumption).
    assert (Hin : In (g_name g, go_body (gen_run E g p)) (e_order E p (retained gens p))).
    { apply order_In; [exact Hord|]. apply retained_In. exists g. repeat split; assumption. }
    assert (Hnr : mem_bytes (fname a (g_name g)) rem = false).
    { destruct (mem_bytes (fname a (g_name g)) rem) eqn:Hm; [|reflexivity].
      apply mem_bytes_In, (wrote_left Hw) in Hm. destruct Hm as [_ []].
      exact (in_map (fun gf => fname a (fst gf)) _ _ Hin). }
    unfold gen_file at 1. rewrite removal_lookup, Hnr. fold (gen_file a p (g_name g)).
    destruct (go_body (gen_run E g p)) as [|c b] eqn:Hb; cbn [is_nil negb].
    + rewrite (kept_nil g p Hk Hb). split; [|congruence].
      apply (wrote_untouched _ s Hw). intros n body Hin' Hb' Heq. apply gen_file_inj in Heq. subst n.
      apply Hb'. exact (f_equal snd (NoDup_map_inj_in fst _ _ _ HndO Hin' Hin eq_refl)).
    + destruct (wrote_written Hw HndO _ _ s Hin) as (out & Hf & Hl); [discriminate|].
      rewrite Hf, Hl. split; [reflexivity | discriminate].
  - (* not retained: no entry of the write loop has its name *)
    destruct (not_kept g p Hk) as [Hb Hi]. rewrite Hb, Hi. cbn [is_nil negb]. split; [|congruence].
    unfold gen_file. rewrite (pkg_done_other a gens p (fname a (g_name g)) Hord H), mem_generated_files; [reflexivity|].
    intros g' Hg' Hk' Heq. apply fname_inj in Heq.
    rewrite (NoDup_map_inj_in g_name gens g g' Hnd Hg Hg' Heq) in Hk. congruence.
Qed.

Lemma pkg_execute_dir : forall a w gens prev p e,
  In e (fst (fst (pkg_execute E a w gens prev p))) -> fst (effect_path e) = pk_dir p.
Proof. intros a w gens prev p e H. apply (pkg_execute_paths _ _ _ _ _ _ _ H). Qed.

Lemma run_pkgs_done : forall a w gens prev ps,
  snd (run_pkgs E a w gens prev ps) = Done ->
  Forall (fun p => snd (pkg_execute E a w gens prev p) = Done) (filter (selected a w) ps) /\
  fst (run_pkgs E a w gens prev ps)
  = (flat_map (fun p => fst (fst (pkg_execute E a w gens prev p))) (filter (selected a w) ps),
     flat_map (fun p => snd (fst (pkg_execute E a w gens prev p))) (filter (selected a w) ps)).
Proof.
  intros a w gens prev ps. induction ps as [|p r IH]; cbn [run_pkgs filter]; intros Hd; [split; [constructor | reflexivity]|].
  destruct (selected a w p); [|exact (IH Hd)].
  destruct (pkg_execute E a w gens prev p) as [[e1 t1] o1] eqn:Hpe. destruct o1; try discriminate Hd.
  destruct (run_pkgs E a w gens prev r) as [[e2 t2] o2]. destruct (IH Hd) as [HF Heq]. cbn [fst snd flat_map] in *.
  injection Heq as -> ->. rewrite Hpe. split; [constructor; [rewrite Hpe; reflexivity | exact HF] | reflexivity].
Qed.

Definition files_ok (w : world) : Prop := forall p, In p (w_pkgs w) -> ~ In sum_name (pk_files p).

Lemma pkgs_effects_not_sum : forall a w gens s e,
  files_ok w -> In e (pkgs_effects E a w gens s) -> snd (effect_path e) <> sum_name.
Proof.
  intros a w gens s e Hok He. destruct (pkgs_effects_paths E He) as (p & Hp & _ & _ & [[n Hn]|Hf]).
  - rewrite Hn. cbn [gen_file snd]. apply fname_ne_sum.
  - intros Heq. rewrite Heq in Hf. exact (Hok p Hp Hf).
Qed.

Lemma exec_fs_not_sum : forall a w gens s q,
  q <> sum_path w -> fs_lookup q (exec_fs E a w gens s) = fs_lookup q (apply_all (pkgs_effects E a w gens s) s).
Proof.
  intros a w gens s q Hq. rewrite exec_fs_eq, effects_split, apply_all_app.
  apply apply_all_other. intros e He Heq. apply Hq. rewrite <- Heq.
  destruct (exec_outcome E a w gens s); try contradiction.
  destruct (a_all a); [|contradiction]. exact (write_effects_path He).
Qed.

Definition world_ok (w : world) : Prop := NoDup (map pk_dir (w_pkgs w)) /\ NoDup (map pk_path (w_pkgs w)).

Lemma exec_local : forall a w gens s p f,
  NoDup (map pk_dir (w_pkgs w)) -> In p (w_pkgs w) -> selected a w p = true ->
  exec_outcome E a w gens s = Done ->
  (pk_dir p, f) <> sum_path w ->
  fs_lookup (pk_dir p, f) (exec_fs E a w gens s)
  = fs_lookup (pk_dir p, f) (apply_all (fst (fst (pkg_execute E a w gens (load_prev E a w s) p))) s).
Proof.
  intros a w gens s p f Hd Hp Hsel Hdone Hq.
  rewrite exec_fs_not_sum by exact Hq. unfold pkgs_effects, run_all. rewrite (proj2 (run_pkgs_done _ _ _ _ _ Hdone)).
  refine (flat_map_local _ pk_dir _ _ _ p _ f s).
  - intros y e. apply pkg_execute_dir.
  - apply NoDup_map_filter, sort_by_NoDup_map, Hd.
  - apply filter_In. split; [apply sort_by_In; exact Hp | exact Hsel].
Qed.

Lemma sum_get_current : forall ps p,
  NoDup (map pk_path ps) -> In p ps ->
  sum_get (map (fun p => (pk_path p, pk_hash p)) ps) (pk_path p) = pk_hash p.
Proof.
  intros ps p Hnd Hin. rewrite sum_get_eq.
  rewrite (Assoc.get_In _ Assoc.bytes_eqbP' _ (pk_path p) (pk_hash p)); [reflexivity | rewrite map_map; exact Hnd |].
  exact (in_map (fun p => (pk_path p, pk_hash p)) ps p Hin).
Qed.

Definition has_direct (w : world) : bool := existsb (is_direct w) (w_pkgs w).

(* what is done for a package depends on the world only through the module root, the package itself and, under
   All, whether any package is direct (whether the previous gengo.sum is loaded) *)
Lemma pkg_execute_same : forall a gens s w1 w2 p,
  w_modroot w1 = w_modroot w2 ->
  NoDup (map pk_path (w_pkgs w1)) -> NoDup (map pk_path (w_pkgs w2)) -> In p (w_pkgs w1) -> In p (w_pkgs w2) ->
  (a_all a = true -> has_direct w1 = has_direct w2) ->
  pkg_execute E a w1 gens (load_prev E a w1 s) p = pkg_execute E a w2 gens (load_prev E a w2 s) p.
Proof.
  intros a gens s w1 w2 p Hroot Hp1 Hp2 Hin1 Hin2 Hdir.
  unfold pkg_execute.
  assert (Hch : pkg_changed a w1 (load_prev E a w1 s) p = pkg_changed a w2 (load_prev E a w2 s) p).
  { unfold pkg_changed. destruct (a_force a); [reflexivity|].
    unfold load_prev, sum_path. rewrite <- Hroot.
    destruct (a_all a); cbn [andb]; [|reflexivity].
    fold (has_direct w1) (has_direct w2). rewrite <- (Hdir eq_refl). destruct (has_direct w1); [|reflexivity].
    destruct (fs_lookup (w_modroot w1, sum_name) s); [|reflexivity].
    unfold current_sum. rewrite !sum_get_current by assumption. reflexivity. }
  rewrite Hch. reflexivity.
Qed.

Theorem independent_gen : forall a gens s w1 w2 p f,
  w_modroot w1 = w_modroot w2 ->
  world_ok w1 -> world_ok w2 -> In p (w_pkgs w1) -> In p (w_pkgs w2) ->
  selected a w1 p = true -> selected a w2 p = true ->
  (a_all a = true -> has_direct w1 = has_direct w2) ->
  exec_outcome E a w1 gens s = Done -> exec_outcome E a w2 gens s = Done ->
  (pk_dir p, f) <> sum_path w1 ->
  fs_lookup (pk_dir p, f) (exec_fs E a w1 gens s) = fs_lookup (pk_dir p, f) (exec_fs E a w2 gens s).
Proof.
  intros a gens s w1 w2 p f Hroot Hok1 Hok2 Hin1 Hin2 Hs1 Hs2 Hdir Hd1 Hd2 Hq.
  rewrite (exec_local a w1 gens s p f (proj1 Hok1) Hin1 Hs1 Hd1 Hq).
  assert (Hq2 : (pk_dir p, f) <> sum_path w2) by (unfold sum_path in *; rewrite <- Hroot; exact Hq).
  rewrite (exec_local a w2 gens s p f (proj1 Hok2) Hin2 Hs2 Hd2 Hq2).
  rewrite (pkg_execute_same a gens s w1 w2 p Hroot (proj2 Hok1) (proj2 Hok2) Hin1 Hin2 Hdir). reflexivity.
Qed.

Theorem independent : forall a gens s w1 w2 p f,
  w_modroot w1 = w_modroot w2 ->
  world_ok w1 -> world_ok w2 -> In p (w_pkgs w1) -> In p (w_pkgs w2) ->
  selected a w1 p = true -> selected a w2 p = true ->
  (a_all a = true -> has_direct w1 = true /\ has_direct w2 = true) ->
  exec_outcome E a w1 gens s = Done -> exec_outcome E a w2 gens s = Done ->
  (pk_dir p, f) <> sum_path w1 ->
  fs_lookup (pk_dir p, f) (exec_fs E a w1 gens s) = fs_lookup (pk_dir p, f) (exec_fs E a w2 gens s).
Proof.
  intros a gens s w1 w2 p f Hroot Hok1 Hok2 Hin1 Hin2 Hs1 Hs2 Hdir. apply independent_gen; try assumption.
  intros Hall. destruct (Hdir Hall) as [-> ->]. reflexivity.
Qed.

Lemma exec_done_iff : forall a w gens s,
  exec_outcome E a w gens s = Done <->
  forall p, In p (w_pkgs w) -> selected a w p = true -> snd (pkg_execute E a w gens (load_prev E a w s) p) = Done.
Proof.
  intros a w gens s. unfold exec_outcome, run_all. split.
  - intros Hd p Hp Hsel. apply (proj1 (Forall_forall _ _) (proj1 (run_pkgs_done _ _ _ _ _ Hd))).
    apply filter_In. split; [apply sort_by_In; exact Hp | exact Hsel].
  - intros H. destruct (run_pkgs_outcome E a w gens (load_prev E a w s) (sorted_pkgs w)) as [Hd|Hs]; [exact Hd|].
    apply Exists_exists in Hs. destruct Hs as (pf & Hin & [Hsel Hch]%andb_true_iff & <-).
    specialize (H pf (proj1 (sort_by_In pk_path _ _) Hin) Hsel). unfold pkg_execute in H. rewrite Hch in H. exact H.
Qed.

Lemma outcome_done_transfer : forall a gens s w1 w2,
  w_modroot w1 = w_modroot w2 -> NoDup (map pk_path (w_pkgs w1)) -> NoDup (map pk_path (w_pkgs w2)) ->
  (forall p, In p (w_pkgs w2) -> selected a w2 p = true -> In p (w_pkgs w1) /\ selected a w1 p = true) ->
  (a_all a = true -> has_direct w1 = has_direct w2) ->
  exec_outcome E a w1 gens s = Done -> exec_outcome E a w2 gens s = Done.
Proof.
  intros a gens s w1 w2 Hroot Hok1 Hok2 Hsub Hdir Hd1. apply exec_done_iff. intros p Hp Hsel.
  destruct (Hsub p Hp Hsel) as [Hp1 Hs1].
  rewrite <- (pkg_execute_same a gens s w1 w2 p Hroot Hok1 Hok2 Hp1 Hp Hdir).
  exact (proj1 (exec_done_iff a w1 gens s) Hd1 p Hp1 Hs1).
Qed.

End Analysis.
