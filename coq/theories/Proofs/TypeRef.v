(* Lemmas for C15 (Model/TypeRef.v: pkg/types/ref.go, helper.go, rawNamer).  The argument loop of ParseTypeRef read
   without indices, as a scan with a depth counter ([loop_acc]); from it [roundtrip]: parse (print t) = t for every
   well-formed t, [print_parse_any]: whenever the parser returns a tree, String() of it is the input, and
   [parse_total].  Section NamerProofs, for ANY tracker whose names are stable: rawNamer rewrites a reference to the
   one with local names and registers exactly its foreign packages ([rewrite_spec]).
   [ex_add] and [ex_local], DEFINED here, are the concrete tracker of the Examples of Props/C15.v. *)
Require Import Gengo.Base.Bytes Gengo.Model.TypeRef.
Require Import ZArith.
Require Gengo.Base.Order.

(* induction over references: the type is nested through [list] *)

Fixpoint tref_ind' (P : tref -> Prop)
  (H : forall p n args, Forall P args -> P (TRef p n args)) (t : tref) : P t :=
  match t with
  | TRef p n args =>
      H p n args
        ((fix go (l : list tref) : Forall P l :=
            match l with
            | [] => Forall_nil P
            | a :: r => Forall_cons a (tref_ind' P H a) (go r)
            end) args)
  end.

Lemma eqb_neq : forall a b : ascii, a <> b -> Ascii.eqb a b = false.
Proof. intros a b H. apply Ascii.eqb_neq. exact H. Qed.

Definition plain (c : ascii) : Prop := c <> lbr /\ c <> rbr /\ c <> comma.

Lemma plain_b_spec : forall c, plain_b c = true <-> plain c.
Proof.
  intros c. unfold plain_b, plain. rewrite !andb_true_iff, !negb_true_iff, !Ascii.eqb_neq. tauto.
Qed.

Lemma ident_b_spec : forall c, ident_b c = true <-> plain c /\ c <> dot.
Proof.
  intros c. unfold ident_b. rewrite andb_true_iff, negb_true_iff, Ascii.eqb_neq, plain_b_spec. tauto.
Qed.

Lemma forallb_plain : forall s, forallb plain_b s = true <-> Forall plain s.
Proof.
  intros s. rewrite forallb_forall, Forall_forall. split; intros H x Hx; apply plain_b_spec, H, Hx.
Qed.

Lemma forallb_ident : forall s, forallb ident_b s = true <-> Forall (fun c => plain c /\ c <> dot) s.
Proof.
  intros s. rewrite forallb_forall, Forall_forall. split; intros H x Hx; apply ident_b_spec, H, Hx.
Qed.

Lemma dot_plain : plain dot.
Proof. unfold plain, dot, lbr, rbr, comma. repeat split; discriminate. Qed.

Lemma wf_inv : forall p n args,
  wf (TRef p n args) <->
  Forall plain p /\ n <> [] /\ Forall (fun c => plain c /\ c <> dot) n /\ Forall wf args.
Proof.
  intros p n args. unfold wf at 1. cbn [wf_b].
  rewrite !andb_true_iff, negb_true_iff, forallb_plain, forallb_ident.
  assert (Hn : is_nil n = false <-> n <> []) by (destruct n; cbn; split; congruence).
  rewrite Hn. rewrite (forallb_forall wf_b args), (Forall_forall wf args). unfold wf. tauto.
Qed.

Lemma index_byte_none : forall c s, ~ In c s -> index_byte c s = None.
Proof.
  induction s as [|x r IH]; intros H; cbn; [reflexivity|].
  rewrite eqb_neq by (intros ->; apply H; left; reflexivity).
  rewrite IH by (intros Hc; apply H; right; exact Hc). reflexivity.
Qed.

Lemma index_byte_app : forall c a b, ~ In c a -> index_byte c (a ++ c :: b) = Some (length a).
Proof.
  induction a as [|x r IH]; intros b H; cbn.
  - rewrite Ascii.eqb_refl. reflexivity.
  - rewrite eqb_neq by (intros ->; apply H; left; reflexivity).
    rewrite IH by (intros Hc; apply H; right; exact Hc). reflexivity.
Qed.

Lemma index_byte_spec : forall c s i,
  index_byte c s = Some i -> exists a b, s = a ++ c :: b /\ length a = i /\ ~ In c a.
Proof.
  induction s as [|x r IH]; intros i H; cbn in H; [discriminate|].
  destruct (Ascii.eqb x c) eqn:E.
  - apply Ascii.eqb_eq in E. subst x. inversion H; subst. exists [], r. cbn. auto.
  - destruct (index_byte c r) as [j|] eqn:Ej; cbn in H; [|discriminate].
    inversion H; subst. destruct (IH j eq_refl) as (a & b & -> & Hl & Hn).
    exists (x :: a), b. cbn. repeat split; [congruence|].
    intros [->|Hin]; [rewrite Ascii.eqb_refl in E; discriminate|contradiction].
Qed.

Lemma last_index_byte_none : forall c s, ~ In c s -> last_index_byte c s = None.
Proof.
  induction s as [|x r IH]; intros H; cbn; [reflexivity|].
  rewrite IH by (intros Hc; apply H; right; exact Hc).
  rewrite eqb_neq by (intros ->; apply H; left; reflexivity). reflexivity.
Qed.

Lemma last_index_byte_app : forall c a b, ~ In c b -> last_index_byte c (a ++ c :: b) = Some (length a).
Proof.
  induction a as [|x r IH]; intros b H; cbn.
  - rewrite last_index_byte_none by exact H. rewrite Ascii.eqb_refl. reflexivity.
  - rewrite IH by exact H. reflexivity.
Qed.

Lemma last_index_byte_spec : forall c s i,
  last_index_byte c s = Some i -> exists a b, s = a ++ c :: b /\ length a = i /\ ~ In c b.
Proof.
  induction s as [|x r IH]; intros i H; cbn in H; [discriminate|].
  destruct (last_index_byte c r) as [j|] eqn:Ej.
  - inversion H; subst. destruct (IH j eq_refl) as (a & b & -> & Hl & Hn).
    exists (x :: a), b. cbn. auto.
  - destruct (Ascii.eqb x c) eqn:E; [|discriminate].
    apply Ascii.eqb_eq in E. subst x. inversion H; subst. exists [], r. cbn. repeat split.
    intros Hin. clear -Ej Hin. induction r as [|y r IH]; [contradiction|].
    cbn in Ej. destruct (last_index_byte c r); [discriminate|].
    destruct (Ascii.eqb y c) eqn:E; [discriminate|].
    destruct Hin as [->|Hin]; [rewrite Ascii.eqb_refl in E; discriminate|auto].
Qed.

Lemma Forall_plain_notin : forall c s, ~ plain c -> Forall plain s -> ~ In c s.
Proof. intros c s Hc Hs Hin. rewrite Forall_forall in Hs. apply Hc, Hs, Hin. Qed.

Lemma lbr_not_plain : ~ plain lbr. Proof. unfold plain. tauto. Qed.
Lemma rbr_not_plain : ~ plain rbr. Proof. unfold plain. tauto. Qed.
Lemma comma_not_plain : ~ plain comma. Proof. unfold plain. tauto. Qed.

Lemma substr_ok : forall s lo hi, lo <= hi -> hi <= length s -> substr s lo hi = Ok (firstn (hi - lo) (skipn lo s)).
Proof. intros s lo hi H1 H2. unfold substr. apply Nat.leb_le in H1, H2. rewrite H1, H2. reflexivity. Qed.

Lemma substr_mid : forall a b c, substr (a ++ b ++ c) (length a) (length a + length b) = Ok b.
Proof.
  intros a b c. rewrite substr_ok by (rewrite ?app_length; lia).
  replace (length a + length b - length a) with (length b) by lia.
  rewrite Order.skipn_app_exact, firstn_app, firstn_all, Nat.sub_diag. cbn [firstn]. rewrite app_nil_r. reflexivity.
Qed.

Lemma substr_prefix : forall a b, substr (a ++ b) 0 (length a) = Ok a.
Proof.
  intros a b. pose proof (substr_mid [] a b) as H. cbn [app length Nat.add] in H. exact H.
Qed.

Lemma substr_suffix : forall a b n, n = length a -> substr (a ++ b) n (length (a ++ b)) = Ok b.
Proof.
  intros a b n ->. pose proof (substr_mid a b []) as H. rewrite app_nil_r in H.
  rewrite app_length. exact H.
Qed.

Lemma substr_after_sep : forall a c x,
  substr (a ++ c :: x) (length a + 1) (length (a ++ c :: x)) = Ok x.
Proof.
  intros a c x. replace (a ++ c :: x) with ((a ++ [c]) ++ x) by (rewrite <- app_assoc; reflexivity).
  apply substr_suffix. rewrite app_length. cbn. lia.
Qed.

Lemma substr_ok_iff : forall s lo hi, lo <= hi -> hi <= length s -> exists r, substr s lo hi = Ok r /\ length r = hi - lo.
Proof.
  intros s lo hi H1 H2. rewrite substr_ok by assumption.
  eexists. split; [reflexivity|]. rewrite firstn_length, skipn_length. lia.
Qed.

Lemma join_comma_cons2 : forall x y r, join_comma (x :: y :: r) = x ++ comma :: join_comma (y :: r).
Proof. reflexivity. Qed.

Lemma join_comma_one : forall x, join_comma [x] = x.
Proof. intros x. cbn. apply app_nil_r. Qed.

Definition sepcat (l : list bytes) : bytes := concat (map (fun y => y ++ [comma]) l).

Lemma join_snoc : forall l x, join_comma (l ++ [x]) = sepcat l ++ x.
Proof.
  induction l as [|y l IH]; intros x; [apply join_comma_one|].
  cbn [app]. destruct (l ++ [x]) eqn:E; [now destruct l|].
  rewrite join_comma_cons2, <- E, IH. unfold sepcat. cbn [map concat]. now rewrite <- !app_assoc.
Qed.

Lemma print_leaf : forall p n, print (TRef p n []) = head_str p n.
Proof. intros. cbn. apply app_nil_r. Qed.

Lemma print_args : forall p n a r,
  print (TRef p n (a :: r)) = head_str p n ++ lbr :: join_comma (map print (a :: r)) ++ [rbr].
Proof. reflexivity. Qed.

Lemma head_plain : forall p n,
  Forall plain p -> Forall (fun c => plain c /\ c <> dot) n -> Forall plain (head_str p n).
Proof.
  intros p n Hp Hn. unfold head_str. apply Forall_app. split.
  - destruct p; cbn [is_nil]; [constructor|]. apply Forall_app. split; [exact Hp|].
    constructor; [apply dot_plain|constructor].
  - eapply Forall_impl; [|exact Hn]. cbn. tauto.
Qed.

Lemma length_join_ge : forall (l : list bytes) x, In x l -> length x <= length (join_comma l).
Proof.
  induction l as [|y r IH]; intros x Hin; [contradiction|].
  destruct r as [|z r'].
  - destruct Hin as [->|[]]. rewrite join_comma_one. lia.
  - rewrite join_comma_cons2, app_length. cbn [length].
    destruct Hin as [->|Hin]; [lia|]. specialize (IH x Hin). lia.
Qed.

Lemma ident_no_dot : forall n, Forall (fun c => plain c /\ c <> dot) n -> ~ In dot n.
Proof. intros n Hn Hin. rewrite Forall_forall in Hn. destruct (Hn _ Hin) as [_ H]. apply H. reflexivity. Qed.

Lemma parse_base_head : forall p n, ~ In dot n -> parse_base (head_str p n) = Ok (PT (TRef p n [])).
Proof.
  intros p n Hnd.
  unfold parse_base, head_str. destruct (is_nil p) eqn:E.
  - destruct p; [|discriminate]. cbn [app].
    rewrite last_index_byte_none by exact Hnd. reflexivity.
  - assert (H0 : 0 < length p) by (destruct p; [discriminate|cbn; lia]).
    rewrite <- app_assoc. cbn [app].
    rewrite last_index_byte_app by exact Hnd.
    apply Nat.ltb_lt in H0. rewrite H0.
    rewrite substr_prefix, substr_after_sep. reflexivity.
Qed.

Lemma parse_no_bracket : forall fixed f s, ~ In lbr s -> parse fixed (S f) s = parse_base s.
Proof. intros fixed f s H. cbn [parse]. rewrite index_byte_none by exact H. reflexivity. Qed.

(* The argument loop (ref.go:89-106) without indices:
   [loop_acc] carries the bytes since the last commit ([cur]) instead of the offsets [started], [i];
   [bridge] shows it is the loop of the model followed by the final commit. *)

Definition norm (r : res lres) : res lres :=
  match r with Ok (LOk _ acc) => Ok (LOk 0 acc) | _ => r end.

Section LoopAcc.
  Variable rec : bytes -> res presult.

  Definition fin (cur : bytes) (acc : list tref) : res lres :=
    let! r := rec cur in
    match r with PT t => Ok (LOk 0 (acc ++ [t])) | PErr e => Ok (LErr e) end.

  Definition depth_step (fixed : bool) (c : ascii) (d : Z) : Z :=
    if Ascii.eqb c lbr then enter fixed d else if Ascii.eqb c rbr then leave fixed d else d.

  Fixpoint loop_acc (fixed : bool) (rest : bytes) (d : Z) (cur : bytes) (acc : list tref) : res lres :=
    match rest with
    | [] => fin cur acc
    | c :: rest' =>
        if Ascii.eqb c comma && at_top d then
          let! r := rec cur in
          match r with
          | PT t => loop_acc fixed rest' d [] (acc ++ [t])
          | PErr e => Ok (LErr e)
          end
        else loop_acc fixed rest' (depth_step fixed c d) (cur ++ [c]) acc
    end.

  Definition tail_of (tl : bytes) (r : res lres) : res lres :=
    let! x := r in
    match x with
    | LOk st acc => commit rec tl st (length tl) acc
    | LErr e => Ok (LErr e)
    end.

  Lemma bridge : forall fixed tl rest pre cur i d started acc,
    tl = pre ++ cur ++ rest -> started = length pre -> i = length pre + length cur ->
    norm (tail_of tl (split_loop rec fixed tl rest i d started acc)) = loop_acc fixed rest d cur acc.
  Proof.
    intros fixed tl. induction rest as [|c rest IH]; intros pre cur i d started acc Htl Hst Hi.
    - cbn [split_loop loop_acc tail_of bind]. unfold commit, fin.
      subst started i tl. rewrite app_nil_r, app_length.
      pose proof (substr_mid pre cur []) as Hs. rewrite app_nil_r in Hs. rewrite Hs. cbn [bind].
      destruct (rec cur) as [[t|e]| |]; reflexivity.
    - assert (Hstep : forall d', norm (tail_of tl (split_loop rec fixed tl rest (S i) d' started acc))
                                 = loop_acc fixed rest d' (cur ++ [c]) acc).
      { intros d'. apply (IH pre (cur ++ [c])); [|exact Hst|].
        - rewrite Htl, <- !app_assoc. reflexivity.
        - rewrite app_length. cbn. lia. }
      cbn [split_loop loop_acc]. unfold depth_step.
      destruct (Ascii.eqb c comma) eqn:Ec; [|destruct (Ascii.eqb c lbr); [|destruct (Ascii.eqb c rbr)]; apply Hstep].
      apply Ascii.eqb_eq in Ec. subst c. change (Ascii.eqb comma lbr) with false. change (Ascii.eqb comma rbr) with false.
      cbn iota. destruct (at_top d); [|apply Hstep].
      unfold commit. subst started i.
      replace (substr tl (length pre) (length pre + length cur)) with (@Ok bytes cur)
        by (rewrite Htl; symmetry; apply substr_mid).
      cbn [bind].
      destruct (rec cur) as [[t|e]| |]; cbn [bind tail_of norm]; try reflexivity.
      apply (IH (pre ++ cur ++ [comma]) []).
      + rewrite Htl, <- !app_assoc. reflexivity.
      + rewrite !app_length. cbn. lia.
      + rewrite !app_length. cbn. lia.
  Qed.

  (* bytes other than [ ] , never change the state *)
  Lemma loop_acc_plain : forall fixed u rest d cur acc,
    Forall plain u -> loop_acc fixed (u ++ rest) d cur acc = loop_acc fixed rest d (cur ++ u) acc.
  Proof.
    intros fixed. induction u as [|c u IH]; intros rest d cur acc Hu.
    - rewrite app_nil_r. reflexivity.
    - inversion Hu as [|? ? (H1 & H2 & H3) Hu']; subst. cbn [app loop_acc]. unfold depth_step.
      rewrite (eqb_neq _ _ H1), (eqb_neq _ _ H2), (eqb_neq _ _ H3). cbn [andb].
      rewrite IH by exact Hu'. rewrite <- app_assoc. reflexivity.
  Qed.

  Lemma loop_acc_join : forall l : list bytes,
    (forall x, In x l -> forall rest d cur acc, (0 <= d)%Z ->
       loop_acc true (x ++ rest) d cur acc = loop_acc true rest d (cur ++ x) acc) ->
    forall rest d cur acc, (0 < d)%Z ->
      loop_acc true (join_comma l ++ rest) d cur acc = loop_acc true rest d (cur ++ join_comma l) acc.
  Proof.
    induction l as [|x l IH]; intros Hl rest d cur acc Hd; [cbn; rewrite app_nil_r; reflexivity|].
    destruct l as [|y l'].
    - rewrite join_comma_one. apply Hl; [left; reflexivity|lia].
    - rewrite join_comma_cons2, <- app_assoc, Hl by (try (left; reflexivity); lia).
      cbn [app loop_acc].
      assert (Ht : at_top d = false) by (unfold at_top; apply Z.eqb_neq; lia).
      rewrite Ht, andb_false_r. change (depth_step true comma d) with d.
      rewrite IH by (try (intros z Hz; apply Hl; right; exact Hz); lia).
      rewrite <- !app_assoc. reflexivity.
  Qed.

  (* the depth counter: a whole printed reference is passed over at any depth >= 0 *)
  Lemma loop_acc_print : forall t, wf t -> forall rest d cur acc,
    (0 <= d)%Z ->
    loop_acc true (print t ++ rest) d cur acc = loop_acc true rest d (cur ++ print t) acc.
  Proof.
    induction t as [p n args IH] using tref_ind'. intros Hwf rest d cur acc Hd.
    apply wf_inv in Hwf. destruct Hwf as (Hp & Hne & Hn & Hargs).
    pose proof (head_plain p n Hp Hn) as Hh.
    destruct args as [|a r].
    - rewrite print_leaf. apply loop_acc_plain. exact Hh.
    - rewrite print_args, <- app_assoc, loop_acc_plain by exact Hh.
      cbn [app loop_acc]. change (Ascii.eqb lbr comma) with false. change (depth_step true lbr d) with (d + 1)%Z. cbn [andb].
      (* the arguments, at depth d+1 > 0 *)
      rewrite <- app_assoc, loop_acc_join; [|clear - IH Hargs|lia].
      + cbn [app loop_acc]. change (Ascii.eqb rbr comma) with false. change (depth_step true rbr (d + 1)) with (d + 1 - 1)%Z.
        cbn [andb]. replace (d + 1 - 1)%Z with d by lia.
        rewrite <- !app_assoc. reflexivity.
      + intros x Hx. apply in_map_iff in Hx. destruct Hx as (t & <- & Ht).
        rewrite Forall_forall in IH, Hargs. apply IH; [exact Ht|apply Hargs, Ht].
  Qed.

  (* at depth 0 the loop commits exactly at the separators of the printed list *)
  Lemma loop_acc_args : forall args,
    Forall wf args -> args <> [] ->
    (forall a, In a args -> rec (print a) = Ok (PT a)) ->
    forall acc, loop_acc true (join_comma (map print args)) 0%Z [] acc = Ok (LOk 0 (acc ++ args)).
  Proof.
    induction args as [|a r IH]; intros Hwf Hne Hrec acc; [congruence|].
    inversion Hwf as [|? ? Hwa Hwr]; subst.
    destruct r as [|b r'].
    - cbn [map]. rewrite join_comma_one.
      rewrite <- (app_nil_r (print a)). rewrite loop_acc_print by (try exact Hwa; lia).
      cbn [loop_acc app]. unfold fin. rewrite Hrec by (left; reflexivity). reflexivity.
    - cbn [map]. rewrite join_comma_cons2.
      rewrite loop_acc_print by (try exact Hwa; lia).
      cbn [app loop_acc]. change (Ascii.eqb comma comma && at_top 0) with true. cbn iota.
      rewrite Hrec by (left; reflexivity). cbn [bind].
      rewrite (IH Hwr) by (try discriminate; intros x Hx; apply Hrec; right; exact Hx).
      rewrite <- app_assoc. reflexivity.
  Qed.
End LoopAcc.

Definition finish (p n : bytes) (r : lres) : res presult :=
  match r with LOk _ acc => Ok (PT (TRef p n acc)) | LErr e => Ok (PErr e) end.

Lemma parse_S : forall fixed f s,
  parse fixed (S f) s =
  match index_byte lbr s with
  | Some i =>
      if 0 <? i then
        if ends_with_rbr s then
          let! pre := substr s 0 i in
          let! r0 := parse fixed f pre in
          match r0 with
          | PErr e => Ok (PErr e)
          | PT (TRef p n a0) =>
              let! tl := substr s (i + 1) (length s - 1) in
              bind (type_list (parse fixed f) fixed tl a0) (finish p n)
          end
        else Ok (PErr s)
      else parse_base s
  | None => parse_base s
  end.
Proof. reflexivity. Qed.

Lemma bind_finish_norm : forall (X : res lres) p n, bind X (finish p n) = bind (norm X) (finish p n).
Proof. intros [[st acc|e]| |] p n; reflexivity. Qed.

Lemma type_list_loop_acc : forall rec fixed tl a0,
  norm (type_list rec fixed tl a0) = loop_acc rec fixed tl 0%Z [] a0.
Proof.
  intros rec fixed tl a0. apply (bridge rec fixed tl tl [] [] 0 0%Z 0 a0); reflexivity.
Qed.

Lemma ends_with_rbr_app : forall a, ends_with_rbr (a ++ [rbr]) = true.
Proof.
  intros a. unfold ends_with_rbr. rewrite last_index_byte_app by (intros []).
  rewrite app_length. cbn [length]. apply Nat.eqb_eq. lia.
Qed.

Lemma head_nonempty : forall p n, n <> [] -> 0 < length (head_str p n).
Proof. intros p n H. unfold head_str. rewrite app_length. destruct n; [congruence|cbn; lia]. Qed.

Lemma last_case : forall l : bytes, l = [] \/ exists m x, l = m ++ [x].
Proof. induction l as [|x l _] using rev_ind; [left; reflexivity|right; eauto]. Qed.

Lemma ends_split : forall a b, ends_with_rbr (a ++ lbr :: b) = true -> exists m, b = m ++ [rbr].
Proof.
  intros a b H. unfold ends_with_rbr in H.
  destruct (last_index_byte rbr (a ++ lbr :: b)) as [j|] eqn:E; [|discriminate].
  apply Nat.eqb_eq in H. apply last_index_byte_spec in E. destruct E as (a' & b' & Hs & Hl & _).
  assert (Hb' : b' = []).
  { apply (f_equal (@length ascii)) in Hs. rewrite !app_length in Hs. cbn [length] in Hs.
    rewrite app_length in H. cbn [length] in H. destruct b'; [reflexivity|]. cbn [length] in Hs. lia. }
  subst b'. destruct (last_case b) as [->|(m & x & ->)].
  - apply app_inj_tail in Hs. destruct Hs as [_ Hs]. discriminate.
  - exists m. change (a ++ lbr :: m ++ [x]) with (a ++ (lbr :: m) ++ [x]) in Hs.
    rewrite app_assoc in Hs. apply app_inj_tail in Hs. destruct Hs as [_ ->]. reflexivity.
Qed.

Lemma substr_bracketed : forall a m,
  substr (a ++ lbr :: m ++ [rbr]) (length a + 1) (length (a ++ lbr :: m ++ [rbr]) - 1) = Ok m.
Proof.
  intros a m. pose proof (substr_mid (a ++ [lbr]) m [rbr]) as Hs.
  rewrite <- app_assoc in Hs. cbn [app] in Hs. rewrite app_length in Hs. cbn [length] in Hs.
  rewrite app_length. cbn [length]. rewrite app_length. cbn [length].
  replace (length a + S (length m + 1) - 1) with (length a + 1 + length m) by lia. exact Hs.
Qed.

(* The three ways ParseTypeRef goes: no usable '[' (the base case), a '[' but no ']' at the end (an error), or
   head[list] -- and then it parses the head and runs the argument loop over the list. *)
Lemma parse_cases : forall fixed f s,
  parse fixed (S f) s = parse_base s \/ parse fixed (S f) s = Ok (PErr s) \/
  exists a m, s = a ++ lbr :: m ++ [rbr] /\ ~ In lbr a /\ 0 < length a.
Proof.
  intros fixed f s. rewrite parse_S. destruct (index_byte lbr s) as [i|] eqn:E; [|auto].
  destruct (0 <? i) eqn:E0; [|auto]. destruct (ends_with_rbr s) eqn:Er; [|auto].
  right; right. apply index_byte_spec in E. destruct E as (a & b & -> & <- & Hna).
  destruct (ends_split a b Er) as (m & ->). apply Nat.ltb_lt in E0. eauto.
Qed.

Lemma parse_bracketed : forall fixed f a m, ~ In lbr a -> 0 < length a ->
  parse fixed (S f) (a ++ lbr :: m ++ [rbr]) =
  (let! r0 := parse fixed f a in
   match r0 with
   | PErr e => Ok (PErr e)
   | PT (TRef p n a0) => bind (loop_acc (parse fixed f) fixed m 0%Z [] a0) (finish p n)
   end).
Proof.
  intros fixed f a m Hna H0. rewrite parse_S, index_byte_app by exact Hna.
  apply Nat.ltb_lt in H0. rewrite H0.
  replace (a ++ lbr :: m ++ [rbr]) with ((a ++ lbr :: m) ++ [rbr]) at 1 by (rewrite <- app_assoc; reflexivity).
  rewrite ends_with_rbr_app, substr_prefix. cbn [bind].
  destruct (parse fixed f a) as [[[p n a0]|e]| |]; cbn [bind]; try reflexivity.
  rewrite substr_bracketed. cbn [bind]. rewrite bind_finish_norm, type_list_loop_acc. reflexivity.
Qed.

Theorem roundtrip : forall t, wf t -> forall fuel, length (print t) < fuel ->
  parse true fuel (print t) = Ok (PT t).
Proof.
  induction t as [p n args IH] using tref_ind'. intros Hwf fuel Hfuel.
  apply wf_inv in Hwf. destruct Hwf as (Hp & Hne & Hn & Hargs).
  pose proof (head_plain p n Hp Hn) as Hh.
  pose proof (Forall_plain_notin lbr _ lbr_not_plain Hh) as Hnl.
  destruct fuel as [|f]; [lia|].
  destruct args as [|a r].
  - rewrite print_leaf. rewrite parse_no_bracket by exact Hnl. apply parse_base_head, ident_no_dot, Hn.
  - rewrite print_args in *. rewrite app_length in Hfuel. cbn [length] in Hfuel. rewrite app_length in Hfuel.
    rewrite parse_bracketed by (try exact Hnl; apply head_nonempty; exact Hne).
    destruct f as [|f']; [lia|].
    rewrite (parse_no_bracket true f' _ Hnl), parse_base_head by apply ident_no_dot, Hn. cbn [bind].
    rewrite loop_acc_args; [reflexivity|exact Hargs|discriminate|].
    intros x Hx. rewrite Forall_forall in IH, Hargs. apply IH; [exact Hx|apply Hargs, Hx|].
    pose proof (length_join_ge (map print (a :: r)) (print x) (in_map print _ _ Hx)) as Hle. lia.
Qed.

Lemma print_qualified : forall p n args, p <> [] ->
  print (TRef p n args) = p ++ dot :: print (TRef [] n args).
Proof.
  intros p n args Hp. cbn [print]. unfold head_str.
  destruct p; [congruence|]. cbn [is_nil app]. rewrite <- !app_assoc. reflexivity.
Qed.

Lemma cut_bracket_print : forall p n args, wf (TRef p n args) ->
  cut_bracket (print (TRef p n args)) = Ok (head_str p n).
Proof.
  intros p n args Hwf. apply wf_inv in Hwf. destruct Hwf as (Hp & Hne & Hn & Hargs).
  pose proof (head_plain p n Hp Hn) as Hh.
  pose proof (Forall_plain_notin lbr _ lbr_not_plain Hh) as Hnl.
  unfold cut_bracket. destruct args as [|a r].
  - rewrite print_leaf, index_byte_none by exact Hnl. reflexivity.
  - rewrite print_args, index_byte_app by exact Hnl.
    pose proof (head_nonempty p n Hne) as H0. apply Nat.ltb_lt in H0. rewrite H0.
    apply substr_prefix.
Qed.

Lemma last_index_sub_le : forall needle s i, last_index_sub needle s = Some i -> i <= length s.
Proof.
  induction s as [|x r IH]; intros i H; cbn in H; [discriminate|].
  destruct (last_index_sub needle r) as [j|].
  - inversion H; subst. specialize (IH j eq_refl). cbn. lia.
  - destruct (has_prefix needle (x :: r)); [|discriminate]. inversion H. cbn. lia.
Qed.

Lemma import_go_path_total : forall p, exists g, import_go_path p = Ok g.
Proof.
  intros p. unfold import_go_path. destruct (last_index_sub vendor_seg p) as [i|] eqn:E; [|eauto].
  destruct (0 <? i); [|eauto].
  apply last_index_sub_le in E. destruct (substr_ok_iff p i (length p) E (le_n _)) as (r & Hr & _). eauto.
Qed.

Lemma import_go_path_plain : forall p, last_index_sub vendor_seg p = None -> import_go_path p = Ok p.
Proof. intros p H. unfold import_go_path. rewrite H. reflexivity. Qed.

(* both functions cut at the same place on EVERY string, and Ref.String() gives the string back *)
Theorem split_agree_any : forall s,
  (forall p n, parse_ref s = Ok (Some (p, n)) ->
     ref_string (p, n) = s /\
     exists g e, pkg_import_path_and_expose s = Ok (g, e) /\ import_go_path p = Ok g /\
                 cut_bracket s = Ok (p ++ dot :: e)) /\
  (parse_ref s = Ok None -> exists b, cut_bracket s = Ok b /\ pkg_import_path_and_expose s = Ok ([], b)).
Proof.
  intros s. unfold parse_ref, pkg_import_path_and_expose.
  assert (Hcut : exists b rest, cut_bracket s = Ok b /\ s = b ++ rest).
  { unfold cut_bracket. destruct (index_byte lbr s) as [i|] eqn:E.
    - destruct (0 <? i).
      + apply index_byte_spec in E. destruct E as (a & b & -> & <- & _).
        exists a, (lbr :: b). split; [apply substr_prefix|reflexivity].
      + exists s, []. rewrite app_nil_r. auto.
    - exists s, []. rewrite app_nil_r. auto. }
  destruct Hcut as (b & rest & Hb & Hs). rewrite Hb. cbn [bind].
  destruct (last_index_byte dot b) as [i|] eqn:E.
  2:{ split; [discriminate|]. intros _. eauto. }
  destruct (0 <? i) eqn:E0.
  2:{ split; [discriminate|]. intros _. eauto. }
  (* b = a.e: ParseRef cuts s at this dot, PkgImportPathAndExpose cuts b there *)
  apply last_index_byte_spec in E. destruct E as (a & e & -> & <- & _). subst s.
  rewrite <- app_assoc, !substr_prefix. cbn [bind app]. rewrite !substr_after_sep. cbn [bind].
  destruct (import_go_path_total a) as (g & Hg). rewrite Hg. cbn [bind].
  split; [|discriminate]. intros p n H. inversion H; subst p n. split.
  - reflexivity.
  - exists g, e. auto.
Qed.

Theorem split_agree : forall p n args, wf (TRef p n args) -> p <> [] ->
  parse_ref (print (TRef p n args)) = Ok (Some (p, print (TRef [] n args))) /\
  exists g, import_go_path p = Ok g /\
            pkg_import_path_and_expose (print (TRef p n args)) = Ok (g, n).
Proof.
  intros p n args Hwf Hpne. pose proof Hwf as Hwf0.
  apply wf_inv in Hwf. destruct Hwf as (Hp & Hne & Hn & Hargs).
  pose proof (ident_no_dot n Hn) as Hnd.
  assert (Hh : head_str p n = p ++ dot :: n).
  { unfold head_str. destruct p; [congruence|]. cbn [is_nil]. rewrite <- app_assoc. reflexivity. }
  assert (Href : parse_ref (print (TRef p n args)) = Ok (Some (p, print (TRef [] n args)))).
  { assert (H0 : (0 <? length p) = true) by (apply Nat.ltb_lt; destruct p; [congruence|cbn; lia]).
    unfold parse_ref. rewrite cut_bracket_print by exact Hwf0. cbn [bind].
    rewrite Hh, last_index_byte_app by exact Hnd. rewrite H0.
    rewrite print_qualified, substr_prefix by exact Hpne. cbn [bind].
    rewrite substr_after_sep. reflexivity. }
  split; [exact Href|].
  (* where parse_ref cuts, PkgImportPathAndExpose cuts as well *)
  destruct (proj1 (split_agree_any _) _ _ Href) as (_ & g & e & Hpk & Hg & Hc).
  rewrite cut_bracket_print, Hh in Hc by exact Hwf0. inversion Hc as [Hc']. apply app_inv_head in Hc'.
  inversion Hc'; subst e. eauto.
Qed.

Section NamerProofs.
  Variable tracker : Type.
  Variable add : tracker -> bytes -> tracker.
  Variable local_name : tracker -> bytes -> bytes.
  Variable self : bytes.

  Notation visit := (visit tracker add local_name self).
  Notation walk := (walk tracker add local_name self).
  Notation walk_list := (walk_list tracker add local_name self).
  Notation process_name := (process_name tracker add local_name self).
  Notation snippet_id := (snippet_id tracker add local_name self).

  (* the one thing asked of the tracker: a name handed out for a path is not changed by later additions *)
  Hypothesis stable : forall tr p qs,
    local_name (fold_left add qs (add tr p)) p = local_name (add tr p) p.

  Definition ren (tr : tracker) : bytes -> bytes := ren_paths (local_name tr) self.

  Lemma walk_eq : forall p n args tr,
    walk (TRef p n args) tr =
    let '(p', tr1) := visit p tr in
    let '(args', tr2) := walk_list args tr1 in
    (TRef p' n args', tr2).
  Proof. reflexivity. Qed.

  Lemma visit_spec : forall p tr,
    visit p tr = (if is_foreign self p then local_name (add tr p) p else [],
                  fold_left add (if is_foreign self p then [p] else []) tr).
  Proof.
    intros p tr. unfold TypeRef.visit, is_foreign.
    destruct p as [|c p]; cbn [is_nil negb andb]; [reflexivity|].
    destruct (bytes_eqb (c :: p) self); reflexivity.
  Qed.

  (* Walk in closed form.  A path is replaced by the name that ANY later tracker ([more] added on top of the final
     one) gives it: by [stable] that is the name it had when Walk added it. *)
  Definition walk_ok (t : tref) : Prop := forall tr more,
    walk t tr = (map_paths (ren (fold_left add more (fold_left add (foreign_pre self t) tr))) t,
                 fold_left add (foreign_pre self t) tr).

  Lemma walk_list_spec : forall l, Forall walk_ok l -> forall tr more,
    walk_list l tr =
    (map (map_paths (ren (fold_left add more (fold_left add (flat_map (foreign_pre self) l) tr)))) l,
     fold_left add (flat_map (foreign_pre self) l) tr).
  Proof.
    induction l as [|a r IH]; intros Hl tr more; [reflexivity|].
    inversion Hl as [|? ? Ha Hr]; subst. cbn [TypeRef.walk_list flat_map map].
    rewrite (Ha tr (flat_map (foreign_pre self) r ++ more)), (IH Hr _ more), !fold_left_app. reflexivity.
  Qed.

  Lemma walk_spec : forall t, walk_ok t.
  Proof.
    induction t as [p n args IH] using tref_ind'. intros tr more.
    rewrite walk_eq, visit_spec, (walk_list_spec args IH _ more). cbn [foreign_pre map_paths].
    rewrite !fold_left_app. f_equal. f_equal.
    unfold ren, ren_paths, is_foreign.
    destruct (is_nil p); cbn [negb andb]; [reflexivity|].
    destruct (bytes_eqb p self); cbn [negb]; [reflexivity|].
    cbn [fold_left]. rewrite <- fold_left_app. symmetry. apply stable.
  Qed.

  Lemma print_nonempty : forall p n args, n <> [] -> print (TRef p n args) <> [].
  Proof.
    intros p n args Hn H. cbn [print] in H. apply app_eq_nil in H. destruct H as [H _].
    unfold head_str in H. apply app_eq_nil in H. destruct H as [_ H]. contradiction.
  Qed.

  Lemma wf_drop_path : forall p n args, wf (TRef p n args) -> wf (TRef [] n args).
  Proof.
    intros p n args H. apply wf_inv in H. apply wf_inv. destruct H as (_ & H2 & H3 & H4).
    repeat split; auto.
  Qed.

  (* processName on the printed  Name[args]  part *)
  Lemma process_name_spec : forall n args tr, wf (TRef [] n args) -> forall more,
    process_name true tr (print (TRef [] n args)) =
    Ok (print (map_paths (ren (fold_left add more (fold_left add (flat_map (foreign_pre self) args) tr))) (TRef [] n args)),
        fold_left add (flat_map (foreign_pre self) args) tr).
  Proof.
    intros n args tr Hwf more. unfold TypeRef.process_name, parse_type_ref.
    rewrite roundtrip by (try exact Hwf; lia). cbn [bind t_args t_name].
    destruct args as [|a r]; cbn [is_nil].
    - cbn [map_paths map]. rewrite print_leaf. reflexivity.
    - rewrite (walk_spec _ tr more). reflexivity.
  Qed.

  Theorem rewrite_spec : forall tr p n args, wf (TRef p n args) -> p <> [] ->
    let tr' := fold_left add (foreign self (TRef p n args)) tr in
    snippet_id true tr (print (TRef p n args)) =
    Ok ((if bytes_eqb p self then [] else local_name tr' p ++ [dot])
          ++ print (map_paths (ren tr') (TRef [] n args)), tr').
  Proof.
    intros tr p n args Hwf Hp tr'.
    destruct (split_agree p n args Hwf Hp) as [Href _].
    unfold TypeRef.snippet_id. rewrite Href. cbn [bind].
    unfold TypeRef.namer_name.
    pose proof (process_name_spec n args tr (wf_drop_path _ _ _ Hwf)) as Hpn.
    unfold tr', foreign. cbn [t_args t_path]. unfold is_foreign.
    pose proof (Order.is_nil_false _ _ Hp) as Hnil.
    rewrite Hnil. cbn [negb andb].
    destruct (bytes_eqb p self); cbn [negb].
    - rewrite (Hpn []), app_nil_r. cbn [bind app fold_left].
      apply wf_inv in Hwf. destruct Hwf as (_ & Hn & _).
      cbn [map_paths]. destruct (print (TRef (ren _ _) _ _)) eqn:E; [|reflexivity]. exfalso. exact (print_nonempty _ _ _ Hn E).
    - rewrite (Hpn [p]), fold_left_app. cbn [bind fold_left]. rewrite <- app_assoc. reflexivity.
  Qed.

  (* when the package got a non-empty import name the result is the whole reference with renamed paths *)
  Corollary rewrite_spec_print : forall tr p n args, wf (TRef p n args) -> p <> [] ->
    let tr' := fold_left add (foreign self (TRef p n args)) tr in
    (bytes_eqb p self = true \/ local_name tr' p <> []) ->
    snippet_id true tr (print (TRef p n args)) = Ok (print (map_paths (ren tr') (TRef p n args)), tr').
  Proof.
    intros tr p n args Hwf Hp tr' Hname. unfold tr'. rewrite rewrite_spec by assumption. fold tr'.
    f_equal. f_equal. cbn [map_paths].
    pose proof (Order.is_nil_false _ _ Hp) as Hnil.
    destruct (bytes_eqb p self) eqn:E.
    - unfold ren at 3, ren_paths. rewrite Hnil, E. unfold ren at 1, ren_paths. cbn [is_nil]. reflexivity.
    - destruct Hname as [H|H]; [discriminate|].
      assert (Hr : ren tr' p = local_name tr' p) by (unfold ren, ren_paths; rewrite Hnil, E; reflexivity).
      rewrite Hr. rewrite (print_qualified (local_name tr' p)) by exact H.
      unfold ren at 1, ren_paths. cbn [is_nil]. rewrite <- app_assoc. reflexivity.
  Qed.

  Lemma is_foreign_spec : forall q, is_foreign self q = true <-> q <> [] /\ q <> self.
  Proof.
    intros q. unfold is_foreign. destruct q as [|c q]; cbn [is_nil negb andb].
    - split; [discriminate|intros [H _]; congruence].
    - rewrite negb_true_iff, Order.bytes_eqb_neq. split; [intros H; split; [discriminate|exact H]|intros [_ H]; exact H].
  Qed.

  Lemma foreign_pre_filter : forall t, foreign_pre self t = filter (is_foreign self) (all_paths t).
  Proof.
    induction t as [p n args IH] using tref_ind'. cbn [foreign_pre all_paths filter].
    assert (E : flat_map (foreign_pre self) args = filter (is_foreign self) (flat_map all_paths args)).
    { induction IH as [|a r Ha _ IHr]; [reflexivity|]. cbn [flat_map]. rewrite filter_app, Ha, IHr. reflexivity. }
    rewrite E. destruct (is_foreign self p); reflexivity.
  Qed.

  Lemma foreign_pre_iff : forall t q,
    In q (foreign_pre self t) <-> In q (all_paths t) /\ q <> [] /\ q <> self.
  Proof. intros t q. rewrite foreign_pre_filter, filter_In, is_foreign_spec. reflexivity. Qed.

  Lemma foreign_iff : forall t q,
    In q (foreign self t) <-> In q (all_paths t) /\ q <> [] /\ q <> self.
  Proof.
    intros [p n args] q. rewrite <- foreign_pre_iff. unfold foreign. cbn [t_args t_path foreign_pre].
    rewrite !in_app_iff. tauto.
  Qed.

  Lemma registered_fold : forall (paths : tracker -> list bytes),
    (forall tr p q, In q (paths (add tr p)) <-> q = p \/ In q (paths tr)) ->
    forall qs tr q, In q (paths (fold_left add qs tr)) <-> In q qs \/ In q (paths tr).
  Proof.
    intros paths Hadd. induction qs as [|x qs IH]; intros tr q; cbn [fold_left In].
    - tauto.
    - rewrite IH, Hadd. intuition congruence.
  Qed.
End NamerProofs.

Lemma parse_base_spec : forall s, exists p n, parse_base s = Ok (PT (TRef p n [])) /\ head_str p n = s.
Proof.
  intros s. unfold parse_base. destruct (last_index_byte dot s) as [i|] eqn:E; [|exists [], s; auto].
  destruct (0 <? i) eqn:E0; [|exists [], s; auto].
  apply last_index_byte_spec in E. destruct E as (a & b & -> & <- & _).
  rewrite substr_prefix, substr_after_sep. exists a, b. split; [reflexivity|].
  unfold head_str. destruct a; [discriminate|]. cbn [is_nil]. rewrite <- app_assoc. reflexivity.
Qed.

Lemma loop_acc_total : forall rec fixed L,
  (forall x, length x <= L -> exists r, rec x = Ok r) ->
  forall rest d cur acc, length cur + length rest <= L ->
  exists r, loop_acc rec fixed rest d cur acc = Ok r.
Proof.
  intros rec fixed L Hrec. induction rest as [|c rest IH]; intros d cur acc Hlen.
  - cbn [loop_acc]. unfold fin. destruct (Hrec cur) as (r & ->); [lia|]. cbn [bind]. destruct r; eauto.
  - cbn [loop_acc length] in *. destruct (Ascii.eqb c comma && at_top d).
    + destruct (Hrec cur) as (r & ->); [lia|]. cbn [bind]. destruct r; [|eauto]. apply IH. cbn [length]. lia.
    + apply IH. rewrite app_length. cbn [length]. lia.
Qed.

Theorem parse_total : forall fixed fuel s, length s < fuel -> exists r, parse fixed fuel s = Ok r.
Proof.
  intros fixed. induction fuel as [|f IH]; intros s Hlen; [lia|].
  destruct (parse_cases fixed f s) as [->|[->|(a & m & -> & Hna & H0)]]; [|eauto|].
  - destruct (parse_base_spec s) as (p & n & H & _). eauto.
  - rewrite parse_bracketed by assumption.
    rewrite app_length in Hlen. cbn [length] in Hlen. rewrite app_length in Hlen.
    destruct (IH a) as (r0 & ->); [lia|]. cbn [bind]. destruct r0 as [[p n a0]|e]; [|eauto].
    destruct (loop_acc_total (parse fixed f) fixed (length m)) with (rest := m) (d := 0%Z) (cur := @nil ascii) (acc := a0)
      as (r & ->); [intros x Hx; apply IH; lia|cbn [length]; lia|].
    destruct r; cbn [bind finish]; eauto.
Qed.

Lemma loop_acc_print_inv : forall rec fixed,
  (forall x t, rec x = Ok (PT t) -> print t = x) ->
  forall rest d cur acc st l,
    loop_acc rec fixed rest d cur acc = Ok (LOk st l) ->
    exists l', l = acc ++ l' /\ l' <> [] /\ join_comma (map print l') = cur ++ rest.
Proof.
  intros rec fixed Hrec. induction rest as [|c rest IH]; intros d cur acc st l H; cbn [loop_acc] in H.
  - unfold fin in H. destruct (rec cur) as [[t|e]| |] eqn:E; cbn [bind] in H; try discriminate.
    inversion H; subst. exists [t]. cbn [map]. rewrite join_comma_one, (Hrec _ _ E), app_nil_r.
    repeat split. discriminate.
  - destruct (Ascii.eqb c comma && at_top d) eqn:Ec.
    + destruct (rec cur) as [[t|e]| |] eqn:E; cbn [bind] in H; try discriminate.
      apply IH in H. destruct H as (l' & -> & Hne & Hj).
      apply andb_true_iff, proj1, Ascii.eqb_eq in Ec. subst c.
      exists (t :: l'). rewrite <- app_assoc. repeat split; [discriminate|].
      destruct l' as [|y l']; [congruence|]. cbn [map] in *. rewrite join_comma_cons2, Hj, (Hrec _ _ E). reflexivity.
    + apply IH in H. destruct H as (l' & -> & Hne & Hj). exists l'. rewrite Hj, <- app_assoc. auto.
Qed.

(* whenever ParseTypeRef returns a tree, String() of that tree is the input *)
Theorem print_parse_any : forall fixed fuel s t, parse fixed fuel s = Ok (PT t) -> print t = s.
Proof.
  intros fixed. induction fuel as [|f IH]; intros s t H; [discriminate|].
  destruct (parse_cases fixed f s) as [E|[E|(a & m & -> & Hna & H0)]]; [| |].
  - rewrite E in H. destruct (parse_base_spec s) as (p & n & H1 & <-). rewrite <- print_leaf. congruence.
  - rewrite E in H. discriminate.
  - rewrite parse_bracketed in H by assumption.
    destruct f as [|f']; [discriminate|]. rewrite (parse_no_bracket fixed f' a Hna) in H.
    destruct (parse_base_spec a) as (p & n & Ht0 & Hprint0). rewrite Ht0 in H. cbn [bind] in H.
    destruct (loop_acc (parse fixed (S f')) fixed m 0 [] []) as [[st l|e]| |] eqn:El; cbn [bind finish] in H; try discriminate.
    inversion H; subst t. clear H.
    apply loop_acc_print_inv in El; [|intros x t Hx; eapply IH; exact Hx].
    destruct El as (l' & -> & Hne & Hj). cbn [app] in *.
    destruct l' as [|x l]; [congruence|]. rewrite print_args, Hj.
    rewrite Hprint0. reflexivity.
Qed.

Lemma registers_exactly : forall (tracker : Type) (add : tracker -> bytes -> tracker) (self : bytes)
    (paths : tracker -> list bytes),
  (forall tr p q, In q (paths (add tr p)) <-> q = p \/ In q (paths tr)) ->
  forall t tr q,
    In q (paths (fold_left add (foreign self t) tr)) <->
    (In q (all_paths t) /\ q <> [] /\ q <> self) \/ In q (paths tr).
Proof.
  intros tracker add self paths Hadd t tr q.
  rewrite (registered_fold tracker add paths Hadd), foreign_iff. tauto.
Qed.

Lemma roundtrip_refuted_before_fix :
  exists t, wf t /\ parse_type_ref false (print t) <> Ok (PT t).
Proof.
  exists (TRef [] (bs "M") [TRef [] (bs "L") [TRef [] (bs "P") [TRef [] (bs "a") []; TRef [] (bs "b") []]; TRef [] (bs "c") []]]).
  split; [vm_compute; reflexivity | vm_compute; discriminate].
Qed.

Lemma parse_print_sentence : forall t, wf t ->
  exists t', parse_type_ref true (print t) = Ok (PT t') /\ print t' = print t.
Proof.
  intros t Hwf. exists t. split; [|reflexivity]. unfold parse_type_ref. apply roundtrip; [exact Hwf|lia].
Qed.

Lemma parse_type_ref_total : forall fixed s, exists r, parse_type_ref fixed s = Ok r.
Proof. intros fixed s. apply parse_total. lia. Qed.

(* a concrete tracker for the non-vacuity examples of Props/C15.v *)
Definition ex_add (tr : list bytes) (p : bytes) : list bytes := tr ++ [p].
Fixpoint ex_last_seg (acc p : bytes) : bytes :=
  match p with
  | [] => acc
  | c :: r => if Ascii.eqb c "/"%char then ex_last_seg [] r else ex_last_seg (acc ++ [c]) r
  end.
Definition ex_local (tr : list bytes) (p : bytes) : bytes := ex_last_seg [] p.


Lemma ex_tracker_hyp :
  (forall tr p qs, ex_local (fold_left ex_add qs (ex_add tr p)) p = ex_local (ex_add tr p) p) /\
  (forall tr p q, In q (ex_add tr p) <-> q = p \/ In q tr).
Proof.
  split; [reflexivity|]. intros tr p q. unfold ex_add. rewrite in_app_iff. cbn [In]. intuition congruence.
Qed.
