(* Lemmas about Model/InflectorRegexp.v, for EVERY pattern of the abstract syntax, every template and
   every text: the matcher and the ReplaceAllString loop never run out of fuel; a match lies inside
   the text, at or after the position the search started from; ReplaceAllString keeps the text before
   the leftmost match; the loop over the rules returns the input unchanged when no rule matches. *)
Require Import Coq.Arith.PeanoNat.
Require Import Gengo.Base.Bytes Gengo.Model.Inflector Gengo.Model.InflectorRegexp.
Require Gengo.Base.Order Gengo.Base.Assoc.

Definition ext (pos : nat) (t : bytes) (pos' : nat) (t' : bytes) : Prop :=
  exists u, t = u ++ t' /\ pos' = pos + length u.

Lemma ext_refl : forall pos t, ext pos t pos t.
Proof. intros pos t. exists []. split; [reflexivity|cbn; lia]. Qed.

Lemma ext_trans : forall p1 t1 p2 t2 p3 t3, ext p1 t1 p2 t2 -> ext p2 t2 p3 t3 -> ext p1 t1 p3 t3.
Proof.
  intros p1 t1 p2 t2 p3 t3 [u [E1 P1]] [v [E2 P2]]. exists (u ++ v). split.
  - rewrite E1, E2. rewrite app_assoc. reflexivity.
  - rewrite app_length. lia.
Qed.

Lemma ext_len : forall p t p' t', ext p t p' t' -> p <= p' /\ p' + length t' = p + length t.
Proof. intros p t p' t' [u [E P]]. subst t. rewrite app_length. lia. Qed.

Lemma ext_firstn : forall w t, w <= length t -> forall pos, ext pos t (pos + w) (skipn w t).
Proof.
  intros w t Hw pos. exists (firstn w t). split.
  - symmetry. apply firstn_skipn.
  - rewrite firstn_length_le by exact Hw. reflexivity.
Qed.

Lemma strip_prefix_app : forall pre t t', strip_prefix pre t = Some t' -> t = pre ++ t'.
Proof. intros pre t t'. apply Assoc.cut_prefix_iff. Qed.

Lemma eat_fold_app : forall c t t', eat_fold c t = Some t' -> exists u, t = u ++ t'.
Proof.
  intros c t t' H. unfold eat_fold in H. destruct t as [|x r]; [discriminate|].
  destruct (is_letter c).
  - destruct (byte_eqb (to_lower x) (to_lower c)).
    + inversion H. exists [x]. reflexivity.
    + destruct (byte_eqb (to_lower c) (b_ 115)).
      * exists long_s. apply strip_prefix_app. exact H.
      * destruct (byte_eqb (to_lower c) (b_ 107)); [|discriminate].
        exists kelvin. apply strip_prefix_app. exact H.
  - destruct (byte_eqb x c); [|discriminate]. inversion H. exists [x]. reflexivity.
Qed.

Lemma eat_lit_ext : forall fold c t w t' pos, eat_lit fold c t = Some (w, t') -> ext pos t (pos + w) t'.
Proof.
  intros fold c t w t' pos H. unfold eat_lit in H. destruct fold.
  - destruct (eat_fold c t) as [t1|] eqn:E; [|discriminate]. inversion H; subst t1 w.
    destruct (eat_fold_app _ _ _ E) as [u Hu]. exists u. split; [exact Hu|].
    subst t. rewrite app_length. lia.
  - destruct t as [|x r]; [discriminate|]. destruct (byte_eqb x c); [|discriminate].
    inversion H; subst. exists [x]. split; [reflexivity|reflexivity].
Qed.

(* every leaf of [rune_width] is a numeral: the bound is checked leaf by leaf, whatever the conditions are *)
Lemma if_le : forall (b : bool) x y n, x <= n -> y <= n -> (if b then x else y) <= n.
Proof. intros []; auto. Qed.

Lemma le_if : forall (b : bool) x y n, n <= x -> n <= y -> n <= (if b then x else y).
Proof. intros []; auto. Qed.

Lemma rune_width_le : forall t, rune_width t <= length t.
Proof.
  intros t. unfold rune_width.
  destruct t as [|b0 [|b1 [|b2 [|b3 r]]]]; cbn [length]; repeat apply if_le; repeat apply le_n_S; apply Nat.le_0_l.
Qed.

Lemma rune_width_pos : forall x t, 1 <= rune_width (x :: t).
Proof.
  intros x t. unfold rune_width.
  destruct t as [|b1 [|b2 [|b3 r]]]; repeat apply le_if; apply le_n_S, Nat.le_0_l.
Qed.

Local Opaque rune_width.

Lemma eat_any_ext : forall t w t' pos, eat_any t = Some (w, t') -> ext pos t (pos + w) t'.
Proof.
  intros t w t' pos H. unfold eat_any in H. destruct t as [|x r]; [discriminate|].
  destruct (byte_eqb x nl); [discriminate|]. injection H as <- <-.
  apply ext_firstn. apply rune_width_le.
Qed.

Lemma eat_class_ext : forall fold neg ms t w t' pos, eat_class fold neg ms t = Some (w, t') -> ext pos t (pos + w) t'.
Proof.
  intros fold neg ms t w t' pos H. unfold eat_class in H. destruct t as [|x r]; [discriminate|].
  destruct (xorb (class_member fold ms (x :: r)) neg); [|discriminate]. injection H as <- <-.
  apply ext_firstn. apply rune_width_le.
Qed.

(* Whatever [rmatch r k] returns at a state is "no match" or what the continuation k returns at a state
   that a declarative match of r leads to: a property of the result is proved by showing it of those.  That
   the repetition counter never runs out and that a reported match is a match are both read off this. *)

Definition outcome {A} (fold : bool) (r : re) (k : kont A) (pos : nat) (t : bytes) (x : mres A) : Prop :=
  forall P : mres A -> Prop,
  P MNo -> (forall pos' t' cs', matches fold r pos t pos' t' -> P (k pos' t' cs')) -> P x.

(* "x, or y when x is no match": alternatives, options and the repetition loop all end this way *)
Lemma orelse_cases : forall A (P : mres A -> Prop) x y, P x -> P y ->
  P (match x with MYes a => MYes a | MNo => y | MFuel => MFuel end).
Proof. intros A P [] y Hx Hy; assumption. Qed.

(* [length t < n]: an iteration that is not cut shortens the text, so the counter suffices *)
Lemma star_loop_outcome : forall A fold a (step : kont A -> kont A),
  (forall k pos t cs, outcome fold a k pos t (step k pos t cs)) ->
  forall k n pos t cs, length t < n -> outcome fold (RStar a) k pos t (star_loop A step k n pos t cs).
Proof.
  intros A fold a step Hstep k. induction n as [|n IH]; intros pos t cs Hn P H0 H; [lia|].
  cbn [star_loop]. apply orelse_cases; [|apply H, M_star_nil].
  apply Hstep; [exact H0|]. intros p1 t1 c1 M1.
  destruct (Nat.ltb_spec (length t1) (length t)) as [L|_]; [|exact H0].
  apply IH; [lia|exact H0|]. intros p2 t2 c2 M2. apply H. exact (M_star_more _ _ _ _ _ _ _ _ M1 M2).
Qed.

Lemma rmatch_outcome : forall fold A (r : re) (k : kont A) pos t cs,
  outcome fold r k pos t (rmatch fold A r k pos t cs).
Proof.
  intros fold A r. induction r as [|c| |neg ms| | |a IHa b IHb|a IHa b IHb|a IHa|a IHa|g a IHa];
    intros k pos t cs P H0 H; cbn [rmatch].
  - apply H, M_empty.
  - destruct (eat_lit fold c t) as [[w t']|] eqn:E; [apply H, M_char, E|exact H0].
  - destruct (eat_any t) as [[w t']|] eqn:E; [apply H, M_any, E|exact H0].
  - destruct (eat_class fold neg ms t) as [[w t']|] eqn:E; [apply H, M_class, E|exact H0].
  - destruct (Nat.eqb_spec pos 0) as [->|_]; [apply H, M_bol|exact H0].
  - destruct t; [apply H, M_eol|exact H0].
  - apply IHa; [exact H0|]. intros p1 t1 c1 M1. apply IHb; [exact H0|]. intros p2 t2 c2 M2.
    apply H. exact (M_cat _ _ _ _ _ _ _ _ _ M1 M2).
  - apply orelse_cases.
    + apply IHa; [exact H0|]. intros p1 t1 c1 M. apply H, M_alt_l, M.
    + apply IHb; [exact H0|]. intros p1 t1 c1 M. apply H, M_alt_r, M.
  - apply (star_loop_outcome A fold a _ IHa); [lia|exact H0|exact H].
  - apply orelse_cases; [|apply H, M_opt_none].
    apply IHa; [exact H0|]. intros p1 t1 c1 M. apply H, M_opt_some, M.
  - apply IHa; [exact H0|]. intros p1 t1 c1 M. apply H, M_group, M.
Qed.

Definition no_fuel {A} (k : kont A) : Prop := forall p t c, k p t c <> MFuel.

Lemma rmatch_no_fuel : forall fold A (r : re) (k : kont A) pos t cs,
  no_fuel k -> rmatch fold A r k pos t cs <> MFuel.
Proof.
  intros fold A r k pos t cs Hk. apply rmatch_outcome; [discriminate|]. intros p t' c _. apply Hk.
Qed.

Definition sound_for {A} (fold : bool) (r : re) (f : kont A -> kont A) : Prop :=
  forall k pos t cs x, f k pos t cs = MYes x ->
  exists pos' t' cs', matches fold r pos t pos' t' /\ k pos' t' cs' = MYes x.

Lemma rmatch_sound : forall fold A (r : re), sound_for fold r (rmatch fold A r).
Proof.
  intros fold A r k pos t cs x. apply rmatch_outcome; [discriminate|].
  intros p t' c M E. exists p, t', c. exact (conj M E).
Qed.

Lemma matches_ext : forall fold r pos t pos' t', matches fold r pos t pos' t' -> ext pos t pos' t'.
Proof.
  induction 1; eauto using ext_refl, ext_trans, eat_lit_ext, eat_any_ext, eat_class_ext.
Qed.

Definition yes_inv {A} (f : kont A -> kont A) : Prop :=
  forall k pos t cs x, f k pos t cs = MYes x ->
  exists pos' t' cs', ext pos t pos' t' /\ k pos' t' cs' = MYes x.

Lemma rmatch_yes : forall fold A (r : re), yes_inv (rmatch fold A r).
Proof.
  intros fold A r k pos t cs x H.
  destruct (rmatch_sound fold A r k pos t cs x H) as [p1 [t1 [c1 [M E]]]].
  exists p1, t1, c1. split; [exact (matches_ext _ _ _ _ _ _ M)|exact E].
Qed.

Lemma match_at_no_fuel : forall fold r pos t, match_at fold r pos t <> MFuel.
Proof. intros. unfold match_at. apply rmatch_no_fuel. intros p t' c. discriminate. Qed.

Lemma match_at_bounds : forall fold r pos t a0 a1 cs,
  match_at fold r pos t = MYes (a0, a1, cs) -> a0 = pos /\ pos <= a1 /\ a1 <= pos + length t.
Proof.
  intros fold r pos t a0 a1 cs H. unfold match_at in H. apply rmatch_yes in H.
  destruct H as [p1 [t1 [c1 [X H]]]]. inversion H; subst. apply ext_len in X. lia.
Qed.

Lemma skipn_add : forall (A : Type) a b (l : list A), skipn a (skipn b l) = skipn (a + b) l.
Proof.
  intros A a b. induction b as [|b IH]; intros l.
  - rewrite Nat.add_0_r. reflexivity.
  - rewrite Nat.add_succ_r. destruct l as [|x l]; [destruct a; reflexivity|]. cbn [skipn]. apply IH.
Qed.

Lemma search_from_outcome : forall fold r (P : mres found -> Prop) t pos skip,
  P MNo -> (forall n, n <= length t -> P (match_at fold r (n + pos) (skipn n t))) ->
  P (search_from fold r pos t skip).
Proof.
  intros fold r P. induction t as [|c t IH]; intros pos skip H0 H; cbn [search_from].
  - destruct skip; [|exact H0]. apply orelse_cases; [exact (H 0 (le_n 0))|exact H0].
  - assert (Hrec : forall k, P (search_from fold r (S pos) t k)).
    { intros k. apply IH; [exact H0|]. intros n Hn. rewrite Nat.add_succ_r. exact (H (S n) (le_n_S _ _ Hn)). }
    destruct skip; [|apply Hrec]. apply orelse_cases; [exact (H 0 (Nat.le_0_l _))|apply Hrec].
Qed.

Lemma search_no_fuel : forall fold r s pos, search fold r s pos <> MFuel.
Proof.
  intros fold r s pos. unfold search. apply search_from_outcome; [discriminate|]. intros n _. apply match_at_no_fuel.
Qed.

Lemma search_yes : forall fold r s pos x, search fold r s pos = MYes x ->
  exists a0, pos <= a0 /\ a0 <= pos + length (skipn pos s) /\ match_at fold r a0 (skipn a0 s) = MYes x.
Proof.
  intros fold r s pos x. unfold search. apply search_from_outcome; [discriminate|]. intros n Hn H.
  rewrite skipn_add in H. exists (n + pos). split; [lia|]. split; [lia|exact H].
Qed.

Lemma match_at_sound : forall fold r pos t a0 a1 cs,
  match_at fold r pos t = MYes (a0, a1, cs) -> exists t', matches fold r pos t a1 t'.
Proof.
  intros fold r pos t a0 a1 cs H. unfold match_at in H. apply rmatch_sound in H.
  destruct H as [p1 [t1 [c1 [X H]]]]. inversion H; subst. exists t1. exact X.
Qed.

Lemma search_bounds : forall fold r s pos a0 a1 cs, pos <= length s ->
  search fold r s pos = MYes (a0, a1, cs) -> pos <= a0 /\ a0 <= a1 /\ a1 <= length s.
Proof.
  intros fold r s pos a0 a1 cs Hp H. apply search_yes in H. destruct H as [b0 [B1 [B2 H]]].
  apply match_at_bounds in H. rewrite skipn_length in *. lia.
Qed.

Lemma search_sound : forall fold r s pos a0 a1 cs,
  search fold r s pos = MYes (a0, a1, cs) -> exists t', matches fold r a0 (skipn a0 s) a1 t'.
Proof.
  intros fold r s pos a0 a1 cs H. apply search_yes in H. destruct H as [b0 [_ [_ H]]].
  pose proof (match_at_bounds _ _ _ _ _ _ _ H) as [-> _]. exact (match_at_sound _ _ _ _ _ _ _ H).
Qed.

Section ReplaceLemmas.
  Variable fold : bool.
  Variable r : re.
  Variable tmpl : list titem.
  Variable s : bytes.

  (* every round moves searchPos forward: the loop returns *)
  Lemma replace_loop_returns : forall fuel last sp buf,
    sp <= length s + 1 -> length s + 2 <= sp + fuel ->
    exists out, replace_loop fold r tmpl s fuel last sp buf = Ok out.
  Proof.
    induction fuel as [|fuel IH]; intros last sp buf Hsp Hf; [lia|].
    cbn [replace_loop].
    destruct (Nat.ltb (length s) sp) eqn:E; [eexists; reflexivity|].
    apply Nat.ltb_ge in E.
    pose proof (search_no_fuel fold r s sp) as Hnf.
    destruct (search fold r s sp) as [[[a0 a1] cs]| |] eqn:Es; [|eexists; reflexivity|contradiction].
    apply (search_bounds _ _ _ _ _ _ _ E) in Es. destruct Es as [B1 [B2 B3]].
    pose proof (rune_width_le (skipn sp s)) as Hw. rewrite skipn_length in Hw.
    destruct (Nat.ltb_spec a1 (sp + rune_width (skipn sp s))); [|destruct (Nat.ltb_spec a1 (sp + 1))];
      apply IH; lia.
  Qed.

  Lemma replace_all_returns : exists out, replace_all fold r tmpl s = Ok out.
  Proof. unfold replace_all. apply replace_loop_returns; lia. Qed.

  Lemma replace_loop_appends : forall fuel last sp buf out,
    replace_loop fold r tmpl s fuel last sp buf = Ok out -> exists more, out = buf ++ more.
  Proof.
    induction fuel as [|fuel IH]; intros last sp buf out H; [discriminate|].
    cbn [replace_loop] in H.
    destruct (Nat.ltb (length s) sp); [inversion H; eexists; reflexivity|].
    destruct (search fold r s sp) as [[[a0 a1] cs]| |]; [|inversion H; eexists; reflexivity|discriminate].
    apply IH in H. destruct H as [more H]. subst out.
    destruct (Nat.ltb last a1 || Nat.eqb a0 0); rewrite <- ?app_assoc; eexists; reflexivity.
  Qed.

  (* ReplaceAllString keeps the text before the leftmost match *)
  Lemma replace_all_keeps_prefix : forall a0 a1 cs out,
    search fold r s 0 = MYes (a0, a1, cs) -> replace_all fold r tmpl s = Ok out ->
    exists more, out = firstn a0 s ++ more.
  Proof.
    intros a0 a1 cs out Hs H. unfold replace_all in H.
    rewrite Nat.add_succ_r in H. cbn [replace_loop] in H. change (Nat.ltb (length s) 0) with false in H.
    rewrite Hs in H. apply replace_loop_appends in H. destruct H as [more H].
    unfold slice in H. cbn [skipn app] in H. rewrite Nat.sub_0_r in H.
    destruct (Nat.ltb 0 a1 || Nat.eqb a0 0); rewrite <- ?app_assoc in H; eexists; exact H.
  Qed.
End ReplaceLemmas.

Lemma suffix_res_returns : forall rules s, exists out, suffix_res rules s = Ok out.
Proof.
  induction rules as [|c rules IH]; intros s; cbn [suffix_res].
  - eexists; reflexivity.
  - unfold match_string. pose proof (search_no_fuel (cr_fold c) (cr_re c) s 0) as Hnf.
    destruct (search (cr_fold c) (cr_re c) s 0).
    + apply replace_all_returns.
    + apply IH.
    + contradiction.
Qed.

Lemma suffix_fuel_suffices : forall rules s, suffix_res rules s = Ok (suffix_fn rules s).
Proof.
  intros rules s. unfold suffix_fn. destruct (suffix_res_returns rules s) as [out H]. rewrite H. reflexivity.
Qed.

Lemma suffix_fn_shape : forall rules s,
  match first_matching rules s with
  | None => suffix_fn rules s = s
  | Some (c, a0) => In c rules /\ a0 <= length s /\ exists more, suffix_fn rules s = firstn a0 s ++ more
  end.
Proof.
  intros rules s. unfold suffix_fn.
  induction rules as [|c rules IH]; cbn [first_matching suffix_res].
  - reflexivity.
  - unfold match_string. pose proof (search_no_fuel (cr_fold c) (cr_re c) s 0) as Hnf.
    destruct (search (cr_fold c) (cr_re c) s 0) as [[[a0 a1] cs]| |] eqn:E.
    + split; [left; reflexivity|]. split.
      * apply search_bounds in E; lia.
      * destruct (replace_all_returns (cr_fold c) (cr_re c) (cr_tmpl c) s) as [out Ho]. rewrite Ho.
        eapply replace_all_keeps_prefix; eassumption.
    + destruct (first_matching rules s) as [[c' a0]|].
      * destruct IH as [I1 I2]. split; [right; exact I1|exact I2].
      * exact IH.
    + contradiction.
Qed.
