(* toLocalName, read declaratively: split the joined segments into camel-case words, drop the
   words that are a single ASCII punctuation character or space, lower-case the rest, concatenate.
   (The title-casing LowerCamelCase applies to every word but the first is undone by the final
   strings.ToLower.)
   [kept] (a word that is not dropped) and [lowb] (the lower-cased byte of a rune), DEFINED here, occur in the statement
   of Props/C03.v. *)
Require Import Gengo.Base.Bytes Gengo.Model.CamelCase Gengo.Model.GoIdent Gengo.Model.Tracker.
Require Gengo.Base.Order.

Definition lowb (x : crune) : ascii := to_lower (ascii_of_N (c_code x)).

Definition byte_code (n : N) : Prop := (n < 256)%N.

Lemma to_lower_code_upper : forall n, (65 <= n)%N -> (n <= 90)%N ->
  to_lower (ascii_of_N n) = ascii_of_N (n + 32).
Proof.
  intros n H1 H2. unfold to_lower, is_upper. rewrite N_ascii_embedding by lia.
  now rewrite (proj2 (N.leb_le 65 n) H1), (proj2 (N.leb_le n 90) H2).
Qed.

(* [a_low] and [a_up] move a code only inside the ASCII letters, and there [to_lower] undoes the move: the lower-cased
   byte of a rune does not see them (whatever the code: one that is no byte is left alone by both) *)
Lemma lowb_a_low : forall r, lowb (a_low r) = lowb r.
Proof.
  intros [n c]. unfold a_low, lowb, c_code. cbn [fst]. destruct (N.leb 65 n && N.leb n 90) eqn:E; [|reflexivity]. cbn [fst].
  apply andb_true_iff in E. destruct E as [E1 E2]. apply N.leb_le in E1, E2.
  rewrite <- (to_lower_code_upper n E1 E2). apply Order.to_lower_other, Order.is_upper_to_lower.
Qed.

Lemma lowb_a_up : forall r, lowb (a_up r) = lowb r.
Proof.
  intros [n c]. unfold a_up, lowb, c_code. cbn [fst]. destruct (N.leb 97 n && N.leb n 122) eqn:E; [|reflexivity]. cbn [fst].
  apply andb_true_iff in E. destruct E as [E1 E2]. apply N.leb_le in E1, E2.
  replace n with (n - 32 + 32)%N at 2 by lia. rewrite <- to_lower_code_upper by lia.
  symmetry. apply Order.to_lower_other, Order.is_upper_to_lower.
Qed.

Lemma map_lowb_a_low : forall w, map lowb (map a_low w) = map lowb w.
Proof. intros w. rewrite map_map. apply map_ext, lowb_a_low. Qed.

Lemma map_lowb_a_title : forall w seen, map lowb (a_title seen w) = map lowb w.
Proof.
  induction w as [|r w IH]; intros seen; [reflexivity|]. cbn [a_title].
  destruct seen; [|destruct (a_cased r)]; cbn [map]; rewrite IH;
    [rewrite lowb_a_low|rewrite lowb_a_up|]; reflexivity.
Qed.

Lemma codes_lowb : forall a b, codes a = codes b -> map lowb a = map lowb b.
Proof.
  intros a b H. unfold lowb. rewrite <- !(map_map c_code (fun n => to_lower (ascii_of_N n))). exact (f_equal _ H).
Qed.

Lemma map_lowb_id : forall w, a_is_id w = true ->
  map lowb [(73, CUpper); (68, CUpper)]%N = map lowb w.
Proof.
  intros w H. unfold a_is_id in H. apply (list_eqb_spec N.eqb) in H; [|intros; apply N.eqb_eq].
  rewrite <- (map_lowb_a_low w).
  transitivity (map lowb [(105, CLower); (100, CLower)]%N); [vm_compute; reflexivity|].
  apply codes_lowb. rewrite H. reflexivity.
Qed.

Lemma t_camel_lowb : forall w idx,
  map lowb (t_camel crune (map a_low) (a_title false) a_is_id [(73, CUpper); (68, CUpper)]%N true w idx) = map lowb w.
Proof.
  intros w idx. unfold t_camel. destruct (true && Nat.eqb idx 0).
  - apply map_lowb_a_low.
  - destruct (a_is_id w) eqn:E.
    + apply map_lowb_id, E.
    + apply map_lowb_a_title.
Qed.

Definition kept (w : list crune) : bool := negb (droppable crune c_blen c_drop1 w).

Lemma mc_words_lowb : forall trans, (forall w idx, map lowb (trans w idx) = map lowb w) ->
  forall ws idx, map lowb (mc_words crune c_blen c_drop1 [] trans ws idx) = concat (map (map lowb) (filter kept ws)).
Proof.
  intros trans Htrans. induction ws as [|w ws IH]; intros idx; [reflexivity|]. cbn [mc_words filter].
  unfold kept at 1. destruct (droppable crune c_blen c_drop1 w); cbn [negb].
  - apply IH.
  - cbn [map concat]. rewrite !map_app, Htrans, IH. destruct idx; reflexivity.
Qed.

Require Import Gengo.Proofs.CamelCase.

Definition bytes_word (w : list crune) : Prop := Forall (fun r => (c_code r < 256)%N) w.

Lemma words_are_bytes : forall s ws,
  split crune c_cls true (Valid (map cr s)) = Ok ws -> Forall bytes_word ws.
Proof.
  intros s ws H. apply split_lossless in H. destruct H as [H _]. cbn [content] in H.
  apply Forall_forall. intros w Hw. apply Forall_forall. intros r Hr.
  assert (I : In r (concat ws)) by (apply in_concat; eauto).
  rewrite H in I. apply in_map_iff in I. destruct I as (c & <- & _). unfold cr, c_code. cbn [fst].
  apply N_ascii_bounded.
Qed.

Theorem raw_local_name_spec : forall parts,
  exists ws, split crune c_cls true (Valid (map cr (concat parts))) = Ok ws /\
             raw_local_name parts = Ok (concat (map (map lowb) (filter kept ws))).
Proof.
  intros parts. destruct (split_total crune c_cls (Valid (map cr (concat parts)))) as [ws Hs].
  exists ws. split; [exact Hs|]. unfold raw_local_name, c_conv, conv, make_case. rewrite Hs.
  f_equal. apply mc_words_lowb, t_camel_lowb.
Qed.
