(* Lemmas for C06 (Model/Dispatch.v).  IsGeneratorEnabled is a rule on the merged tags ([enabled_is_spec],
   [enabled_effective]) that reads them at the generator's own keys only ([enabled_ext]); sort.Strings erases the
   order in which a map was ranged over, so the type table and the calls made from it do not depend on that order;
   doGenerate makes exactly the calls the property asks for, up to the first failing one ([do_generate_spec], section
   FixedTable); the defer queue never runs out of fuel.
   Props/C06.v is stated with notions DEFINED here: [enabled_eff_spec] (the rule on declaration / package / global
   tags), [expected_calls] and [cut_err] (the calls asked for), [is_callback], [ev_pkg], [ev_decl] (reading an event),
   [pkg_wf] (the tables of a package are maps) and [pkg_perm] (the same package, its definitions in another order). *)
Require Import Gengo.Base.Bytes Gengo.Model.Dispatch.
Require Gengo.Base.Order Gengo.Base.Assoc.
Require Import Permutation Sorted.

Lemma bytes_eqb_sym : forall a b, bytes_eqb a b = bytes_eqb b a.
Proof. exact Order.bytes_eqb_sym. Qed.

(* [lookup] and [map_set] test [bytes_eqb k' k]: they are Base/Assoc.v's [get] and [set] for that test, by computation *)
Section MapLemmas.
  Context {V : Type}.
  Implicit Types (m : list (bytes * V)) (k : bytes) (v : V).

  Lemma lookup_Some_In : forall m k v, lookup k m = Some v -> In (k, v) m.
  Proof. exact (Assoc.get_Some_In _ Assoc.bytes_eqbP'). Qed.

  Lemma lookup_None_notin : forall m k, lookup k m = None <-> ~ In k (keys m).
  Proof. exact (Assoc.get_None _ Assoc.bytes_eqbP'). Qed.

  Lemma lookup_In : forall m k v, NoDup (keys m) -> In (k, v) m -> lookup k m = Some v.
  Proof. exact (Assoc.get_In _ Assoc.bytes_eqbP'). Qed.

  Lemma lookup_perm : forall m m' k, NoDup (keys m) -> Permutation m m' -> lookup k m = lookup k m'.
  Proof. exact (Assoc.get_perm _ Assoc.bytes_eqbP'). Qed.

  Lemma map_set_lookup : forall m k k' v, lookup k' (map_set k v m) = if bytes_eqb k k' then Some v else lookup k' m.
  Proof. intros m k k' v. exact (Assoc.get_set _ Assoc.bytes_eqbP' m k' k v). Qed.

  Lemma map_set_lookup_same : forall m k v, lookup k (map_set k v m) = Some v.
  Proof. intros m k v. now rewrite map_set_lookup, bytes_eqb_refl. Qed.

  Lemma map_set_lookup_other : forall m k k' v, k' <> k -> lookup k' (map_set k v m) = lookup k' m.
  Proof. intros m k k' v Hne. now rewrite map_set_lookup, (proj2 (Order.bytes_eqb_neq k k')) by congruence. Qed.

  Lemma map_set_keys_in : forall m k v k', In k' (keys (map_set k v m)) <-> k' = k \/ In k' (keys m).
  Proof. intros m k v k'. exact (Assoc.set_keys_in _ Assoc.bytes_eqbP' m k' k v). Qed.

  Lemma map_set_notin : forall m k v, ~ In k (keys m) -> map_set k v m = m ++ [(k, v)].
  Proof. exact (Assoc.set_notin _ Assoc.bytes_eqbP'). Qed.

  Lemma map_set_nodup : forall m k v, NoDup (keys m) -> NoDup (keys (map_set k v m)).
  Proof. exact (Assoc.set_NoDup _ Assoc.bytes_eqbP'). Qed.

  Lemma map_set_entries : forall m k v x, In x (map_set k v m) -> x = (k, v) \/ In x m.
  Proof. exact (Assoc.In_set (fun a b => bytes_eqb b a)). Qed.
End MapLemmas.

(* the declarative reading of the rule *)
Definition enabled_spec (g : bytes) (t : tags) : bool :=
  match lookup (gengo_prefix g) t with
  | Some vs => negb (bytes_eqb (concat vs) str_false)
  | None => existsb (fun kv => has_prefix (gengo_prefix g ++ colon) (fst kv)) t
  end.

Lemma enabled_loop_spec : forall p t acc,
  enabled_loop p t acc =
  match lookup p t with
  | Some vs => negb (bytes_eqb (concat vs) str_false)
  | None => acc || existsb (fun kv => has_prefix (p ++ colon) (fst kv)) t
  end.
Proof.
  induction t as [|[k vs] r IH]; intros acc; cbn [enabled_loop lookup existsb fst].
  - rewrite orb_false_r. reflexivity.
  - destruct (bytes_eqb k p) eqn:E; [reflexivity|].
    destruct (has_prefix (p ++ colon) k) eqn:H; rewrite IH; destruct (lookup p r); try reflexivity.
    cbn. rewrite orb_true_r. reflexivity.
Qed.

Lemma enabled_is_spec : forall g t, is_generator_enabled g t = enabled_spec g t.
Proof. intros g t. unfold is_generator_enabled, enabled_spec. rewrite enabled_loop_spec. reflexivity. Qed.

Lemma existsb_perm : forall {A} (f : A -> bool) l l', Permutation l l' -> existsb f l = existsb f l'.
Proof.
  intros A f l l' Hp. apply Order.existsb_ext_in. intros x.
  split; apply Permutation_in; [|symmetry]; exact Hp.
Qed.

(* only the tags of THIS generator matter: gengo:<g> and gengo:<g>:… *)
Definition relevant (g : bytes) (k : bytes) : bool :=
  bytes_eqb k (gengo_prefix g) || has_prefix (gengo_prefix g ++ colon) k.

Lemma existsb_keys : forall (f : bytes -> bool) (t : tags), existsb (fun kv => f (fst kv)) t = existsb f (keys t).
Proof. intros f t. induction t as [|[k v] r IH]; cbn; [reflexivity|]. rewrite IH. reflexivity. Qed.

Lemma enabled_ext : forall g t t',
  (forall k, relevant g k = true -> lookup k t = lookup k t') -> is_generator_enabled g t = is_generator_enabled g t'.
Proof.
  intros g t t' H. rewrite !enabled_is_spec. unfold enabled_spec.
  rewrite (H (gengo_prefix g)) by (unfold relevant; now rewrite bytes_eqb_refl).
  destruct (lookup (gengo_prefix g) t'); [reflexivity|].
  (* a key gengo:<g>:… of one map is a key of the other: [In k (keys m)] is [lookup k m <> None] *)
  rewrite !existsb_keys. apply eq_true_iff_eq. rewrite !existsb_exists.
  split; intros [k [Hin Hk]]; exists k; (split; [|exact Hk]);
    apply (Assoc.get_keys _ Assoc.bytes_eqbP') in Hin; apply (Assoc.get_keys _ Assoc.bytes_eqbP');
    intros E; apply Hin; rewrite <- E; [|symmetry]; apply H; unfold relevant; rewrite Hk; apply orb_true_r.
Qed.

Lemma enabled_order_independent : forall g t t',
  NoDup (keys t) -> Permutation t t' -> is_generator_enabled g t = is_generator_enabled g t'.
Proof. intros g t t' Hnd Hp. apply enabled_ext. intros k _. apply lookup_perm; assumption. Qed.

Lemma lookup_filter_keys : forall {V} (f : bytes -> bool) (m : list (bytes * V)) k,
  f k = true -> lookup k (filter (fun kv => f (fst kv)) m) = lookup k m.
Proof.
  intros V f m k Hk. induction m as [|[k' v'] r IH]; cbn; [reflexivity|].
  destruct (f k') eqn:Ef; cbn; [now rewrite IH|].
  destruct (Order.bytes_eqbP k' k) as [->|_]; [congruence | exact IH].
Qed.

Lemma enabled_only_own_tags : forall g t,
  is_generator_enabled g t = is_generator_enabled g (filter (fun kv => relevant g (fst kv)) t).
Proof. intros g t. apply enabled_ext. intros k Hk. symmetry. apply lookup_filter_keys, Hk. Qed.

Lemma has_prefix_app_inv : forall p q s, has_prefix (p ++ q) (p ++ s) = has_prefix q s.
Proof. exact Assoc.has_prefix_app_inv. Qed.

Lemma has_prefix_app : forall p s, has_prefix p (p ++ s) = true.
Proof. exact Assoc.has_prefix_app. Qed.

(* a tag of a generator whose name merely STARTS with g (next byte not ':') is not a tag of g *)
Lemma longer_name_not_relevant : forall g c rest tail,
  c <> ":"%char -> relevant g (gengo_prefix (g ++ c :: rest) ++ tail) = false.
Proof.
  intros g c rest tail Hc. unfold relevant, gengo_prefix. generalize (bs "gengo:"). intros pre.
  apply orb_false_iff. split.
  - apply Order.bytes_eqb_neq. intros H.
    rewrite <- !app_assoc in H. apply app_inv_head in H.
    rewrite <- (app_nil_r g) in H at 2. apply app_inv_head in H. discriminate.
  - rewrite <- !app_assoc. rewrite !has_prefix_app_inv.
    change colon with [":"%char]. cbn [has_prefix app].
    destruct (Ascii.eqb_spec ":" c); [congruence | reflexivity].
Qed.

Lemma enabled_ignores_longer_names : forall g c rest t,
  c <> ":"%char ->
  (forall k, In k (keys t) -> exists tail, k = gengo_prefix (g ++ c :: rest) ++ tail) ->
  is_generator_enabled g t = false.
Proof.
  intros g c rest t Hc Hall. apply (enabled_ext g t []). intros k Hk. apply lookup_None_notin. intros Hin.
  destruct (Hall k Hin) as [tail ->]. rewrite longer_name_not_relevant in Hk by exact Hc. discriminate.
Qed.

Lemma merge_into_lookup : forall t m k, NoDup (keys t) ->
  lookup k (merge_into m t) = match lookup k t with Some v => Some v | None => lookup k m end.
Proof. exact (Assoc.get_merge _ Assoc.bytes_eqbP'). Qed.

Lemma merge_into_nodup : forall t m, NoDup (keys m) -> NoDup (keys (merge_into m t)).
Proof. exact (Assoc.merge_NoDup _ Assoc.bytes_eqbP'). Qed.

Lemma merge_into_keys_in : forall t m k, In k (keys (merge_into m t)) <-> In k (keys m) \/ In k (keys t).
Proof. exact (Assoc.merge_keys_in _ Assoc.bytes_eqbP'). Qed.

Lemma merge_nodup_from : forall tl m, NoDup (keys m) -> NoDup (keys (fold_left merge_into tl m)).
Proof. induction tl as [|t tl IH]; intros m H; cbn; [exact H|]. apply IH. apply merge_into_nodup. exact H. Qed.

Lemma merge_nodup : forall tl, NoDup (keys (merge tl)).
Proof. intros tl. unfold merge. apply merge_nodup_from. constructor. Qed.

Definition or_else {A} (a b : option A) : option A := match a with Some x => Some x | None => b end.

Lemma doc_tags_lookup : forall G P d k,
  NoDup (keys G) -> NoDup (keys P) -> NoDup (keys (td_tags d)) ->
  lookup k (doc_tags G P d) = or_else (lookup k (td_tags d)) (or_else (lookup k P) (lookup k G)).
Proof.
  intros G P d k HG HP HD. unfold doc_tags, merge. cbn [fold_left].
  rewrite !merge_into_lookup by assumption. cbn [lookup].
  unfold or_else. destruct (lookup k (td_tags d)), (lookup k P), (lookup k G); reflexivity.
Qed.

Lemma doc_tags_keys_in : forall G P d k,
  In k (keys (doc_tags G P d)) <-> In k (keys (td_tags d)) \/ In k (keys P) \/ In k (keys G).
Proof.
  intros. unfold doc_tags, merge. cbn [fold_left]. rewrite !merge_into_keys_in. cbn.
  split; [intros [[[[]|H]|H]|H] | intros [H|[H|H]]]; auto.
Qed.

(* package tags: the later file wins *)
Lemma pkg_tags_lookup_snoc : forall files t k, NoDup (keys t) ->
  lookup k (pkg_tags (files ++ [t])) = or_else (lookup k t) (lookup k (pkg_tags files)).
Proof.
  intros files t k Hnd. unfold pkg_tags, merge. rewrite fold_left_app. cbn [fold_left].
  rewrite merge_into_lookup by exact Hnd. reflexivity.
Qed.

(* the rule, stated on the three levels *)
Definition enabled_eff_spec (g : bytes) (G P D : tags) : bool :=
  match or_else (lookup (gengo_prefix g) D) (or_else (lookup (gengo_prefix g) P) (lookup (gengo_prefix g) G)) with
  | Some vs => negb (bytes_eqb (concat vs) str_false)
  | None => existsb (has_prefix (gengo_prefix g ++ colon)) (keys D ++ keys P ++ keys G)
  end.

Lemma enabled_effective : forall g G P d t',
  NoDup (keys G) -> NoDup (keys P) -> NoDup (keys (td_tags d)) ->
  Permutation t' (doc_tags G P d) ->
  is_generator_enabled g t' = enabled_eff_spec g G P (td_tags d).
Proof.
  intros g G P d t' HG HP HD Hp.
  assert (Hnd : NoDup (keys (doc_tags G P d))) by apply merge_nodup.
  rewrite <- (enabled_order_independent g (doc_tags G P d) t' Hnd (Permutation_sym Hp)).
  rewrite enabled_is_spec. unfold enabled_spec, enabled_eff_spec.
  rewrite doc_tags_lookup by assumption.
  destruct (or_else _ _); [reflexivity|].
  rewrite existsb_keys. apply Order.existsb_ext_in.
  intros k. rewrite doc_tags_keys_in. rewrite !in_app_iff. reflexivity.
Qed.

(* sort.Strings: the model's byte order is convertible with Order.bytes_leb and its insertion sort is
   Order.sort_by, so what is needed about them comes from Base/Order.v *)
Lemma bytes_leb_refl : forall a, bytes_leb a a = true.
Proof. exact Order.bytes_leb_refl. Qed.

Section SortLemmas.
  Context {A : Type} (key : A -> bytes).
  Definition kle (x y : A) : Prop := bytes_leb (key x) (key y) = true.

  Lemma insert_by_eq : forall x l, insert_by key x l = Order.insert_by key Order.bytes_leb x l.
  Proof. intros x. induction l as [|y r IH]; cbn; [|rewrite IH]; reflexivity. Qed.

  Lemma insert_by_perm : forall x l, Permutation (x :: l) (insert_by key x l).
  Proof. intros x l. rewrite insert_by_eq. apply Order.insert_by_perm. Qed.

  Lemma insert_by_sorted : forall x l, StronglySorted kle l -> StronglySorted kle (insert_by key x l).
  Proof.
    intros x l. rewrite insert_by_eq.
    exact (Order.insert_by_sorted key Order.bytes_leb Order.bytes_leb_total Order.bytes_leb_trans x l).
  Qed.

  Lemma isort_by_eq : forall l, isort_by key l = Order.sort_by key Order.bytes_leb l.
  Proof. apply (Order.sort_by_unfold key Order.bytes_leb (insert_by key)); intros; destruct l; reflexivity. Qed.

  Lemma isort_by_perm : forall l, Permutation l (isort_by key l).
  Proof. intros l. rewrite isort_by_eq. apply Order.sort_by_perm. Qed.

  Lemma isort_by_In : forall l x, In x (isort_by key l) <-> In x l.
  Proof. intros l x. rewrite isort_by_eq. apply Order.sort_by_In. Qed.
End SortLemmas.

Lemma map_isort_by : forall {A} (key : A -> bytes) l, map key (isort_by key l) = sort_strings (map key l).
Proof. intros A key l. unfold sort_strings. rewrite !isort_by_eq. symmetry. apply Order.sort_by_map. reflexivity. Qed.

(* sort.Strings erases the order in which the keys of a map were ranged over *)
Lemma sort_strings_perm : forall l l', Permutation l l' -> sort_strings l = sort_strings l'.
Proof. intros l l' Hp. unfold sort_strings. rewrite !isort_by_eq. apply Order.sort_bytes_perm_eq, Hp. Qed.

Definition entry (d : tdef) : bytes * tdef := (td_name d, d).

(* the loop that fills the type table is a run of inserts of the declarations it does not skip *)
Lemma type_table_sets : forall sf l acc,
  fold_left (table_add sf) l acc
  = Assoc.sets (fun a b => bytes_eqb b a) td_name (fun d => d) (filter (fun d => negb (sf && negb (td_pkgscope d))) l) acc.
Proof.
  intros sf. apply Order.fold_left_filter. intros acc d. unfold table_add. now destruct (sf && negb (td_pkgscope d)).
Qed.

Lemma type_table_fixed_from : forall l acc,
  NoDup (keys acc ++ map td_name (filter td_pkgscope l)) ->
  fold_left (table_add true) l acc = acc ++ map entry (filter td_pkgscope l).
Proof.
  intros l acc. rewrite type_table_sets, (filter_ext (fun d => negb (true && negb (td_pkgscope d))) td_pkgscope) by (intros d; apply negb_involutive).
  apply (Assoc.sets_fresh _ Assoc.bytes_eqbP').
Qed.

Lemma type_table_fixed : forall defs,
  NoDup (map td_name (filter td_pkgscope defs)) ->
  type_table true defs = map entry (filter td_pkgscope defs).
Proof. intros defs H. unfold type_table. rewrite type_table_fixed_from; [reflexivity|exact H]. Qed.

Lemma keys_map_entry : forall l, keys (map entry l) = map td_name l.
Proof. intros l. unfold keys. rewrite map_map. reflexivity. Qed.

Lemma type_table_entries : forall sf defs n d, In (n, d) (type_table sf defs) -> In d defs.
Proof.
  intros sf defs n d H. unfold type_table in H. rewrite type_table_sets in H.
  apply Assoc.In_sets in H. destruct H as [[x [Hx [_ ->]]]|[]]. apply filter_In in Hx. apply Hx.
Qed.

(* the calls the property asks for, for one declaration *)
Definition call_of (g : gen) (G P : tags) (d : tdef) : list call :=
  match td_kind d with
  | KNamed => if enabled_eff_spec (g_name g) G P (td_tags d) then [(CT, d)] else []
  | KAlias => if enabled_eff_spec (g_name g) G P (td_tags d) && g_alias g then [(CA, d)] else []
  | KOther => []
  end.

(* … for a package: its package-scope declarations in name order *)
Definition expected_calls (g : gen) (G P : tags) (defs : list tdef) : list call :=
  flat_map (call_of g G P) (isort_by td_name (filter td_pkgscope defs)).

(* a generator error ends the loop: calls up to and including the first failing one *)
Fixpoint cut_err (cs : list call) : list call * bool :=
  match cs with
  | [] => ([], false)
  | c :: r => if is_err (td_action (snd c)) then ([c], true)
              else let (l, e) := cut_err r in (c :: l, e)
  end.

Lemma cut_err_no_err : forall cs, forallb (fun c => negb (is_err (td_action (snd c)))) cs = true -> cut_err cs = (cs, false).
Proof.
  induction cs as [|c r IH]; cbn; intros H; [reflexivity|].
  apply andb_true_iff in H. destruct H as [H1 H2]. apply negb_true_iff in H1. rewrite H1.
  rewrite IH by exact H2. reflexivity.
Qed.

(* which call, if any, doGenerate makes for a declaration; en = the generator is enabled for it *)
Definition call_kind (g : gen) (en : bool) (d : tdef) : option ckind :=
  match td_kind d with
  | KNamed => if en then Some CT else None
  | KAlias => if en && g_alias g then Some CA else None
  | KOther => None
  end.

Lemma call_kind_Some : forall g en d k,
  call_kind g en d = Some k <->
  en = true /\ ((k = CT /\ td_kind d = KNamed) \/ (k = CA /\ td_kind d = KAlias /\ g_alias g = true)).
Proof.
  intros g en d k. unfold call_kind. split.
  - destruct (td_kind d), en; try discriminate; [|destruct (g_alias g); [|discriminate]]; intros [= <-]; auto 6.
  - intros [-> [[-> E]|[-> [E ->]]]]; rewrite E; reflexivity.
Qed.

Lemma call_of_kind : forall g G P d,
  call_of g G P d = match call_kind g (enabled_eff_spec (g_name g) G P (td_tags d)) d with Some k => [(k, d)] | None => [] end.
Proof.
  intros g G P d. unfold call_of, call_kind.
  destruct (td_kind d), (enabled_eff_spec (g_name g) G P (td_tags d)); try reflexivity.
  destruct (g_alias g); reflexivity.
Qed.

Lemma gen_loop_cons : forall g G P tbl n r,
  gen_loop g G P tbl (n :: r) =
  match lookup n tbl with
  | None => Panic
  | Some d =>
      match call_kind g (is_generator_enabled (g_name g) (doc_tags G P d)) d with
      | Some k => if is_err (td_action d) then Ok ([(k, d)], true)
                  else let! (cs, e) := gen_loop g G P tbl r in Ok ((k, d) :: cs, e)
      | None => gen_loop g G P tbl r
      end
  end.
Proof.
  intros g G P tbl n r. cbn [gen_loop]. destruct (lookup n tbl) as [d|]; [|reflexivity]. unfold call_kind.
  destruct (td_kind d), (is_generator_enabled (g_name g) (doc_tags G P d)); try reflexivity.
  destruct (g_alias g); reflexivity.
Qed.

Lemma gen_loop_ext : forall g G P tbl tbl' ns,
  (forall n, lookup n tbl = lookup n tbl') -> gen_loop g G P tbl ns = gen_loop g G P tbl' ns.
Proof.
  intros g G P tbl tbl' ns H. induction ns as [|n r IH]; [reflexivity|]. rewrite !gen_loop_cons, H, IH. reflexivity.
Qed.

Lemma gen_loop_spec : forall g G P tbl L,
  NoDup (keys G) -> NoDup (keys P) ->
  (forall d, In d L -> lookup (td_name d) tbl = Some d /\ NoDup (keys (td_tags d))) ->
  gen_loop g G P tbl (map td_name L) = Ok (cut_err (flat_map (call_of g G P) L)).
Proof.
  intros g G P tbl L HG HP. induction L as [|d r IH]; intros Hall; [reflexivity|].
  cbn [map flat_map]. rewrite gen_loop_cons.
  destruct (Hall d) as [Hl Hd]; [left; reflexivity|]. rewrite Hl.
  rewrite (enabled_effective (g_name g) G P d _ HG HP Hd (Permutation_refl _)).
  rewrite IH by (intros d' Hd'; apply Hall; right; exact Hd').
  rewrite call_of_kind. destruct (call_kind _ _ d) as [k|]; [|reflexivity].
  cbn [app cut_err snd]. destruct (is_err (td_action d)); [reflexivity|].
  cbn [bind]. destruct (cut_err _); reflexivity.
Qed.

Lemma call_of_In_iff : forall g G P d k d',
  In (k, d') (call_of g G P d) <->
  d' = d /\ enabled_eff_spec (g_name g) G P (td_tags d) = true /\
  ((k = CT /\ td_kind d = KNamed) \/ (k = CA /\ td_kind d = KAlias /\ g_alias g = true)).
Proof.
  intros g G P d k d'. rewrite <- call_kind_Some, call_of_kind.
  destruct (call_kind _ _ d); cbn; intuition congruence.
Qed.

Lemma call_of_In : forall g G P d c, In c (call_of g G P d) -> snd c = d.
Proof. intros g G P d [k d'] H. apply call_of_In_iff in H. apply H. Qed.

Lemma call_of_cases : forall g G P d, call_of g G P d = [] \/ exists k, call_of g G P d = [(k, d)].
Proof. intros g G P d. rewrite call_of_kind. destruct (call_kind _ _ d); eauto. Qed.

Lemma flat_map_call_of_nodup : forall g G P L, NoDup L -> NoDup (flat_map (call_of g G P) L).
Proof.
  intros g G P L H. induction H as [|d r Hnotin Hnd IH]; cbn; [constructor|].
  destruct (call_of_cases g G P d) as [E|[k E]]; rewrite E; [exact IH|]. constructor; [|exact IH].
  intros Hc. apply in_flat_map in Hc. destruct Hc as [d' [Hd' Hc]]. apply call_of_In in Hc. cbn in Hc. congruence.
Qed.

Lemma expected_calls_nodup : forall g G P defs,
  NoDup (map td_name (filter td_pkgscope defs)) -> NoDup (expected_calls g G P defs).
Proof.
  intros g G P defs H. unfold expected_calls. apply flat_map_call_of_nodup.
  eapply Permutation_NoDup; [apply isort_by_perm|]. eapply NoDup_map_inv. exact H.
Qed.

Lemma expected_calls_In : forall g G P defs k d,
  In (k, d) (expected_calls g G P defs) <->
  In d defs /\ td_pkgscope d = true /\ enabled_eff_spec (g_name g) G P (td_tags d) = true /\
  ((k = CT /\ td_kind d = KNamed) \/ (k = CA /\ td_kind d = KAlias /\ g_alias g = true)).
Proof.
  intros g G P defs k d. unfold expected_calls. rewrite in_flat_map. split.
  - intros [d' [Hd' Hc]]. apply call_of_In_iff in Hc. destruct Hc as [-> Hc].
    apply isort_by_In, filter_In in Hd'. exact (conj (proj1 Hd') (conj (proj2 Hd') Hc)).
  - intros (Hin & Hs & Hk). exists d. split; [apply isort_by_In, filter_In | apply call_of_In_iff]; auto.
Qed.

Lemma qsize_app : forall a b, qsize (a ++ b) = qsize a + qsize b.
Proof.
  induction a as [|d a IH]; intros b; [reflexivity|].
  change (qsize ((d :: a) ++ b)) with (dsize d + qsize (a ++ b)).
  change (qsize (d :: a)) with (dsize d + qsize a). rewrite IH. apply PeanoNat.Nat.add_assoc.
Qed.

Lemma qsize_cons : forall id err nested r, qsize (DS id err nested :: r) = S (qsize nested + qsize r).
Proof. reflexivity. Qed.

(* enough fuel exists: the queue loop never runs out (callback forests are finite) *)
Lemma run_defers_queue_total : forall fuel q, qsize q <= fuel -> exists r, run_defers_queue fuel q = Ok r.
Proof.
  induction fuel as [|fuel IH]; intros q H.
  - destruct q as [|[id err nested] r]; [eexists; reflexivity|]. inversion H.
  - destruct q as [|[id err nested] r]; cbn [run_defers_queue]; [eexists; reflexivity|].
    destruct err; [eexists; reflexivity|]. apply le_S_n in H.
    destruct (IH (r ++ nested)) as [[l e] Hr]; [rewrite qsize_app, PeanoNat.Nat.add_comm; exact H|].
    rewrite Hr. eexists; reflexivity.
Qed.

Lemma firstn_prefix : forall {A} (a b l : list A), firstn (length a + length b) l = a ++ b -> firstn (length a) l = a.
Proof.
  induction a as [|x a IH]; intros b l H; [reflexivity|].
  destruct l as [|y l]; cbn in H; [discriminate|]. inversion H; subst. cbn. f_equal. eapply IH. eassumption.
Qed.

Lemma ids_all_app : forall a b, ids_all (a ++ b) = ids_all a ++ ids_all b.
Proof. intros. unfold ids_all. apply flat_map_app. Qed.

(* no callback fails: every callback of the forest runs exactly once (the list of ids run is a
   permutation of all ids), the directly registered ones first and in registration order *)
Lemma run_defers_queue_ok : forall fuel q, qsize q <= fuel -> forallb no_err_tree q = true ->
  exists l, run_defers_queue fuel q = Ok (l, false)
            /\ Permutation l (ids_all q) /\ firstn (length q) l = map root_id q.
Proof.
  induction fuel as [|fuel IH]; intros q H Hok.
  - destruct q as [|[id err nested] r]; [exists []; repeat split; constructor|]. inversion H.
  - destruct q as [|[id err nested] r]; [exists []; repeat split; constructor|]. apply le_S_n in H.
    cbn [forallb no_err_tree] in Hok. rewrite !andb_true_iff, negb_true_iff in Hok. destruct Hok as [[-> Hn] Hr].
    destruct (IH (r ++ nested)) as [l [Hrun [Hp Hf]]].
    { rewrite qsize_app, PeanoNat.Nat.add_comm. exact H. }
    { rewrite forallb_app, Hr, Hn. reflexivity. }
    exists (id :: l). cbn [run_defers_queue]. rewrite Hrun. split; [reflexivity|]. split.
    + change (ids_all (DS id false nested :: r)) with (id :: ids_all nested ++ ids_all r).
      apply perm_skip. rewrite Hp, ids_all_app. apply Permutation_app_comm.
    + cbn [length firstn map root_id]. f_equal.
      rewrite app_length, map_app in Hf. rewrite <- (map_length root_id r).
      apply (firstn_prefix (map root_id r) (map root_id nested) l). rewrite !map_length. exact Hf.
Qed.

(* the setting of the central statements: the scope fix is in, pi is ANY order in which the definitions are met and
   ns ANY order in which the table's keys are ranged over *)
Section FixedTable.
  Variables (p : N) (g : gen) (G P : tags) (defs pi : list tdef) (ns : list bytes).
  Hypothesis HG : NoDup (keys G).
  Hypothesis HP : NoDup (keys P).
  Hypothesis Htags : forall d, In d defs -> NoDup (keys (td_tags d)).
  Hypothesis Hnd : NoDup (map td_name (filter td_pkgscope defs)).
  Hypothesis Hpi : Permutation pi defs.
  Hypothesis Hns : Permutation ns (keys (type_table true pi)).

  (* pi and ns disappear: the loop ranges over the names of the package-scope declarations, sorted, and looks them up
     in a table that holds each under its name *)
  Lemma do_generate_sorted : do_generate g G P (type_table true pi) ns
    = gen_loop g G P (map entry (filter td_pkgscope defs)) (map td_name (isort_by td_name (filter td_pkgscope defs))).
  Proof.
    apply (Order.Permutation_filter td_pkgscope) in Hpi.
    assert (Hnd' : NoDup (map td_name (filter td_pkgscope pi))).
    { eapply Permutation_NoDup, Hnd. apply Permutation_map. symmetry. exact Hpi. }
    rewrite (type_table_fixed pi Hnd') in *. rewrite keys_map_entry in Hns. unfold do_generate.
    rewrite map_isort_by, (sort_strings_perm ns (map td_name (filter td_pkgscope defs)))
      by (rewrite Hns; apply Permutation_map, Hpi).
    apply gen_loop_ext. intros n. apply lookup_perm; [rewrite keys_map_entry; exact Hnd' | apply Permutation_map, Hpi].
  Qed.

  Lemma do_generate_spec : do_generate g G P (type_table true pi) ns = Ok (cut_err (expected_calls g G P defs)).
  Proof.
    rewrite do_generate_sorted. apply gen_loop_spec; try assumption.
    intros d Hd. apply isort_by_In in Hd. split.
    - apply lookup_In; [rewrite keys_map_entry; exact Hnd | apply (in_map entry), Hd].
    - apply Htags. apply filter_In in Hd. apply Hd.
  Qed.

  (* exactly once (no generator error): the In / NoDup reading *)
  Lemma exactly_once :
    (forall d, In d defs -> td_action d <> AErr) ->
    exists cs,
      do_generate g G P (type_table true pi) ns = Ok (cs, false)
      /\ NoDup cs
      /\ forall k d, In (k, d) cs <->
           In d defs /\ td_pkgscope d = true /\ enabled_eff_spec (g_name g) G P (td_tags d) = true /\
           ((k = CT /\ td_kind d = KNamed) \/ (k = CA /\ td_kind d = KAlias /\ g_alias g = true)).
  Proof.
    intros Hne. exists (expected_calls g G P defs). split; [|split].
    - rewrite do_generate_spec. f_equal. apply cut_err_no_err.
      apply forallb_forall. intros [k d] Hc. apply expected_calls_In in Hc. destruct Hc as [Hin _].
      cbn [snd]. specialize (Hne d Hin). destruct (td_action d); try reflexivity. congruence.
    - apply expected_calls_nodup. exact Hnd.
    - intros k d. apply expected_calls_In.
  Qed.

  Lemma session_fixed_spec :
    let cs := expected_calls g G P defs in
    forallb (fun c => negb (is_err (td_action (snd c)))) cs = true ->
    forallb no_err_tree (registered cs) = true ->
    exists ds,
      session fixed_all p g G P pi ns
        = Ok (map (event_of_call p g G P) cs ++ map (EDefer p (g_idx g)) ds, Done, rendered cs || negb (is_nil ds))
      /\ Permutation ds (ids_all (registered cs))
      /\ firstn (length (registered cs)) ds = map root_id (registered cs).
  Proof.
    intros cs Hne Hnd2. unfold session. cbn [fixed_all fx_scope fx_defer].
    rewrite do_generate_spec. fold cs. rewrite cut_err_no_err by exact Hne. cbn [bind].
    destruct (run_defers_queue_ok (qsize (registered cs)) (registered cs) (le_n _) Hnd2) as [l [Hr [Hp Hf]]].
    rewrite Hr. cbn [bind]. exists l. repeat split; assumption.
  Qed.
End FixedTable.

Definition is_callback (e : event) : bool := match e with EWrites _ _ => false | _ => true end.
Definition ev_pkg (e : event) : N := match e with EType p _ _ _ | EAlias p _ _ _ | EDefer p _ _ | EWrites p _ => p end.
Definition ev_decl (e : event) : option N := match e with EType _ _ i _ | EAlias _ _ i _ => Some i | _ => None end.

Definition own_event (p : N) (defs : list tdef) (e : event) : Prop :=
  is_callback e = true /\ ev_pkg e = p /\ forall i, ev_decl e = Some i -> exists d, In d defs /\ td_id d = i.

(* calls are made only for entries of the table, and the table holds only definitions of the package *)
Lemma gen_loop_calls_from_table : forall g G P tbl names cs e,
  gen_loop g G P tbl names = Ok (cs, e) -> forall c, In c cs -> exists n, lookup n tbl = Some (snd c).
Proof.
  intros g G P tbl. induction names as [|n r IH]; intros cs e H c Hc.
  - injection H as <- _. contradiction.
  - rewrite gen_loop_cons in H. destruct (lookup n tbl) as [d|] eqn:El; [|discriminate].
    destruct (call_kind _ _ d) as [k|]; [|exact (IH _ _ H c Hc)]. destruct (is_err (td_action d)).
    + injection H as <- _. destruct Hc as [<-|[]]. eauto.
    + destruct (gen_loop g G P tbl r) as [[cs0 e0]| |]; cbn [bind] in H; try discriminate.
      injection H as <- <-. destruct Hc as [<-|Hc]; [eauto | exact (IH _ _ eq_refl c Hc)].
Qed.

(* whatever the switches: the events of a session are call events followed by defer events, and the calls are
   for declarations of the package *)
Lemma session_calls : forall fx p g G P defs ns evs o b,
  session fx p g G P defs ns = Ok (evs, o, b) ->
  exists cs ds, evs = map (event_of_call p g G P) cs ++ map (EDefer p (g_idx g)) ds
                /\ forall c, In c cs -> In (snd c) defs.
Proof.
  intros fx p g G P defs ns evs o b H. apply Order.bind_ok in H. destruct H as [[cs e] [Eg H]].
  assert (Hcs : forall c, In c cs -> In (snd c) defs).
  { intros c Hc. destruct (gen_loop_calls_from_table _ _ _ _ _ _ _ Eg c Hc) as [n Hn].
    eapply type_table_entries, lookup_Some_In, Hn. }
  destruct e.
  - injection H as <- _ _. exists cs, []. rewrite app_nil_r. auto.
  - apply Order.bind_ok in H. destruct H as [[ds e2] [_ H]].
    destruct e2; injection H as <- _ _; exists cs, ds; auto.
Qed.

Lemma session_own_events : forall fx p g G P defs ns evs o b,
  session fx p g G P defs ns = Ok (evs, o, b) -> forall e, In e evs -> own_event p defs e.
Proof.
  intros fx p g G P defs ns evs o b H e He.
  destruct (session_calls _ _ _ _ _ _ _ _ _ _ H) as (cs & ds & -> & Hcs).
  apply in_app_or in He. destruct He as [He|He]; apply in_map_iff in He; destruct He as [x [<- Hx]].
  - unfold event_of_call. destruct (fst x); repeat split; intros i [= <-]; eauto.
  - repeat split. discriminate.
Qed.

Lemma pkg_gens_events : forall fx p gens G evs o ws,
  pkg_gens fx p gens G = Ok (evs, o, ws) -> forall e, In e evs -> own_event (pk_id p) (pk_defs p) e.
Proof.
  intros fx p. induction gens as [|g r IH]; intros G evs o ws H e He; cbn [pkg_gens] in H.
  - injection H as <- _ _. contradiction.
  - apply Order.bind_ok in H. destruct H as [[[evs1 o1] b1] [Es H]].
    pose proof (session_own_events _ _ _ _ _ _ _ _ _ _ Es e) as H1.
    destruct o1; [apply Order.bind_ok in H; destruct H as [[[evs2 o2] ws2] [Er H]]|..]; injection H as <- _ _; auto.
    apply in_app_or in He. destruct He; eauto.
Qed.

(* the callbacks of a package all come before its write event *)
Lemma pkg_execute_shape : forall fx p gens G evs o,
  pkg_execute fx p gens G = Ok (evs, o) ->
  exists cb w, evs = cb ++ w
    /\ (forall e, In e cb -> own_event (pk_id p) (pk_defs p) e)
    /\ (w = [] \/ (o = Done /\ exists ws, w = [EWrites (pk_id p) ws])).
Proof.
  intros fx p gens G evs o H. apply Order.bind_ok in H. destruct H as [[[evs1 o1] ws] [Eg H]].
  assert (Hcb := pkg_gens_events _ _ _ _ _ _ _ Eg).
  destruct o1; injection H as <- <-.
  - exists evs1. eexists. split; [reflexivity|]. split; [exact Hcb|].
    destruct (is_nil ws); [left; reflexivity | right; split; [reflexivity | eexists; reflexivity]].
  - exists evs1, []. rewrite app_nil_r. auto.
  - exists evs1, []. rewrite app_nil_r. auto.
Qed.

Lemma execute_events : forall fx all pkgs gens G evs o,
  execute fx all pkgs gens G = Ok (evs, o) ->
  forall e, In e evs ->
    Exists (fun p => all || pk_direct p = true /\ exists evs1 o1, pkg_execute fx p gens G = Ok (evs1, o1) /\ In e evs1) pkgs.
Proof.
  intros fx all. induction pkgs as [|p r IH]; intros gens G evs o H e He; cbn [execute] in H.
  - injection H as <- _. contradiction.
  - destruct (all || pk_direct p) eqn:Ep; [|apply Exists_cons_tl; eauto].
    apply Order.bind_ok in H. destruct H as [[evs1 o1] [Ex H]].
    assert (Hc : In e evs1 \/ exists evs2 o2, execute fx all r gens G = Ok (evs2, o2) /\ In e evs2).
    { destruct o1; [apply Order.bind_ok in H; destruct H as [[evs2 o2] [Er H]]|..]; injection H as <- _; auto.
      apply in_app_or in He. destruct He; eauto. }
    destruct Hc as [Hc|(evs2 & o2 & Er & Hc)]; [apply Exists_cons_hd | apply Exists_cons_tl]; eauto.
Qed.

(* types of other packages never: every call event of a run belongs to a processed package and is
   for a declaration of that package *)
Lemma execute_calls_own_package : forall fx all pkgs gens G evs o,
  execute fx all pkgs gens G = Ok (evs, o) ->
  forall e i, In e evs -> ev_decl e = Some i ->
    exists p, In p pkgs /\ (all || pk_direct p = true) /\ ev_pkg e = pk_id p /\ exists d, In d (pk_defs p) /\ td_id d = i.
Proof.
  intros fx all pkgs gens G evs o H e i He Hi.
  apply (execute_events _ _ _ _ _ _ _ H), Exists_exists in He. destruct He as (p & Hp & Ep & evs1 & o1 & Ex & He).
  exists p. destruct (pkg_execute_shape _ _ _ _ _ _ Ex) as (cb & w & -> & Hcb & Hw).
  apply in_app_or in He. destruct He as [He|He].
  - destruct (Hcb e He) as (_ & Hpk & Hd). auto.
  - destruct Hw as [->|[_ [ws ->]]]; [contradiction|]. destruct He as [<-|[]]. discriminate.
Qed.

Definition wit_gen : gen := mk_gen 0 (bs "deep") false.
Definition wit_globals : tags := [(bs "gengo:deep", [[]])].
Definition wit_T : tdef := mk_tdef 1 (bs "T") KNamed true [] ANil [].        (* type T struct{} *)
Definition wit_Tparam : tdef := mk_tdef 2 (bs "T") KOther false [] ANil [].  (* func F[T any]() *)
Definition wit_L : tdef := mk_tdef 3 (bs "L") KNamed false [] ANil [].       (* func G() { type L struct{} } *)

Lemma unfixed_table_order_dependent :
  exists defs pi1 pi2, Permutation pi1 defs /\ Permutation pi2 defs /\
    do_generate wit_gen wit_globals [] (type_table false pi1) (keys (type_table false pi1))
    <> do_generate wit_gen wit_globals [] (type_table false pi2) (keys (type_table false pi2)).
Proof.
  exists [wit_T; wit_Tparam], [wit_T; wit_Tparam], [wit_Tparam; wit_T].
  split; [apply Permutation_refl|]. split; [apply perm_swap|]. vm_compute. discriminate.
Qed.

Lemma unfixed_local_type_called :
  exists defs cs, do_generate wit_gen wit_globals [] (type_table false defs) (keys (type_table false defs)) = Ok (cs, false)
                  /\ In (CT, wit_L) cs /\ td_pkgscope wit_L = false.
Proof. exists [wit_L], [(CT, wit_L)]. split; [vm_compute; reflexivity|]. split; [left; reflexivity | reflexivity]. Qed.

Lemma snapshot_defer_loop_drops_nested :
  exists q, forallb no_err_tree q = true /\ In 502%N (ids_all q) /\ ~ In 502%N (fst (run_defers_snapshot q)).
Proof.
  exists [DS 501 false [DS 502 false []]]. split; [reflexivity|]. split; [right; left; reflexivity|].
  vm_compute. intros [H|[]]. discriminate.
Qed.

Definition pkg_wf (p : pkg) : Prop :=
  NoDup (map td_name (filter td_pkgscope (pk_defs p))) /\ (forall d, In d (pk_defs p) -> NoDup (keys (td_tags d))).
(* the same package, its definitions met in another order *)
Definition pkg_perm (p p' : pkg) : Prop :=
  pk_id p = pk_id p' /\ pk_direct p = pk_direct p' /\ pk_filetags p = pk_filetags p' /\ Permutation (pk_defs p') (pk_defs p).

(* both runs are the loop of [do_generate_sorted] for the definitions of p *)
Lemma session_default_perm : forall p p' g G,
  pkg_wf p -> pkg_perm p p' ->
  session_default fixed_all p g G = session_default fixed_all p' g G.
Proof.
  intros p p' g G [Hnd _] (Hid & _ & Hf & Hp).
  unfold session_default. rewrite <- Hid, <- Hf. unfold session. cbn [fixed_all fx_scope].
  rewrite !(do_generate_sorted g G _ (pk_defs p)); auto.
Qed.

Lemma pkg_gens_perm : forall p p' gens G,
  pkg_wf p -> pkg_perm p p' ->
  pkg_gens fixed_all p gens G = pkg_gens fixed_all p' gens G.
Proof.
  intros p p' gens G Hwf Hp. induction gens as [|g r IH]; cbn [pkg_gens]; [reflexivity|].
  rewrite (session_default_perm p p' g G Hwf Hp). rewrite IH. reflexivity.
Qed.

Lemma pkg_execute_perm : forall p p' gens G,
  pkg_wf p -> pkg_perm p p' ->
  pkg_execute fixed_all p gens G = pkg_execute fixed_all p' gens G.
Proof.
  intros p p' gens G Hwf Hp. unfold pkg_execute. rewrite (pkg_gens_perm p p' gens G Hwf Hp).
  destruct Hp as (Hid & _). rewrite Hid. reflexivity.
Qed.

Lemma execute_perm : forall all pkgs pkgs' gens G,
  Forall pkg_wf pkgs -> Forall2 pkg_perm pkgs pkgs' ->
  execute fixed_all all pkgs gens G = execute fixed_all all pkgs' gens G.
Proof.
  intros all pkgs pkgs' gens G Hwf H2. induction H2 as [|p p' r r' Hp Hr IH]; [reflexivity|].
  apply Forall_cons_iff in Hwf as [Hwfp Hwfr]. cbn [execute].
  rewrite (pkg_execute_perm p p' gens G Hwfp Hp). rewrite (IH Hwfr).
  destruct Hp as (_ & Hd & _). rewrite Hd. reflexivity.
Qed.
