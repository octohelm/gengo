(* Lemmas about Model/Inflector.v: totality of the repaired Rule.inflected, preservation of the
   prefix before a trailing irregular word, refutations for the code before the fix, and the
   side conditions of the extracted tables.
   [id_suffix], DEFINED here, is the suffix engine that changes nothing; Props/C20.v instantiates on it. *)
Require Import Gengo.Base.Bytes Gengo.Base.Order Gengo.Model.Inflector Gengo.Model.InflectorRegexp Gengo.Gen.InflectorTables
  Gengo.Model.InflectorApi.
Require Gengo.Base.Assoc.

Lemma byte_eqb_true : forall a b, byte_eqb a b = true -> a = b.
Proof. intros a b H. apply Ascii.eqb_eq. exact H. Qed.

Lemma lower_letter : forall c, is_letter c = true -> is_letter (to_lower c) = true.
Proof.
  intros c H. destruct (is_upper c) eqn:U.
  - unfold is_letter. rewrite (to_lower_upper c U). apply orb_true_r.
  - rewrite (to_lower_other c U). exact H.
Qed.

Lemma lower_idem_eqb : forall c, byte_eqb (to_lower c) (to_lower (to_lower c)) = true.
Proof.
  intros c. rewrite (to_lower_other (to_lower c)); [apply Ascii.eqb_refl | apply is_upper_to_lower].
Qed.

Lemma lower_is_lower_letter : forall c, is_lower (to_lower c) = true -> is_letter c = true.
Proof.
  intros c H. unfold is_letter. destruct (is_upper c) eqn:U; [reflexivity|].
  rewrite (to_lower_other c U) in H. exact H.
Qed.

Lemma letter_neq : forall c d, is_letter c = true -> is_letter d = false -> byte_eqb c d = false.
Proof.
  intros c d Hc Hd. destruct (byte_eqb c d) eqn:E; [|reflexivity].
  apply byte_eqb_true in E. subst d. rewrite Hc in Hd. discriminate Hd.
Qed.

(* 0xE2 is the first byte of U+212A *)
Lemma letter_not_e2 : forall c, is_letter c = true -> byte_eqb c (b_ 226) = false.
Proof. intros c H. exact (letter_neq c (b_ 226) H eq_refl). Qed.

Lemma letter_not_nl : forall c, is_letter c = true -> byte_eqb c nl = false.
Proof. intros c H. exact (letter_neq c nl H eq_refl). Qed.

Lemma letter_is_word : forall c, is_letter c = true -> is_word_byte c = true.
Proof. intros c H. unfold is_word_byte. rewrite H. reflexivity. Qed.

Lemma nl_not_word : is_word_byte nl = false.
Proof. reflexivity. Qed.

Definition letters (w : bytes) : Prop := forallb is_letter w = true.

Lemma letters_cons : forall c w, letters (c :: w) -> is_letter c = true /\ letters w.
Proof. intros c w H. unfold letters in *. cbn in H. apply andb_true_iff in H. exact H. Qed.

Lemma lower_word_letters : forall w, forallb is_lower (map to_lower w) = true -> letters w.
Proof.
  induction w as [|c w IH]; intros H.
  - reflexivity.
  - cbn in H. apply andb_true_iff in H. destruct H as [H1 H2].
    unfold letters. cbn. rewrite (lower_is_lower_letter c H1). apply IH. exact H2.
Qed.

Lemma eat_fold_lower_self : forall c r, is_letter c = true -> eat_fold (to_lower c) (c :: r) = Some r.
Proof.
  intros c r H. unfold eat_fold. rewrite (lower_letter c H). rewrite (lower_idem_eqb c). reflexivity.
Qed.

Lemma fold_match_lower_self : forall w, letters w -> fold_match (map to_lower w) w = true.
Proof.
  induction w as [|c w IH]; intros H.
  - reflexivity.
  - apply letters_cons in H. destruct H as [Hc Hw].
    cbn [map fold_match]. rewrite (eat_fold_lower_self c w Hc). apply IH. exact Hw.
Qed.

Lemma go_to_lower_letters : forall w, letters w -> go_to_lower w = map to_lower w.
Proof.
  induction w as [|a w IH]; intros H.
  - reflexivity.
  - apply letters_cons in H. destruct H as [Ha Hw].
    cbn [go_to_lower map]. rewrite (letter_not_e2 a Ha). cbn [andb].
    rewrite (IH Hw). destruct w as [|b [|c r]]; reflexivity.
Qed.

Lemma go_to_lower_nil : forall w, go_to_lower w = [] -> w = [].
Proof.
  intros [|a r]; [reflexivity|]. intros H. exfalso. revert H. cbn [go_to_lower].
  destruct r as [|b [|c r']]; try discriminate.
  match goal with |- context [if ?c then _ else _] => destruct c end; discriminate.
Qed.

(* [lookup], where a later duplicate overwrites, is Base/Assoc.v's [get] on the reversed table *)
Lemma lookup_eq : forall k tbl, lookup k tbl = Assoc.get bytes_eqb k (rev tbl).
Proof. apply Assoc.get_last_unfold. intros k [|[k' v] r]; reflexivity. Qed.

Lemma lookup_some_in : forall k tbl r, lookup k tbl = Some r -> In (k, r) tbl.
Proof. intros k tbl r H. rewrite lookup_eq in H. apply in_rev, (Assoc.get_Some_In _ bytes_eqbP), H. Qed.

Lemma lookup_in : forall k tbl, In k (map fst tbl) -> exists r, lookup k tbl = Some r.
Proof. intros k tbl H. rewrite lookup_eq. apply (Assoc.get_Some_keys _ bytes_eqbP). now rewrite map_rev, <- in_rev. Qed.

Lemma table_wf_in : forall tbl w r, table_wf tbl = true -> In (w, r) tbl ->
  w <> [] /\ forallb is_lower w = true /\ r <> [].
Proof.
  intros tbl w r Hwf Hin. unfold table_wf in Hwf. rewrite forallb_forall in Hwf.
  specialize (Hwf (w, r) Hin). cbn in Hwf.
  apply andb_true_iff in Hwf. destruct Hwf as [Hwf H3]. apply andb_true_iff in Hwf. destruct Hwf as [H1 H2].
  repeat split.
  - intros ->. discriminate.
  - exact H2.
  - intros ->. discriminate.
Qed.

Lemma table_wf_word : forall tbl w, table_wf tbl = true -> In w (map fst tbl) ->
  w <> [] /\ forallb is_lower w = true.
Proof.
  intros tbl w Hwf Hin. apply in_map_iff in Hin. destruct Hin as [[w' r] [E Hin]]. cbn in E. subst.
  destruct (table_wf_in tbl w r Hwf Hin) as [A [B _]]. split; assumption.
Qed.

Lemma inflected_total :
  forall tbl unf suffix, table_wf tbl = true ->
  forall s, exists r, inflected true tbl unf suffix s = Ok r.
Proof.
  intros tbl unf suffix Hwf s. unfold inflected.
  assert (Hrest : exists r, rest unf suffix s = Ok r).
  { unfold rest. destruct (uninflected_match unf s); eexists; reflexivity. }
  destruct (irregular_match (map fst tbl) s) as [[[skipped cap1] word]|]; [|exact Hrest].
  destruct (lookup (go_to_lower word) tbl) as [repl|] eqn:El; [|exact Hrest].
  apply lookup_some_in in El. destruct (table_wf_in _ _ _ Hwf El) as [Hk [_ Hr]].
  destruct word as [|c word]; [exfalso; apply Hk; reflexivity|].
  destruct repl as [|d repl]; [contradiction|].
  cbn. eexists. reflexivity.
Qed.

Lemma last_opt_app : forall x y a, last_opt a (x ++ y) = last_opt (last_opt a x) y.
Proof. induction x as [|c x IH]; intros y a; cbn; [reflexivity|apply IH]. Qed.

Lemma last_line_no_nl : forall w, forallb (fun c => negb (byte_eqb c nl)) w = true -> last_line w = ([], w).
Proof.
  induction w as [|c w IH]; intros H.
  - reflexivity.
  - cbn in H. apply andb_true_iff in H. destruct H as [Hc Hw].
    cbn [last_line]. rewrite (IH Hw). cbv beta iota. apply negb_true_iff in Hc. rewrite Hc. reflexivity.
Qed.

Lemma last_line_app : forall p w, forallb (fun c => negb (byte_eqb c nl)) w = true ->
  last_line (p ++ w) = (fst (last_line p), snd (last_line p) ++ w).
Proof.
  induction p as [|c p IH]; intros w Hw.
  - cbn [app]. rewrite (last_line_no_nl w Hw). reflexivity.
  - cbn [app last_line]. rewrite (IH w Hw). destruct (last_line p) as [a l]. cbn [fst snd].
    destruct a as [|a0 a].
    + destruct (byte_eqb c nl); reflexivity.
    + reflexivity.
Qed.

Lemma last_line_concat : forall p, fst (last_line p) ++ snd (last_line p) = p.
Proof.
  induction p as [|c p IH].
  - reflexivity.
  - cbn [last_line]. destruct (last_line p) as [a l]. cbn [fst snd] in *.
    destruct a as [|a0 a].
    + cbn in IH. subst. destruct (byte_eqb c nl); reflexivity.
    + cbn. rewrite <- IH. reflexivity.
Qed.

Lemma last_line_prev : forall p a,
  last_opt a (fst (last_line p)) = if is_nil (fst (last_line p)) then a else Some nl.
Proof.
  induction p as [|c p IH]; intros a.
  - reflexivity.
  - cbn [last_line]. specialize (IH (Some c)). destruct (last_line p) as [x l]. cbn [fst] in *.
    destruct x as [|x0 x].
    + destruct (byte_eqb c nl) eqn:E; cbn; [|reflexivity].
      apply byte_eqb_true in E. subst. reflexivity.
    + cbn [fst last_opt is_nil]. cbn [is_nil] in IH. exact IH.
Qed.

Section Cut.
  Variable words : list bytes.
  Hypothesis words_nonempty : forall w, In w words -> w <> [].

  Lemma not_table_word_nil : is_table_word words [] = false.
  Proof.
    unfold is_table_word. apply not_true_is_false. intros H. apply existsb_exists in H.
    destruct H as [w [Hin Hm]]. destruct w as [|c w]; [exact (words_nonempty [] Hin eq_refl)|].
    cbn in Hm. discriminate.
  Qed.

  (* inside a run of letters there is no word boundary, and at its end no (non-empty) word is left *)
  Lemma last_cut_inside : forall w c, letters w -> is_letter c = true -> last_cut words (Some c) w = None.
  Proof.
    induction w as [|d w IH]; intros c Hw Hc.
    - cbn. unfold valid_cut. rewrite not_table_word_nil. rewrite andb_false_r. reflexivity.
    - apply letters_cons in Hw. destruct Hw as [Hd Hw].
      cbn [last_cut]. rewrite (IH d Hw Hd).
      unfold valid_cut, boundary. cbn [wordb hd_error].
      rewrite (letter_is_word c Hc), (letter_is_word d Hd). reflexivity.
  Qed.

  Lemma last_cut_app : forall l w prev,
    letters w -> valid_cut words (last_opt prev l) w = true ->
    last_cut words prev (l ++ w) = Some (l, w).
  Proof.
    induction l as [|x l IH]; intros w prev Hw Hv.
    - cbn [app]. cbn [last_opt] in Hv. destruct w as [|c w].
      + cbn. rewrite Hv. reflexivity.
      + pose proof (letters_cons _ _ Hw) as [Hc Hw'].
        cbn [last_cut]. rewrite (last_cut_inside w c Hw' Hc). rewrite Hv. reflexivity.
    - cbn [app last_cut]. cbn [last_opt] in Hv. rewrite (IH w (Some x) Hw Hv). reflexivity.
  Qed.

  Lemma irregular_match_app : forall p w,
    letters w -> is_table_word words w = true -> at_boundary p = true ->
    irregular_match words (p ++ w) = Some (fst (last_line p), snd (last_line p), w).
  Proof.
    intros p w Hw Ht Hb. unfold irregular_match.
    assert (Hnl : forallb (fun c => negb (byte_eqb c nl)) w = true).
    { clear - Hw. induction w as [|c w IH]; [reflexivity|].
      apply letters_cons in Hw. destruct Hw as [Hc Hw]. cbn. rewrite (letter_not_nl c Hc). cbn. apply IH. exact Hw. }
    rewrite (last_line_app p w Hnl).
    rewrite last_cut_app; [reflexivity|exact Hw|].
    rewrite <- (last_line_prev p None), <- last_opt_app, last_line_concat.
    unfold valid_cut, boundary. rewrite Ht. rewrite andb_true_r.
    unfold at_boundary in Hb. apply negb_true_iff in Hb. rewrite Hb.
    destruct w as [|c w]; [rewrite not_table_word_nil in Ht; discriminate|].
    apply letters_cons in Hw. destruct Hw as [Hc _]. cbn. rewrite (letter_is_word c Hc). reflexivity.
  Qed.
End Cut.

Lemma irregular_is_table_word : forall tbl w, letters w -> irregular tbl w ->
  is_table_word (map fst tbl) w = true.
Proof.
  intros tbl w Hw Hin. unfold is_table_word. apply existsb_exists.
  exists (map to_lower w). split; [exact Hin|apply fold_match_lower_self; exact Hw].
Qed.

Lemma irregular_letters : forall tbl w, table_wf tbl = true -> irregular tbl w -> letters w /\ w <> [].
Proof.
  intros tbl w Hwf Hin. destruct (table_wf_word tbl _ Hwf Hin) as [Hne Hlow]. split.
  - apply lower_word_letters. exact Hlow.
  - intros ->. apply Hne. reflexivity.
Qed.

(* After any boundary the irregular expression matches  p ++ w  with w as group 2, so the repaired code answers
   from the table. *)
Lemma inflected_irregular_shape : forall tbl unf, table_wf tbl = true -> forall w, irregular tbl w ->
  exists c w' d repl, w = c :: w' /\ lookup (map to_lower w) tbl = Some (d :: repl)
    /\ forall p, at_boundary p = true ->
       reaches_suffix true tbl unf (p ++ w) = false
       /\ forall suffix, inflected true tbl unf suffix (p ++ w) = Ok (p ++ c :: repl).
Proof.
  intros tbl unf Hwf w Hirr.
  destruct (irregular_letters tbl w Hwf Hirr) as [Hw Hne].
  destruct (lookup_in _ tbl Hirr) as [r Hr].
  destruct (table_wf_in _ _ _ Hwf (lookup_some_in _ _ _ Hr)) as [_ [_ Hrne]].
  destruct w as [|c w']; [contradiction|]. destruct r as [|d repl]; [contradiction|].
  exists c, w', d, repl. split; [reflexivity|]. split; [exact Hr|]. intros p Hb.
  pose proof (irregular_match_app (map fst tbl) (fun x Hx => proj1 (table_wf_word tbl x Hwf Hx))
                p (c :: w') Hw (irregular_is_table_word tbl _ Hw Hirr) Hb) as Hm.
  unfold reaches_suffix, inflected. rewrite Hm, (go_to_lower_letters _ Hw), Hr. split; [reflexivity|].
  intros suffix. cbn [slice_0_1 slice_from_1 bind]. rewrite app_assoc, last_line_concat. reflexivity.
Qed.

Lemma at_boundary_nil : at_boundary [] = true.
Proof. reflexivity. Qed.

Lemma inflected_prefix_preserved :
  forall tbl unf suffix, table_wf tbl = true ->
  forall p w, irregular tbl w -> at_boundary p = true ->
  exists r, inflected true tbl unf suffix w = Ok r
         /\ inflected true tbl unf suffix (p ++ w) = Ok (p ++ r).
Proof.
  intros tbl unf suffix Hwf p w Hirr Hb.
  destruct (inflected_irregular_shape tbl unf Hwf w Hirr) as [c [_ [_ [repl [_ [_ H]]]]]].
  exists (c :: repl). split; [exact (proj2 (H [] at_boundary_nil) suffix)|exact (proj2 (H p Hb) suffix)].
Qed.

(* the irregular word alone: its own first byte, then the replacement without its first byte *)
Lemma inflected_irregular_alone :
  forall tbl unf suffix, table_wf tbl = true ->
  forall w, irregular tbl w ->
  exists c w' d repl, w = c :: w' /\ lookup (map to_lower w) tbl = Some (d :: repl)
    /\ inflected true tbl unf suffix w = Ok (c :: repl).
Proof.
  intros tbl unf suffix Hwf w Hirr.
  destruct (inflected_irregular_shape tbl unf Hwf w Hirr) as [c [w' [d [repl [Ew [Hl H]]]]]].
  exists c, w', d, repl. exact (conj Ew (conj Hl (proj2 (H [] at_boundary_nil) suffix))).
Qed.

Lemma irregularb_spec : forall tbl w, irregularb tbl w = true <-> irregular tbl w.
Proof.
  intros tbl w. unfold irregularb, irregular. rewrite <- existsb_bytes_eqb_in.
  induction tbl as [|wr tbl IH]; cbn; [reflexivity|]. rewrite !orb_true_iff, IH. reflexivity.
Qed.

(* The parsed uninflected lists are what every evaluation of [api] on a concrete string needs again:
   they are evaluated once, in the form their users rewrite with.  Rule.Init concatenates the common
   list, today much the longer part of either, with the plural or the singular one, and the parser goes
   through the concatenation: the common list is parsed once for both. *)

Lemma plural_wf : table_wf plural_irregular = true.
Proof. vm_compute. reflexivity. Qed.

Lemma singular_wf : table_wf singular_irregular = true.
Proof. vm_compute. reflexivity. Qed.

Lemma parse_patterns_app : forall a b,
  parse_patterns (a ++ b) =
  match parse_patterns a, parse_patterns b with Some x, Some y => Some (x ++ y) | _, _ => None end.
Proof.
  induction a as [|p a IH]; intros b; cbn [app parse_patterns].
  - destruct (parse_patterns b); reflexivity.
  - rewrite IH. destruct (parse_pattern (S (length p)) p), (parse_patterns a), (parse_patterns b); reflexivity.
Qed.

Definition common_parsed : list (list atom) := Eval vm_compute in unf_of uninflected_common.
Definition plurals_parsed : list (list atom) := Eval vm_compute in unf_of uninflected_plurals.
Definition singulars_parsed : list (list atom) := Eval vm_compute in unf_of uninflected_singulars.

(* [a = b] by evaluating a and comparing it with b as it stands: unlike [vm_compute; reflexivity], this
   leaves b, the name of a large normal form, folded in the proof term *)
Ltac eval_to_rhs := match goal with |- ?a = ?b => exact (@eq_refl _ b <: a = b) end.

Lemma common_parse : parse_patterns uninflected_common = Some common_parsed.
Proof. eval_to_rhs. Qed.

Lemma plural_parse : parse_patterns plural_unf_src = Some (common_parsed ++ plurals_parsed).
Proof.
  assert (E : parse_patterns uninflected_plurals = Some plurals_parsed) by eval_to_rhs.
  unfold plural_unf_src. rewrite parse_patterns_app, common_parse, E. reflexivity.
Qed.

Lemma singular_parse : parse_patterns singular_unf_src = Some (common_parsed ++ singulars_parsed).
Proof.
  assert (E : parse_patterns uninflected_singulars = Some singulars_parsed) by eval_to_rhs.
  unfold singular_unf_src. rewrite parse_patterns_app, common_parse, E. reflexivity.
Qed.

Lemma tables_ok : tables_wf = true.
Proof.
  unfold tables_wf.
  rewrite plural_wf, singular_wf, plural_parse, singular_parse. vm_compute. reflexivity.
Qed.

Lemma api_unf_parsed : forall plural,
  api_unf plural = common_parsed ++ if plural then plurals_parsed else singulars_parsed.
Proof.
  intros plural. unfold api_unf, plural_unf, singular_unf, unf_of.
  rewrite plural_parse, singular_parse. destruct plural; reflexivity.
Qed.

Lemma api_table_wf : forall plural, table_wf (api_table plural) = true.
Proof. intros []; [exact plural_wf|exact singular_wf]. Qed.

(* Pluralize and Singularize are the same Rule.inflected over their own table and uninflected list *)
Lemma api_eq : forall fixed plural suffix s,
  api fixed plural suffix s = inflected fixed (api_table plural) (api_unf plural) suffix s.
Proof. intros fixed plural suffix s. unfold api, api_table, api_unf. destruct plural; reflexivity. Qed.

Lemma api_total : forall plural suffix s, exists r, api true plural suffix s = Ok r.
Proof. intros plural suffix s. rewrite api_eq. apply inflected_total, api_table_wf. Qed.

Lemma api_prefix_preserved :
  forall plural suffix p w, irregular (api_table plural) w -> at_boundary p = true ->
  exists r, api true plural suffix w = Ok r /\ api true plural suffix (p ++ w) = Ok (p ++ r).
Proof.
  intros plural suffix p w Hirr Hb. rewrite !api_eq.
  apply inflected_prefix_preserved; [apply api_table_wf|exact Hirr|exact Hb].
Qed.

Lemma inflected_suffix_independent : forall fixed tbl unf s,
  reaches_suffix fixed tbl unf s = false ->
  forall f g, inflected fixed tbl unf f s = inflected fixed tbl unf g s.
Proof.
  intros fixed tbl unf s H f g. unfold reaches_suffix in H. unfold inflected, rest.
  destruct (irregular_match (map fst tbl) s) as [[[skipped cap1] word]|].
  - destruct fixed; [|reflexivity].
    destruct (lookup (go_to_lower word) tbl); [reflexivity|].
    apply negb_false_iff in H. rewrite H. reflexivity.
  - apply negb_false_iff in H. rewrite H. reflexivity.
Qed.

Lemma inflected_reaches_suffix : forall tbl unf s,
  reaches_suffix true tbl unf s = true ->
  forall f, inflected true tbl unf f s = Ok (f s).
Proof.
  intros tbl unf s H f. unfold reaches_suffix in H. unfold inflected, rest.
  destruct (irregular_match (map fst tbl) s) as [[[skipped cap1] word]|].
  - destruct (lookup (go_to_lower word) tbl); [discriminate|].
    apply negb_true_iff in H. rewrite H. reflexivity.
  - apply negb_true_iff in H. rewrite H. reflexivity.
Qed.

Lemma irregular_never_reaches_suffix : forall tbl unf, table_wf tbl = true ->
  forall p w, irregular tbl w -> at_boundary p = true -> reaches_suffix true tbl unf (p ++ w) = false.
Proof.
  intros tbl unf Hwf p w Hirr Hb.
  destruct (inflected_irregular_shape tbl unf Hwf w Hirr) as [c [w' [d [repl [_ [_ H]]]]]]. exact (proj1 (H p Hb)).
Qed.

Lemma uninflected_never_reaches_suffix : forall fixed tbl unf s,
  uninflected_match unf s = true -> reaches_suffix fixed tbl unf s = false.
Proof.
  intros fixed tbl unf s H. unfold reaches_suffix. rewrite H.
  destruct (irregular_match (map fst tbl) s) as [[[skipped cap1] word]|]; [|reflexivity].
  destruct fixed; [|reflexivity]. destruct (lookup (go_to_lower word) tbl); reflexivity.
Qed.

Definition id_suffix (s : bytes) : bytes := s.

(* Pluralize("atlaſ") panicked *)
Lemma old_total_refuted : exists s, api false true id_suffix s = Panic.
Proof. exists (hx "61746c61c5bf"). vm_compute. reflexivity. Qed.

(* Pluralize("my sex") = "my mexes" although Pluralize("sex") = "sexes" *)
Lemma old_prefix_refuted :
  exists p w, irregular plural_irregular w /\ at_boundary p = true
    /\ api false true id_suffix w = Ok (bs "sexes")
    /\ api false true id_suffix (p ++ w) = Ok (bs "my mexes").
Proof.
  exists (bs "my "), (bs "sex"). split; [|split; [|split]].
  - apply irregularb_spec. vm_compute. reflexivity.
  - reflexivity.
  - vm_compute. reflexivity.
  - vm_compute. reflexivity.
Qed.

(* Pluralize("a\nperson") = "aeople": the text before the last newline is dropped *)
Lemma old_newline_refuted :
  exists p w, irregular plural_irregular w /\ at_boundary p = true
    /\ api false true id_suffix (p ++ w) = Ok (bs "aeople").
Proof.
  exists (hx "610a"), (bs "person"). split; [|split].
  - apply irregularb_spec. vm_compute. reflexivity.
  - reflexivity.
  - vm_compute. reflexivity.
Qed.
