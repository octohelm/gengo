(* C02: what every kind of failure leads to (the verdict of a logged call decides the outcome), what a failed
   run leaves untouched, and that gengo.sum is written by the last two effects only. *)
Require Import Gengo.Base.Bytes Gengo.Model.Pipeline Gengo.Spec.PipelineSpec Gengo.Proofs.Pipeline
  Gengo.Proofs.PipelinePkg.

Lemma verdict_not_done : forall e o, ev_verdict e = Some o -> o <> Done.
Proof.
  intros e o H Hd. subst o. destruct e as [g p t b r|g p i b r]; destruct r; cbn in H; discriminate H.
Qed.

(* Every level of the run composes traces in the same way: a part that ended with Done is followed by the next
   part, a part that did not is the end.  [decides] is kept by that composition. *)
Definition decides (tr : trace) (out : outcome) : Prop :=
  forall e o, In e tr -> ev_verdict e = Some o -> out = o.

Lemma decides_nil : forall out, decides [] out.
Proof. intros out e o []. Qed.

Lemma decides_one : forall e o, ev_verdict e = Some o -> decides [e] o.
Proof. intros e o H e' o' [<-|[]] H'. congruence. Qed.

(* a trace that allows Done holds no verdict at all *)
Lemma decides_done : forall tr out, decides tr Done -> decides tr out.
Proof. intros tr out H e o Hin Hv. destruct (verdict_not_done e o Hv). symmetry. exact (H e o Hin Hv). Qed.

Lemma decides_cons : forall e tr out, ev_verdict e = None -> decides tr out -> decides (e :: tr) out.
Proof. intros e tr out He H e' o [<-|Hin] Hv; [congruence | exact (H e' o Hin Hv)]. Qed.

Lemma decides_app : forall t1 t2 out, decides t1 Done -> decides t2 out -> decides (t1 ++ t2) out.
Proof.
  intros t1 t2 out H1 H2 e o Hin Hv. apply in_app_or in Hin.
  destruct Hin as [Hin|Hin]; [exact (decides_done t1 out H1 e o Hin Hv) | exact (H2 e o Hin Hv)].
Qed.

Section C02.
Variable E : env.

Lemma call_loop_verdict : forall g p tys st,
  decides (ro_trace (call_loop E g p st tys)) (ro_out (call_loop E g p st tys)).
Proof.
  intros g p tys. induction tys as [|t r IH]; intros st; cbn [call_loop]; [apply decides_nil|].
  destruct (should_call E g p t); [|apply IH].
  destruct (g_type g st p t) as [st' out]. destruct (so_res out); cbn [ro_trace ro_out];
    first [apply decides_one; reflexivity | apply decides_cons; [reflexivity | apply IH]].
Qed.

Lemma defer_loop_verdict : forall fuel g p ids st,
  decides (ro_trace (defer_loop fuel g p st ids)) (ro_out (defer_loop fuel g p st ids)).
Proof.
  intros fuel g p. induction fuel as [|fuel IH]; intros ids st; destruct ids as [|i r]; cbn [defer_loop];
    try apply decides_nil.
  destruct (g_defer g st p i) as [st' out]. destruct (so_res out); cbn [ro_trace ro_out];
    first [apply decides_one; reflexivity | apply decides_cons; [reflexivity | apply IH]].
Qed.

Lemma gen_run_verdict : forall g p, decides (go_trace (gen_run E g p)) (go_out (gen_run E g p)).
Proof.
  intros g p. unfold gen_run.
  pose proof (call_loop_verdict g p (sort_by ty_name (pk_types p)) (g_new g p)) as Hc.
  destruct (ro_out (call_loop E g p (g_new g p) (sort_by ty_name (pk_types p)))); cbn [go_trace go_out];
    [apply decides_app; [exact Hc | apply defer_loop_verdict] | exact Hc | exact Hc].
Qed.

Lemma gen_phase_verdict : forall gens p, decides (snd (fst (gen_phase E gens p))) (snd (gen_phase E gens p)).
Proof.
  induction gens as [|g r IH]; intros p; [apply decides_nil|]. rewrite gen_phase_cons. cbv zeta.
  pose proof (gen_run_verdict g p) as Hg. destruct (go_out (gen_run E g p)); [|exact Hg|exact Hg].
  apply decides_app; [exact Hg | apply IH].
Qed.

Lemma pkg_effects_verdict : forall a gens p,
  decides (snd (fst (pkg_effects E a gens p))) (snd (pkg_effects E a gens p)).
Proof.
  intros a gens p. unfold pkg_effects. pose proof (gen_phase_verdict gens p) as Hg.
  destruct (gen_phase E gens p) as [[gfs tr] out]. cbn [fst snd] in Hg. destruct out; [|exact Hg|exact Hg].
  destruct (write_loop E a p (e_order E p gfs) (generated_files a p)) as [[effs rem] err].
  destruct err; [apply decides_done|]; exact Hg.
Qed.

Lemma pkg_execute_verdict : forall a w gens prev p,
  decides (snd (fst (pkg_execute E a w gens prev p))) (snd (pkg_execute E a w gens prev p)).
Proof.
  intros a w gens prev p. unfold pkg_execute.
  destruct (pkg_changed a w prev p); [apply pkg_effects_verdict | apply decides_nil].
Qed.

Lemma run_pkgs_verdict : forall a w gens prev ps,
  decides (snd (fst (run_pkgs E a w gens prev ps))) (snd (run_pkgs E a w gens prev ps)).
Proof.
  intros a w gens prev ps. induction ps as [|p r IH]; [apply decides_nil|]. rewrite run_pkgs_cons. cbv zeta.
  destruct (selected a w p && pkg_changed a w prev p); [|exact IH].
  pose proof (pkg_effects_verdict a gens p) as Hp.
  destruct (snd (pkg_effects E a gens p)); [apply decides_app; assumption | exact Hp ..].
Qed.

Theorem trace_verdict : forall a w gens s e o,
  In e (exec_trace E a w gens s) -> ev_verdict e = Some o -> exec_outcome E a w gens s = o.
Proof. intros a w gens s. apply run_pkgs_verdict. Qed.

(* a successful run: nothing but nil / ErrSkip / ErrIgnore was returned *)
Theorem done_clean : forall a w gens s,
  exec_outcome E a w gens s = Done ->
  forall e, In e (exec_trace E a w gens s) -> ev_verdict e = None.
Proof.
  intros a w gens s Hdone e Hin. destruct (ev_verdict e) as [o|] eqn:Hv; [|reflexivity].
  destruct (verdict_not_done e o Hv). rewrite <- Hdone. symmetry. exact (trace_verdict a w gens s e o Hin Hv).
Qed.

Lemma call_loop_failed : forall g p tys st x,
  ro_out (call_loop E g p st tys) = Failed x -> x = EGen (g_name g) (pk_path p).
Proof.
  intros g p tys. induction tys as [|t r IH]; intros st x H; cbn [call_loop] in H; [discriminate H|].
  destruct (should_call E g p t); [|exact (IH _ _ H)].
  destruct (g_type g st p t) as [st' out]. destruct (so_res out); cbn [ro_out] in H;
    first [exact (IH _ _ H) | discriminate H | now injection H].
Qed.

Lemma defer_loop_failed : forall fuel g p ids st x,
  ro_out (defer_loop fuel g p st ids) = Failed x -> x = EDefer (g_name g) (pk_path p).
Proof.
  intros fuel g p. induction fuel as [|fuel IH]; intros ids st x H; destruct ids as [|i r]; cbn [defer_loop] in H;
    try discriminate H.
  destruct (g_defer g st p i) as [st' out]. destruct (so_res out); cbn [ro_out] in H;
    first [exact (IH _ _ _ H) | discriminate H | now injection H].
Qed.

(* the generator and the package an error names; a syntax position names none *)
Definition err_names (x : err) : option (bytes * bytes) :=
  match x with EGen gn pp | EDefer gn pp => Some (gn, pp) | EParse _ => None end.

Lemma gen_run_failed : forall g p x,
  go_out (gen_run E g p) = Failed x -> err_names x = Some (g_name g, pk_path p).
Proof.
  intros g p x H. unfold gen_run in H.
  destruct (ro_out (call_loop E g p (g_new g p) (sort_by ty_name (pk_types p)))) eqn:Hc; cbn [go_out] in H.
  - rewrite (defer_loop_failed _ _ _ _ _ _ H). reflexivity.
  - injection H as <-. rewrite (call_loop_failed _ _ _ _ _ Hc). reflexivity.
  - discriminate H.
Qed.

Lemma gen_phase_failed : forall gens p x,
  snd (gen_phase E gens p) = Failed x -> exists g, In g gens /\ err_names x = Some (g_name g, pk_path p).
Proof.
  induction gens as [|g r IH]; intros p x H; [discriminate H|].
  rewrite gen_phase_cons in H. cbv zeta in H. destruct (go_out (gen_run E g p)) eqn:Hout; cbn [snd] in H.
  - destruct (IH p x H) as [g' [Hg' Hn]]. exists g'. split; [right; exact Hg' | exact Hn].
  - injection H as <-. exists g. split; [left; reflexivity | exact (gen_run_failed _ _ _ Hout)].
  - discriminate H.
Qed.

Lemma pkg_effects_failed : forall a gens p x,
  snd (pkg_effects E a gens p) = Failed x ->
  (snd (gen_phase E gens p) = Failed x /\ fst (fst (pkg_effects E a gens p)) = [])
  \/ exists rem, wrote E a p (e_order E p (retained E gens p)) (generated_files a p)
                   (fst (fst (pkg_effects E a gens p))) rem (Some x).
Proof.
  intros a gens p x. unfold pkg_effects. pose proof (gen_phase_done E gens p) as Hgd.
  destruct (gen_phase E gens p) as [[gfs tr] out].
  destruct out; [|intros H; left; split; [exact H | reflexivity]|discriminate].
  destruct (Hgd gfs tr eq_refl) as [-> _]. fold (retained E gens p).
  generalize (write_loop_wrote E a p (e_order E p (retained E gens p)) (generated_files a p)).
  destruct (write_loop E a p (e_order E p (retained E gens p)) (generated_files a p)) as [[weffs rem] [y|]];
    [|discriminate].
  intros Hw H. injection H as ->. right. exists rem. exact Hw.
Qed.

(* A failed run names the package it stopped at.  Packages work in their own directories, so a path there that
   this package's own effects avoid is as it was: no effect of the run is at it. *)
Lemma exec_failed : forall a w gens s x,
  NoDup (map pk_dir (w_pkgs w)) -> exec_outcome E a w gens s = Failed x ->
  exists pf,
    In pf (w_pkgs w) /\ processed E a w s pf = true /\ snd (pkg_effects E a gens pf) = Failed x /\
    forall f, (forall e, In e (fst (fst (pkg_effects E a gens pf))) -> effect_path e <> (pk_dir pf, f)) ->
              fs_lookup (pk_dir pf, f) (exec_fs E a w gens s) = fs_lookup (pk_dir pf, f) s.
Proof.
  intros a w gens s x Hd Hfail.
  destruct (run_pkgs_outcome E a w gens (load_prev E a w s) (sorted_pkgs w)) as [Hdone|Hs];
    [unfold exec_outcome, run_all in Hfail; congruence|].
  apply Exists_exists in Hs. destruct Hs as (pf & Hin & Hpr & Hpf). apply (proj1 (sort_by_In pk_path _ _)) in Hin.
  exists pf. split; [exact Hin|]. split; [exact Hpr|]. split; [rewrite Hpf; exact Hfail|].
  intros f Hown. rewrite exec_fs_eq, effects_split, Hfail, app_nil_r. apply apply_all_other. intros e He Heq.
  apply run_pkgs_In, Exists_exists in He. destruct He as (p & Hp & _ & Hep).
  (* an effect in pf's directory is pf's own *)
  assert (p = pf).
  { apply (proj1 (sort_by_In pk_path _ _)) in Hp. apply (Order.NoDup_map_inj_in pk_dir _ _ _ Hd Hp Hin).
    rewrite <- (proj1 (proj1 (pkg_effects_paths E _ _ _ _ Hep))), Heq. reflexivity. }
  subst p. exact (Hown e Hep Heq).
Qed.

(* a generator or deferred callback failed: Execute's error names generator and package; nothing in that package's
   directory has changed (so the generator's previous file is byte-identical) *)
Theorem failed_names_pkg : forall a w gens s gn pp,
  NoDup (map pk_dir (w_pkgs w)) ->
  (exec_outcome E a w gens s = Failed (EGen gn pp) \/ exec_outcome E a w gens s = Failed (EDefer gn pp)) ->
  exists p g, In p (w_pkgs w) /\ pk_path p = pp /\ In g gens /\ g_name g = gn /\ processed E a w s p = true /\
    forall f, fs_lookup (pk_dir p, f) (exec_fs E a w gens s) = fs_lookup (pk_dir p, f) s.
Proof.
  intros a w gens s gn pp Hd Hout.
  assert (Hx : exists x, exec_outcome E a w gens s = Failed x /\ err_names x = Some (gn, pp)).
  { destruct Hout as [H|H]; eexists; (split; [exact H | reflexivity]). }
  destruct Hx as [x [Hfail Hxx]].
  destruct (exec_failed a w gens s x Hd Hfail) as (pf & Hpf & Hpr & Hpx & Hloc).
  destruct (pkg_effects_failed a gens pf x Hpx) as [[Hgp Hnil]|[rem Hw]].
  - destruct (gen_phase_failed gens pf x Hgp) as (g & Hg & Hn). rewrite Hxx in Hn. injection Hn as -> ->.
    exists pf, g. repeat (split; [assumption || reflexivity|]). intros f. apply Hloc. rewrite Hnil. intros e [].
  - (* the write loop only fails with a syntax position *)
    destruct (wrote_fail E Hw) as (n & _ & _ & _ & _ & -> & _). discriminate Hxx.
Qed.

(* a rendering did not parse: the error carries the position in that generator's file, the file is untouched *)
Theorem failed_parse : forall a w gens s q,
  order_ok E -> NoDup (map g_name gens) -> NoDup (map pk_dir (w_pkgs w)) ->
  exec_outcome E a w gens s = Failed (EParse q) ->
  (exists p g, In p (w_pkgs w) /\ In g gens /\ processed E a w s p = true /\ q = gen_file a p (g_name g) /\
               go_body (gen_run E g p) <> [] /\
               e_fmt E (assemble (pk_name p) (g_name g) (go_body (gen_run E g p))) = None)
  /\ fs_lookup q (exec_fs E a w gens s) = fs_lookup q s.
Proof.
  intros a w gens s q Hord Hnd Hd Hfail.
  destruct (exec_failed a w gens s _ Hd Hfail) as (pf & Hpf & Hpr & Hpx & Hloc).
  destruct (pkg_effects_failed a gens pf _ Hpx) as [[Hgp _]|[rem Hw]].
  - destruct (gen_phase_failed gens pf _ Hgp) as (g & _ & Hn). discriminate Hn.
  - (* names are distinct, so the writes before the failing one were at other files *)
    destruct (wrote_fail E Hw) as (n & body & Hin & Hb & Hf & Hx & He1).
    specialize (He1 (order_NoDup E Hord _ _ (retained_NoDup E gens pf Hnd))).
    apply (order_In E Hord), retained_In in Hin. destruct Hin as (g & Hg & _ & -> & ->). injection Hx as ->. split.
    + exists pf, g. split; [exact Hpf|]. split; [exact Hg|]. split; [exact Hpr|]. split; [reflexivity|]. split; [exact Hb | exact Hf].
    + apply Hloc. exact He1.
Qed.

Lemma pkgs_effects_not_sum_path : forall a w gens s e,
  files_ok w -> In e (pkgs_effects E a w gens s) -> effect_path e <> sum_path w.
Proof.
  intros a w gens s e Hok He Heq. apply (pkgs_effects_not_sum E a w gens s e Hok He). rewrite Heq. reflexivity.
Qed.

(* the run's effects are the package effects followed, only after success under All, by the two effects of
   sumfile.Save; no package effect is on gengo.sum *)
Theorem sum_written_last : forall a w gens s,
  files_ok w ->
  exists tail, effects E a w gens s = pkgs_effects E a w gens s ++ tail /\
    (forall e, In e (pkgs_effects E a w gens s) -> effect_path e <> sum_path w) /\
    (tail = [] \/ (tail = save_effects E w /\ exec_outcome E a w gens s = Done /\ a_all a = true)).
Proof.
  intros a w gens s Hok. rewrite effects_split. eexists. split; [reflexivity|]. split.
  - intros e. apply pkgs_effects_not_sum_path. exact Hok.
  - destruct (exec_outcome E a w gens s); [|left; reflexivity|left; reflexivity].
    destruct (a_all a); [right; auto | left; reflexivity].
Qed.

(* every crash point before the save: gengo.sum is what it was *)
Theorem crash_before_save : forall a w gens s k,
  files_ok w -> k <= List.length (pkgs_effects E a w gens s) ->
  fs_lookup (sum_path w) (apply_all (firstn k (effects E a w gens s)) s) = fs_lookup (sum_path w) s.
Proof.
  intros a w gens s k Hok Hk. rewrite effects_split, firstn_app.
  replace (k - List.length (pkgs_effects E a w gens s)) with 0 by lia. rewrite firstn_O, app_nil_r.
  apply apply_all_other. intros e He. apply Order.firstn_In in He. exact (pkgs_effects_not_sum_path _ _ _ _ _ Hok He).
Qed.

(* what gengo.sum holds after Execute: it is written only by the save at the end of a successful All run *)
Lemma exec_sum : forall a w gens s, files_ok w ->
  fs_lookup (sum_path w) (exec_fs E a w gens s)
  = match exec_outcome E a w gens s with
    | Done => if a_all a then Some (e_sum_bytes E (current_sum w)) else fs_lookup (sum_path w) s
    | _ => fs_lookup (sum_path w) s
    end.
Proof.
  intros a w gens s Hfiles. rewrite exec_fs_eq, effects_split, apply_all_app.
  pose proof (apply_all_other (pkgs_effects E a w gens s) (sum_path w) s
                (fun e He => pkgs_effects_not_sum_path a w gens s e Hfiles He)) as Hkeep.
  destruct (exec_outcome E a w gens s); [destruct (a_all a)|..]; try exact Hkeep.
  cbn [save_effects apply_all fold_left apply_effect]. rewrite !lookup_set_same. reflexivity.
Qed.

(* a run that did not succeed (error or death) has not touched gengo.sum *)
Theorem sum_untouched_unless_done : forall a w gens s,
  files_ok w -> exec_outcome E a w gens s <> Done ->
  fs_lookup (sum_path w) (exec_fs E a w gens s) = fs_lookup (sum_path w) s.
Proof.
  intros a w gens s Hok Hnd. rewrite (exec_sum a w gens s Hok).
  destruct (exec_outcome E a w gens s); [contradiction|reflexivity|reflexivity].
Qed.

(* the crash point between the two effects of the save (after open-with-truncate, before the write): the sum is empty *)
Theorem crash_inside_save : forall a w gens s,
  exec_outcome E a w gens s = Done -> a_all a = true ->
  fs_lookup (sum_path w)
    (apply_all (firstn (S (List.length (pkgs_effects E a w gens s))) (effects E a w gens s)) s) = Some [].
Proof.
  intros a w gens s Hdone Hall. rewrite effects_split, Hdone, Hall, firstn_app.
  rewrite firstn_all2 by lia.
  replace (S (List.length (pkgs_effects E a w gens s)) - List.length (pkgs_effects E a w gens s)) with 1 by lia.
  cbn [save_effects firstn]. rewrite apply_all_app. cbn [apply_all fold_left apply_effect].
  apply lookup_set_same.
Qed.

(* ... and an empty gengo.sum makes the next run regenerate every package (for any sum parser that reads nothing
   out of nothing) *)
Theorem empty_sum_regenerates_all : forall a w s p,
  e_sum_load E [] = [] -> fs_lookup (sum_path w) s = Some [] ->
  pkg_changed a w (load_prev E a w s) p = true.
Proof.
  intros a w s p Hload Hs. unfold pkg_changed. destruct (a_force a); [reflexivity|].
  unfold load_prev. destruct (a_all a && existsb (is_direct w) (w_pkgs w)); [|reflexivity].
  rewrite Hs, Hload. cbn [sum_get].
  destruct (sum_get (current_sum w) (pk_path p)); reflexivity.
Qed.

Theorem empty_sum_regenerates : forall a w s p,
  e_sum_load E [] = [] -> fs_lookup (sum_path w) s = Some [] ->
  sum_get (current_sum w) (pk_path p) <> [] ->
  pkg_changed a w (load_prev E a w s) p = true.
Proof. intros a w s p Hload Hs _. exact (empty_sum_regenerates_all a w s p Hload Hs). Qed.

End C02.
