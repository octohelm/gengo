(* Tables, part A: the three models of newPkg's loop over TypesInfo.Defs (Universe / Dispatch / Determinism) agree
   on the table of package-level type names, and Determinism's method lists are Universe's. *)
Require Import Gengo.Base.Bytes Gengo.Base.Order Gengo.Model.Tables.
Require Gengo.Proofs.Universe Gengo.Proofs.Dispatch Gengo.Proofs.Determinism.
Require Gengo.Base.Assoc.

Module UP := Gengo.Proofs.Universe.
Module DP := Gengo.Proofs.Dispatch.

Lemma filter_map_true {A B} (f : B -> bool) (g : A -> B) :
  (forall x, f (g x) = true) -> forall l, filter f (map g l) = map g l.
Proof. intros H l. induction l as [|x r IH]; cbn; [|rewrite H, IH]; reflexivity. Qed.

Lemma filter_implies : forall {A} (f g : A -> bool) l,
  (forall x, f x = true -> g x = true) -> filter f l = filter f (filter g l).
Proof.
  intros A f g l H. rewrite filter_filter. apply filter_ext. intros x.
  destruct (f x) eqn:Ef; [rewrite (H x Ef); reflexivity | apply eq_sym, andb_false_r].
Qed.

Lemma types_of_idem : forall os, types_of (types_of os) = types_of os.
Proof. intros os. symmetry. apply filter_implies. auto. Qed.

(* only the *types.TypeName entries of Defs reach the type table *)
Lemma fill_types_of : forall fx os, U.t_types (U.fill_tables fx (types_of os)) = U.t_types (U.fill_tables fx os).
Proof.
  intros fx os. apply (eq_trans (UP.fold_table fx U.KType _ _)). symmetry. apply (eq_trans (UP.fold_table fx U.KType _ _)).
  f_equal. apply filter_implies. intros o. unfold UP.tabled, is_type. now destruct (U.o_kind o).
Qed.

Lemma types_of_perm : forall a b, Permutation a b -> Permutation (types_of a) (types_of b).
Proof. intros a b. apply Permutation_filter. Qed.

Lemma disp_view_set : forall k v m, disp_view (D.map_set k v m) = U.tbl_set k (D.td_id v) (disp_view m).
Proof.
  intros k v m. symmetry.
  exact (eq_trans (Assoc.set_ext _ _ bytes_eqb_sym k _ _) (Assoc.set_map (fun a b => bytes_eqb b a) D.td_id k v m)).
Qed.

Lemma disp_fill : forall fx ds,
  U.fill_tables fx (map u_of_disp ds) = U.mk_tables (disp_view (D.type_table (U.fx_scope fx) ds)) [] [] [].
Proof.
  intros fx ds. symmetry. apply (fold_left_sim (fun tb => U.mk_tables (disp_view tb) [] [] [])). intros tb d.
  unfold D.table_add. cbn. destruct (U.fx_scope fx), (D.td_pkgscope d); cbn; now rewrite ?disp_view_set.
Qed.

Lemma det_view_set : forall k v m, det_view (Det.aset k v m) = U.tbl_set k (Det.td_uid v) (det_view m).
Proof. intros k v m. rewrite Proofs.Determinism.aset_eq. symmetry. apply (Assoc.set_map bytes_eqb Det.td_uid). Qed.

Lemma det_fill : forall fx ds,
  U.fill_tables fx (map u_of_det ds) = U.mk_tables (det_view (fold_left (Det.table_add (U.fx_scope fx)) ds [])) [] [] [].
Proof.
  intros fx ds. symmetry. apply (fold_left_sim (fun tb => U.mk_tables (det_view tb) [] [] [])). intros tb d.
  unfold Det.table_add. cbn. destruct (U.fx_scope fx), (Det.td_pkgscope d); cbn; now rewrite ?det_view_set.
Qed.

Lemma types_of_map_disp : forall ds, types_of (map u_of_disp ds) = map u_of_disp ds.
Proof. apply filter_map_true. reflexivity. Qed.

Lemma types_of_map_det : forall ds, types_of (map u_of_det ds) = map u_of_det ds.
Proof. apply filter_map_true. reflexivity. Qed.

(* SAME ORDER: the tables are the same association list, entry by entry — with or without the scope test,
   no hypothesis on the names.  [os] may contain any other objects (functions, methods, constants, variables,
   labels ...) anywhere: they do not touch the type table. *)
Lemma universe_dispatch_same_order : forall fx os ds,
  types_of os = map u_of_disp ds ->
  U.t_types (U.fill_tables fx os) = disp_view (D.type_table (U.fx_scope fx) ds).
Proof.
  intros fx os ds H. rewrite <- fill_types_of, H. exact (f_equal U.t_types (disp_fill fx ds)).
Qed.

Lemma universe_determinism_same_order : forall fx os ds,
  types_of os = map u_of_det ds ->
  U.t_types (U.fill_tables fx os) = det_view (fold_left (Det.table_add (U.fx_scope fx)) ds []).
Proof.
  intros fx os ds H. rewrite <- fill_types_of, H. exact (f_equal U.t_types (det_fill fx ds)).
Qed.

Lemma disp_view_get : forall n t, U.tbl_get n (disp_view t) = option_map D.td_id (D.lookup n t).
Proof.
  intros n t. exact (eq_trans (Assoc.get_ext _ _ bytes_eqb_sym n _) (Assoc.get_map (fun a b => bytes_eqb b a) D.td_id n t)).
Qed.

Lemma det_view_get : forall n t, U.tbl_get n (det_view t) = option_map Det.td_uid (Det.lookup n t).
Proof. intros n t. rewrite Proofs.Determinism.lookup_eq. apply (Assoc.get_map bytes_eqb Det.td_uid). Qed.

Lemma disp_view_keys : forall t, map fst (disp_view t) = D.keys t.
Proof. intros t. apply map_map. Qed.

Lemma det_view_keys : forall t, map fst (det_view t) = Det.keys t.
Proof. intros t. apply map_map. Qed.

Lemma unique_at_types_of : forall os n, UP.unique_at os U.KType n -> UP.unique_at (types_of os) U.KType n.
Proof.
  intros os n H o1 o2 H1 H2. apply H; eapply proj1, filter_In; eassumption.
Qed.

(* go/types' "one object per name in the package scope" is C13's [unique_at]; the names can be read off any
   list [ts] that holds the type names of [os] *)
Lemma unique_types : forall os ts,
  Permutation (types_of os) ts -> NoDup (map U.o_name (filter U.o_pkg_scope ts)) ->
  forall n, UP.unique_at os U.KType n.
Proof.
  intros os ts HP Hnd. apply UP.unique_at_NoDup.
  apply (Permutation_NoDup (l := map U.o_name (filter U.o_pkg_scope ts))); [|exact Hnd].
  apply Permutation_map, Permutation_sym.
  (* the objects the loop files as types are the package-scope ones among the type names *)
  replace (filter (UP.tabled U.all_fixed U.KType) os) with (filter U.o_pkg_scope (types_of os));
    [apply Permutation_filter, HP|].
  unfold types_of. rewrite filter_filter. apply filter_ext. intros o.
  unfold UP.tabled, is_type. destruct (U.o_kind o); reflexivity.
Qed.

(* A Defs list and any list [ts] of its *types.TypeName entries, in any order (the users have [ts] from another model):
   same key set; same lookup at every name the package scope holds once (C13_tables_order_independent). *)
Lemma types_table_perm : forall os ts,
  Permutation (types_of os) ts ->
  (forall n, In n (map fst (U.t_types (U.fill_tables U.all_fixed os)))
             <-> In n (map fst (U.t_types (U.fill_tables U.all_fixed ts))))
  /\ (forall n, UP.unique_at os U.KType n ->
                U.lookup U.KType n (U.fill_tables U.all_fixed os) = U.lookup U.KType n (U.fill_tables U.all_fixed ts)).
Proof.
  intros os ts HP. unfold U.lookup. cbn [U.table_of]. rewrite <- (fill_types_of U.all_fixed os). split.
  - intros n. rewrite (UP.tables_keys _ _ U.KType n HP), (UP.tables_keys _ _ U.KType n (Permutation_refl _)).
    reflexivity.
  - intros n Hu. apply (UP.tables_order_independent (types_of os) _ _ U.KType n).
    + apply Permutation_refl.
    + apply Permutation_sym. exact HP.
    + apply unique_at_types_of. exact Hu.
Qed.

(* Universe = Dispatch, for EVERY Defs list of Universe (objects of all kinds) and EVERY Defs list of Dispatch that
   describe the same *types.TypeName objects — in any two orders. *)
Theorem universe_is_dispatch : forall os ds,
  Permutation (types_of os) (map u_of_disp ds) ->
  (forall n, In n (map fst (U.t_types (U.fill_tables U.all_fixed os))) <-> In n (D.keys (D.type_table true ds)))
  /\ (forall n, UP.unique_at os U.KType n ->
        U.lookup U.KType n (U.fill_tables U.all_fixed os) = option_map D.td_id (D.lookup n (D.type_table true ds))).
Proof.
  intros os ds HP. destruct (types_table_perm os _ HP) as [K L]. split.
  - intros n. rewrite K, disp_fill, <- disp_view_keys. reflexivity.
  - intros n Hu. rewrite (L n Hu), disp_fill. apply disp_view_get.
Qed.

(* Universe = Determinism, for every behaviour of the runtime at Determinism's range over Defs *)
Theorem universe_is_determinism : forall (o : Det.oracle) p os,
  Det.shuffles o ->
  Permutation (types_of os) (map u_of_det (Det.pk_defs p)) ->
  (forall n, In n (map fst (U.t_types (U.fill_tables U.all_fixed os))) <-> In n (Det.keys (Det.type_table true o p)))
  /\ (forall n, UP.unique_at os U.KType n ->
        U.lookup U.KType n (U.fill_tables U.all_fixed os)
        = option_map Det.td_uid (Det.lookup n (Det.type_table true o p))).
Proof.
  intros o p os Hs HP. unfold Det.type_table.
  set (ds := o Det.tdef [bs "defs"; Det.pk_path p] (Det.pk_defs p)).
  destruct (types_table_perm os (map u_of_det ds) (perm_trans HP (Permutation_map _ (Hs _ _ _)))) as [K L]. split.
  - intros n. rewrite K, det_fill, <- det_view_keys. reflexivity.
  - intros n Hu. rewrite (L n Hu), det_fill. apply det_view_get.
Qed.

(* go/types' "one object per name in the package scope", stated on Dispatch's list *)
Lemma unique_at_of_disp : forall os ds,
  Permutation (types_of os) (map u_of_disp ds) ->
  NoDup (map D.td_name (filter D.td_pkgscope ds)) ->
  forall n, UP.unique_at os U.KType n.
Proof. intros os ds HP Hnd. apply (unique_types os _ HP). rewrite filter_map_comm, map_map. exact Hnd. Qed.

(* hence Dispatch = Determinism (same objects: same identities, names, scopes) *)
Theorem dispatch_is_determinism : forall (o : Det.oracle) p ds,
  Det.shuffles o ->
  Permutation (map u_of_disp ds) (map u_of_det (Det.pk_defs p)) ->
  NoDup (map D.td_name (filter D.td_pkgscope ds)) ->
  (forall n, In n (D.keys (D.type_table true ds)) <-> In n (Det.keys (Det.type_table true o p)))
  /\ (forall n, option_map D.td_id (D.lookup n (D.type_table true ds))
                = option_map Det.td_uid (Det.lookup n (Det.type_table true o p))).
Proof.
  intros o p ds Hs HP Hnd.
  assert (H1 : Permutation (types_of (map u_of_disp ds)) (map u_of_disp ds))
    by (rewrite types_of_map_disp; apply Permutation_refl).
  destruct (universe_is_dispatch _ _ H1) as [K1 L1].
  destruct (universe_is_determinism o p _ Hs (perm_trans H1 HP)) as [K2 L2].
  pose proof (unique_at_of_disp _ _ H1 Hnd) as Hu. split.
  - intros n. rewrite <- K1, K2. reflexivity.
  - intros n. rewrite <- (L1 n (Hu n)). apply L2, Hu.
Qed.

Lemma declared_on_meth : forall k o, UP.declared_on k o = true -> is_meth o = true.
Proof.
  intros k o. unfold UP.declared_on, UP.method_of, is_meth. destruct (U.o_kind o); try discriminate.
  destruct (U.o_recv o); [reflexivity|discriminate].
Qed.

Lemma declared_on_u_of_meth : forall ptr k m, UP.declared_on k (u_of_meth ptr m) = N.eqb (Det.m_recv m) k.
Proof.
  intros ptr k m. unfold UP.declared_on, UP.method_of, u_of_meth. cbn. destruct (ptr m); cbn; apply N.eqb_sym.
Qed.

Lemma filter_declared_map : forall ptr k ms,
  filter (UP.declared_on k) (map (u_of_meth ptr) ms) = map (u_of_meth ptr) (filter (fun m => N.eqb (Det.m_recv m) k) ms).
Proof.
  intros ptr k ms. rewrite filter_map_comm. f_equal. apply filter_ext. intros m. apply declared_on_u_of_meth.
Qed.

Lemma map_name_u_of_meth : forall ptr l, map U.o_name (map (u_of_meth ptr) l) = map Det.m_name l.
Proof. intros ptr l. apply map_map. Qed.

(* what Universe's MethodsOf(n, true) is, as a multiset, in terms of the method entries Determinism filters: under
   any oracle that list is a permutation of pk_meths *)
Lemma universe_methods_perm_oracle : forall (o : Det.oracle) p ptr os n,
  Det.shuffles o ->
  Permutation (meths_of os) (map (u_of_meth ptr) (Det.pk_meths p)) ->
  Permutation (U.methods_of U.all_fixed (U.fill_tables U.all_fixed os) n true)
              (map (u_of_meth ptr) (filter (fun m => N.eqb (Det.m_recv m) (U.n_origin n))
                                           (o Det.meth [bs "meths"; Det.pk_path p] (Det.pk_meths p)))).
Proof.
  intros o p ptr os n Hs HP.
  eapply perm_trans; [apply (UP.methods_exact os os n (Permutation_refl _))|].
  rewrite (filter_implies (UP.declared_on (U.n_origin n)) is_meth os (declared_on_meth _)), <- filter_declared_map.
  apply Permutation_filter. eapply perm_trans; [exact HP|]. apply Permutation_map, Hs.
Qed.

(* Determinism's insertion sort is the one of Base/Order.v; so is Universe's: [U.sort_pos pos] is convertible with
   [Det.sort_by pos N.leb] *)
Lemma sort_pos_is_sort_by : forall pos l, U.sort_pos pos l = sort_by pos N.leb l.
Proof. intros pos l. exact (Proofs.Determinism.sort_by_eq pos N.leb l). Qed.

(* Determinism's methods_of (before and after repair 50ddee1) lists the names of exactly the methods
   Universe's MethodsOf(n, true) returns — C13_methods's permutation *)
Theorem methods_agree : forall fm (o : Det.oracle) p ptr os n,
  Det.shuffles o ->
  Permutation (meths_of os) (map (u_of_meth ptr) (Det.pk_meths p)) ->
  Permutation (map U.o_name (U.methods_of U.all_fixed (U.fill_tables U.all_fixed os) n true))
              (Det.methods_of fm o p (U.n_origin n)).
Proof.
  intros fm o p ptr os n Hs HP.
  eapply perm_trans; [apply Permutation_map, (universe_methods_perm_oracle o p ptr os n Hs HP)|].
  rewrite map_name_u_of_meth. unfold Det.methods_of. apply Permutation_map.
  destruct fm; [rewrite Proofs.Determinism.sort_by_eq; apply sort_by_perm|apply Permutation_refl].
Qed.

(* the value method set, for completeness: MethodsOf(n, false) = the methods whose receiver is not a pointer *)
Theorem methods_agree_value : forall p ptr os n,
  Permutation (meths_of os) (map (u_of_meth ptr) (Det.pk_meths p)) ->
  Permutation (map U.o_name (U.methods_of U.all_fixed (U.fill_tables U.all_fixed os) n false))
              (map Det.m_name (filter (fun m => N.eqb (Det.m_recv m) (U.n_origin n) && negb (ptr m)) (Det.pk_meths p))).
Proof.
  intros p ptr os n HP.
  (* by definition MethodsOf(n, false) filters MethodsOf(n, true) *)
  eapply perm_trans.
  { apply Permutation_map, (Permutation_filter UP.value_recv),
      (universe_methods_perm_oracle Det.oid p ptr os n (fun _ _ l => Permutation_refl l) HP). }
  rewrite filter_map_comm, map_name_u_of_meth, filter_filter.
  erewrite filter_ext; [apply Permutation_refl|].
  intros m. cbn beta. f_equal. unfold UP.value_recv, u_of_meth. cbn. destruct (ptr m); reflexivity.
Qed.

Lemma mtbl_get_sorted : forall pos key m,
  U.mtbl_get key (map (fun kv => (fst kv, U.sort_pos pos (snd kv))) m) = U.sort_pos pos (U.mtbl_get key m).
Proof.
  intros pos key m. induction m as [|[k v] r IH]; cbn [map U.mtbl_get fst snd]; [reflexivity|].
  destruct (N.eqb key k); [reflexivity|exact IH].
Qed.

(* MethodsOf(n, true) on the ordered tables = the ordered list *)
Lemma sorted_methods_true : forall pos t n,
  sorted_methods_of pos t n true = sort_by pos N.leb (U.methods_of U.all_fixed t n true).
Proof.
  intros pos t n. unfold sorted_methods_of, U.methods_of, U.sort_methods. cbn [U.t_methods].
  rewrite mtbl_get_sorted. apply sort_pos_is_sort_by.
Qed.

(* with the ordering of package.go:146-157 the two lists are equal *)
Theorem methods_sorted_agree : forall (o : Det.oracle) p ptr os n,
  Det.shuffles o ->
  NoDup (map Det.m_pos (Det.pk_meths p)) ->
  Permutation (meths_of os) (map (u_of_meth ptr) (Det.pk_meths p)) ->
  map U.o_name (sorted_methods_of U.o_id (U.fill_tables U.all_fixed os) n true)
  = Det.methods_of true o p (U.n_origin n).
Proof.
  intros o p ptr os n Hs Hnd HP. rewrite sorted_methods_true. unfold Det.methods_of.
  pose proof (universe_methods_perm_oracle o p ptr os n Hs HP) as H2.
  rewrite (sort_by_N_perm_eq U.o_id _ _ H2).
  - rewrite (sort_by_map Det.m_pos U.o_id _ (u_of_meth ptr)) by reflexivity.
    rewrite Proofs.Determinism.sort_by_eq. apply map_name_u_of_meth.
  - eapply Permutation_NoDup; [apply Permutation_map, Permutation_sym; exact H2|].
    rewrite map_map. apply (NoDup_map_filter Det.m_pos).
    eapply Permutation_NoDup; [|exact Hnd]. apply Permutation_map, Hs.
Qed.

(* in Universe's own terms: with the ordering, MethodsOf does not depend on the order in which Defs is ranged over
   (distinct positions), and is sorted *)
Theorem sorted_methods_order_independent : forall (pos : U.obj -> N) defs p1 p2 n ptr,
  Permutation p1 defs -> Permutation p2 defs ->
  NoDup (map pos (meths_of defs)) ->
  sorted_methods_of pos (U.fill_tables U.all_fixed p1) n ptr = sorted_methods_of pos (U.fill_tables U.all_fixed p2) n ptr.
Proof.
  intros pos defs p1 p2 n ptr H1 H2 Hnd.
  destruct (UP.methods_exact defs p1 n H1) as [A1 _]. destruct (UP.methods_exact defs p2 n H2) as [A2 _].
  assert (E : sorted_methods_of pos (U.fill_tables U.all_fixed p1) n true
              = sorted_methods_of pos (U.fill_tables U.all_fixed p2) n true).
  { rewrite !sorted_methods_true. apply sort_by_N_perm_eq.
    - eapply perm_trans; [exact A1|apply Permutation_sym; exact A2].
    - eapply Permutation_NoDup; [apply Permutation_map, Permutation_sym; exact A1|].
      rewrite (filter_implies (UP.declared_on (U.n_origin n)) is_meth defs (declared_on_meth _)).
      apply NoDup_map_filter. exact Hnd. }
  destruct ptr; [exact E|]. unfold sorted_methods_of, U.methods_of in *. rewrite E. reflexivity.
Qed.

Theorem sorted_methods_spec : forall (pos : U.obj -> N) defs pi n,
  Permutation pi defs ->
  Permutation (sorted_methods_of pos (U.fill_tables U.all_fixed pi) n true) (filter (UP.declared_on (U.n_origin n)) defs)
  /\ StronglySorted (fun a b => N.leb (pos a) (pos b) = true) (sorted_methods_of pos (U.fill_tables U.all_fixed pi) n true).
Proof.
  intros pos defs pi n HP. rewrite sorted_methods_true. split.
  - rewrite <- sort_by_perm. apply (UP.methods_exact defs pi n HP).
  - apply (sort_by_sorted pos N.leb N_leb_total N_leb_trans).
Qed.

(* the entries of Universe's Types() are Dispatch's package-scope declarations, one for one *)
Lemma universe_types_are_disp_decls : forall os ds,
  Permutation (types_of os) (map u_of_disp ds) ->
  NoDup (map D.td_name (filter D.td_pkgscope ds)) ->
  forall n x,
    U.lookup U.KType n (U.fill_tables U.all_fixed os) = Some x
    <-> exists d, In d ds /\ D.td_pkgscope d = true /\ D.td_name d = n /\ D.td_id d = x.
Proof.
  intros os ds HP Hnd n x.
  destruct (universe_is_dispatch os ds HP) as [_ L]. rewrite (L n (unique_at_of_disp os ds HP Hnd n)).
  rewrite (DP.type_table_fixed ds Hnd).
  assert (Hk : NoDup (D.keys (map DP.entry (filter D.td_pkgscope ds)))) by (rewrite DP.keys_map_entry; exact Hnd).
  split.
  - destruct (D.lookup n _) as [d|] eqn:E; cbn; [|discriminate]. intros [= <-].
    apply DP.lookup_Some_In, in_map_iff in E. destruct E as (d' & [= <- <-] & Hin).
    apply filter_In in Hin. destruct Hin. exists d'. auto.
  - intros (d & Hin & Hs & Hn & Hx). subst.
    rewrite (DP.lookup_In _ (D.td_name d) d Hk); [reflexivity|].
    apply in_map_iff. exists d. split; [reflexivity|]. apply filter_In. auto.
Qed.

(* C06's exactly-once, with "package-scope declaration" read off C13's table: every call is for an entry of
   Universe's Types(), and every entry of Types() is called exactly as the rule says *)
Theorem exactly_once_on_universe_types : forall g G P defs pi ns os,
  NoDup (D.keys G) -> NoDup (D.keys P) ->
  (forall d, In d defs -> NoDup (D.keys (D.td_tags d))) ->
  NoDup (map D.td_name (filter D.td_pkgscope defs)) ->
  Permutation pi defs ->
  Permutation ns (D.keys (D.type_table true pi)) ->
  (forall d, In d defs -> D.td_action d <> D.AErr) ->
  Permutation (types_of os) (map u_of_disp defs) ->
  let T := U.fill_tables U.all_fixed os in
  exists cs,
    D.do_generate g G P (D.type_table true pi) ns = Ok (cs, false)
    /\ NoDup cs
    /\ (forall k d, In (k, d) cs -> In d defs /\ U.lookup U.KType (D.td_name d) T = Some (D.td_id d))
    /\ (forall n x, U.lookup U.KType n T = Some x ->
          exists d, In d defs /\ D.td_name d = n /\ D.td_id d = x
                    /\ forall k, In (k, d) cs <->
                         DP.enabled_eff_spec (D.g_name g) G P (D.td_tags d) = true
                         /\ ((k = D.CT /\ D.td_kind d = D.KNamed)
                             \/ (k = D.CA /\ D.td_kind d = D.KAlias /\ D.g_alias g = true))).
Proof.
  intros g G P defs pi ns os HG HPt Htags Hnd Hpi Hns Hne HP T.
  destruct (DP.exactly_once g G P defs pi ns HG HPt Htags Hnd Hpi Hns Hne) as (cs & Hrun & Hcs & Hiff).
  exists cs. split; [exact Hrun|]. split; [exact Hcs|]. split.
  - intros k d Hin. apply Hiff in Hin. destruct Hin as (Hd & Hs & _). split; [exact Hd|].
    apply (universe_types_are_disp_decls os defs HP Hnd). exists d. auto.
  - intros n x Hl. apply (universe_types_are_disp_decls os defs HP Hnd) in Hl.
    destruct Hl as (d & Hd & Hs & Hn & Hx). exists d. split; [exact Hd|]. split; [exact Hn|]. split; [exact Hx|].
    intros k. rewrite Hiff. split; [intros (_ & _ & H); exact H|intros H; exact (conj Hd (conj Hs H))].
Qed.

(* C04's "the type table does not depend on the order of Defs", derived from C13's theorem through the adapter *)
Theorem det_table_order_independent_from_universe : forall (o1 o2 : Det.oracle) p,
  Det.shuffles o1 -> Det.shuffles o2 ->
  NoDup (map Det.td_name (filter Det.td_pkgscope (Det.pk_defs p))) ->
  forall n, option_map Det.td_uid (Det.lookup n (Det.type_table true o1 p))
            = option_map Det.td_uid (Det.lookup n (Det.type_table true o2 p)).
Proof.
  intros o1 o2 p H1 H2 Hnd n.
  set (os := map u_of_det (Det.pk_defs p)).
  assert (HP : Permutation (types_of os) os) by (unfold os; rewrite types_of_map_det; apply Permutation_refl).
  assert (Hu : UP.unique_at os U.KType n).
  { apply (unique_types os os HP). unfold os. rewrite filter_map_comm, map_map. exact Hnd. }
  destruct (universe_is_determinism o1 p os H1 HP) as [_ L1].
  destruct (universe_is_determinism o2 p os H2 HP) as [_ L2].
  rewrite <- (L1 n Hu). apply (L2 n Hu).
Qed.

(* ... and its "MethodsOf does not depend on the order of Defs", from Universe's method table + the ordering *)
Theorem det_methods_order_independent_from_universe : forall (o1 o2 : Det.oracle) p uid,
  Det.shuffles o1 -> Det.shuffles o2 ->
  NoDup (map Det.m_pos (Det.pk_meths p)) ->
  Det.methods_of true o1 p uid = Det.methods_of true o2 p uid.
Proof.
  intros o1 o2 p uid H1 H2 Hnd.
  set (ptr := fun _ : Det.meth => false).
  set (os := map (u_of_meth ptr) (Det.pk_meths p)).
  assert (HP : Permutation (meths_of os) os).
  { unfold meths_of, os. rewrite filter_map_true by reflexivity. apply Permutation_refl. }
  pose proof (methods_sorted_agree o1 p ptr os (U.mk_nref uid uid) H1 Hnd HP) as E1.
  pose proof (methods_sorted_agree o2 p ptr os (U.mk_nref uid uid) H2 Hnd HP) as E2.
  cbn [U.n_origin] in E1, E2. rewrite <- E1. exact E2.
Qed.
