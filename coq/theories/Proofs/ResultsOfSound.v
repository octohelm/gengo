(* On a well-typed program (wt_b) the repaired resolver never panics, and every alternative it reports for
   result i is a constant or assignable to the declared type of result i. *)
Require Import Gengo.Base.Bytes Gengo.Model.ResultsOf Gengo.Proofs.ResultsOf.
Require Import Coq.Arith.PeanoNat.

Definition safe {A} (Q : A -> Prop) (m : res A) : Prop := m <> Panic /\ forall x, m = Ok x -> Q x.

Lemma safe_ok : forall {A} (Q : A -> Prop) x, Q x -> safe Q (Ok x).
Proof. intros A Q x H. split; [discriminate|]. intros y [= <-]. exact H. Qed.

Lemma safe_oof : forall {A} (Q : A -> Prop), safe Q OutOfFuel.
Proof. intros A Q. split; [discriminate|]. intros x. discriminate. Qed.

Lemma safe_bind : forall {A B} (Q : A -> Prop) (R : B -> Prop) (m : res A) (f : A -> res B),
    safe Q m -> (forall x, Q x -> safe R (f x)) -> safe R (bind m f).
Proof. intros A B Q R [x| |] f [Hne Hm] Hf; cbn; [auto|congruence|apply safe_oof]. Qed.

(* in this form the 132 cases of two different constructors are closed by I, not by a discrimination each *)
Lemma ty_eqb_true : forall a b, if ty_eqb a b then a = b else True.
Proof.
  destruct a as [| | | | | |x|x|x|x| |], b as [| | | | | |y|y|y|y| |]; cbn; try exact I; try reflexivity;
    (destruct (N.eqb_spec x y) as [->|_]; [reflexivity|exact I]).
Qed.

Lemma ty_eqb_eq : forall a b, ty_eqb a b = true <-> a = b.
Proof.
  intros a b. split.
  - intros H. pose proof (ty_eqb_true a b) as E. rewrite H in E. exact E.
  - intros ->. destruct b; cbn; try reflexivity; apply N.eqb_refl.
Qed.

Lemma ty_eqb_refl : forall t, ty_eqb t t = true.
Proof. intros t. now apply ty_eqb_eq. Qed.

Lemma assignable_refl : forall t, assignable t t = true.
Proof. intros t. unfold assignable. rewrite ty_eqb_refl. reflexivity. Qed.

Lemma assignable_cases : forall a b, assignable a b = true ->
  a = b \/ (is_empty_iface b = true /\ a <> TUntyped) \/ (b = TError /\ exists k, a = TErrImpl k) \/ (a = TNil /\ nilable b = true).
Proof.
  intros a b H. unfold assignable in H.
  apply orb_true_iff in H as [H|H]; [apply orb_true_iff in H as [H|H]; [apply orb_true_iff in H as [H|H]|]|].
  - left. apply ty_eqb_eq, H.
  - apply andb_true_iff in H as [H1 H2]. right; left. split; [exact H1|]. intros ->. discriminate.
  - destruct b; try discriminate. destruct a; try discriminate. eauto 6.
  - destruct a; try discriminate. auto.
Qed.

Lemma assignable_iface : forall a c, is_empty_iface c = true -> a <> TUntyped -> assignable a c = true.
Proof.
  intros a c Hc Ha. unfold assignable. rewrite Hc.
  destruct (ty_eqb a TUntyped) eqn:E; [apply ty_eqb_eq in E; contradiction|]. cbn. rewrite orb_true_r. reflexivity.
Qed.

Lemma assignable_nil : forall c, nilable c = true -> assignable TNil c = true.
Proof. intros c Hc. unfold assignable. rewrite Hc. apply orb_true_r. Qed.

Lemma assignable_trans : forall a b c, assignable a b = true -> assignable b c = true -> assignable a c = true.
Proof.
  intros a b c H1 H2. destruct (assignable_cases _ _ H2) as [<-|[[Hi Hb]|[[-> [k ->]]|[-> Hn]]]].
  - exact H1.
  - apply assignable_iface; [exact Hi|]. intros ->. destruct b; try discriminate H1. exact (Hb eq_refl).
  - destruct a; try discriminate H1; reflexivity.
  - destruct a; try discriminate H1. apply assignable_nil, Hn.
Qed.

Lemma is_error_eq : forall t, is_error t = true -> t = TError.
Proof. destruct t; cbn; intros; try discriminate; reflexivity. Qed.

Lemma good_alt_weaken : forall os T T' a,
    assignable T T' = true -> good_alt os T a = true -> good_alt os T' a = true.
Proof.
  intros os T T' a HT H. unfold good_alt, sound_b in *.
  apply andb_true_iff in H. destruct H as [H1 H2]. apply andb_true_iff. split.
  - apply orb_true_iff in H1. apply orb_true_iff. destruct H1 as [H1|H1]; [left; exact H1|right].
    eapply assignable_trans; eauto.
  - destruct (a_x a) as [|r o|o]; [reflexivity| |].
    + destruct (oty os o); [|discriminate]. eapply assignable_trans; eauto.
    + destruct (oty os o); [|discriminate]. eapply assignable_trans; eauto.
Qed.

Lemma good_type_alt : forall os r T pkg pos, assignable (r_ty r) T = true -> good_alt os T (type_alt r pkg pos) = true.
Proof. intros. unfold good_alt, sound_b, type_alt. cbn. rewrite H. reflexivity. Qed.

Lemma list_eqb_ty_eq : forall a b, list_eqb ty_eqb a b = true -> a = b.
Proof. intros a b H. apply (list_eqb_spec ty_eqb ty_eqb_eq). exact H. Qed.

Lemma forallb2_nth : forall {A B} (f : A -> B -> bool) l1 l2 i a b,
    forallb2 f l1 l2 = true -> nth_error l1 i = Some a -> nth_error l2 i = Some b -> f a b = true.
Proof.
  intros A B f. induction l1 as [|x r IH]; intros [|y r2] i a b H Ha Hb; cbn in H; try discriminate.
  - destruct i; discriminate.
  - apply andb_true_iff in H. destruct H as [H1 H2]. destruct i; cbn in *.
    + inversion Ha; inversion Hb; subst. exact H1.
    + eapply IH; eauto.
Qed.

Section Sound.
  Variable fx : fixes.
  Variable os : otys.
  Variable p : prog.
  Hypothesis Hcl : fx_closure fx = true.
  Hypothesis Hwt : wt_b os p = true.
  Variable Q : list alt -> Prop.          (* an invariant of the alternatives collected so far *)

  Definition Inv (s : state) : Prop := vs_wf p (st_vs s) /\ Q (st_out s).
  Definition okres : res state -> Prop := safe Inv.
  Definition kok (T : ty) (k : cont) : Prop := forall a s, good_alt os T a = true -> Inv s -> okres (k a s).
  Definition pok (T : ty) (P : cont -> state -> res state) : Prop := forall k s, kok T k -> Inv s -> okres (P k s).

  Lemma kok_weaken : forall T T' k, assignable T T' = true -> kok T' k -> kok T k.
  Proof. intros T T' k HT Hk a s Ha Hs. apply Hk; [eapply good_alt_weaken; eauto|exact Hs]. Qed.

  Lemma pok_ret : forall T, pok T (fun _ s => Ok s).
  Proof. intros T k s _ Hs. apply safe_ok, Hs. Qed.

  Lemma pok_yield : forall T a, good_alt os T a = true -> pok T (fun k => k a).
  Proof. intros T a Ha k s Hk Hs. apply Hk; assumption. Qed.

  Lemma pok_bind : forall T P R, pok T P -> pok T R -> pok T (fun k s => bind (P k s) (R k)).
  Proof. intros T P R HP HR k s Hk Hs. eapply safe_bind; [apply HP; assumption|]. intros s1 Hs1. apply HR; assumption. Qed.

  Lemma pok_weaken : forall T T' P, assignable T T' = true -> pok T P -> pok T' P.
  Proof. intros T T' P HT HP k s Hk Hs. apply HP; [eapply kok_weaken; eauto|exact Hs]. Qed.

  Lemma wt_fdef_of : forall f fd, nth_error p f = Some fd -> wt_fdef os p fd = true.
  Proof.
    intros f fd H. unfold wt_b in Hwt. rewrite forallb_forall in Hwt. apply Hwt. eapply nth_error_In; eauto.
  Qed.

  (* what call_at needs to know of a call used at result index at_ where a value of type T is expected *)
  Definition wt_call_at (e : expr) (at_ : nat) (T : ty) : Prop :=
    match e with
    | ECall c args =>
        target_ok p c = true /\ wt_args os p c args = true /\
        (c_issig c = true -> forall rt, nth_error (c_res c) at_ = Some rt -> assignable (r_ty rt) T = true)
    | _ => True
    end.

  Definition wt_voc (T : ty) (e : expr) : Prop :=
    match e with
    | ECall _ _ => wt_call_at e 0 T
    | EVal a | EFuncLit _ a => good_alt os T a = true
    end.

  (* the three conjuncts wt_expr and wt_tuple check of a call; ok = what they ask of its result types *)
  Lemma wt_call_at_intro : forall c args at_ T (ok : bool),
      target_ok p c && wt_args_with (wt_expr os p) c args 0 && (negb (c_issig c) || ok) = true ->
      (ok = true -> forall rt, nth_error (c_res c) at_ = Some rt -> assignable (r_ty rt) T = true) ->
      wt_call_at (ECall c args) at_ T.
  Proof.
    intros c args at_ T ok H Hok. apply andb_true_iff in H. destruct H as [H H3]. apply andb_true_iff in H. destruct H as [H1 H2].
    split; [exact H1|split; [exact H2|]]. intros Hs. rewrite Hs in H3. exact (Hok H3).
  Qed.

  Lemma single_res : forall (rs : list rdecl) T at_ rt,
      match rs with [r] => assignable (r_ty r) T | _ => false end = true -> nth_error rs at_ = Some rt ->
      at_ = 0 /\ assignable (r_ty rt) T = true.
  Proof.
    intros [|r [|]] T at_ rt H Hn; try discriminate. destruct at_ as [|[|]]; try discriminate.
    injection Hn as <-. auto.
  Qed.

  Lemma wt_expr_voc : forall T e, wt_expr os p T e = true -> wt_voc T e.
  Proof.
    intros T e H. destruct e as [a|c args|f a]; cbn [wt_voc]; try exact H.
    apply (wt_call_at_intro _ _ _ _ _ H). intros Hok rt Hn. exact (proj2 (single_res _ _ _ _ Hok Hn)).
  Qed.

  (* rec may be asked for result at_ of function f wherever a value of that result's declared type may flow *)
  Definition rec_ok (rec : nat -> nat -> nat -> cont -> state -> res state) : Prop :=
    forall rlen f at_ fd T,
      nth_error p f = Some fd -> nth_error (map r_ty (f_res fd)) at_ = Some T -> pok T (rec rlen f at_).

  Section Level.
    Variable rec : nat -> nat -> nat -> cont -> state -> res state.
    Hypothesis Hrec : rec_ok rec.
    Variable rlen : nat.

    Lemma closure_loop_ok : forall cres f fd,
        nth_error p f = Some fd ->
        forall rs j,
          (forall i own, nth_error rs i = Some own -> nth_error (f_res fd) (j + i) = Some own) ->
          pok TError (fun k => closure_loop fx rec rlen cres f k rs j).
    Proof.
      intros cres f fd Hfd rs. induction rs as [|own rs' IH]; intros j Hal; cbn [closure_loop]; [apply pok_ret|].
      rewrite Hcl. cbn [bind]. apply pok_bind.
      - destruct (is_error (r_ty own)) eqn:E; [|apply pok_ret].
        apply is_error_eq in E. apply (Hrec rlen f j fd TError Hfd).
        specialize (Hal 0 own eq_refl). rewrite Nat.add_0_r in Hal.
        rewrite nth_error_map, Hal. cbn. rewrite E. reflexivity.
      - apply IH. intros i own' Hn. replace (S j + i) with (j + S i) by lia. apply Hal. exact Hn.
    Qed.

    Lemma args_loop_ok : forall self c l,
        Forall (fun arg => forall at_ T, wt_call_at arg at_ T -> pok T (self arg at_)) l ->
        forall i, wt_args_with (wt_expr os p) c l i = true -> pok TError (fun k => args_loop fx p rec rlen self c k l i).
    Proof.
      intros self c l Hall. induction Hall as [|arg rest Harg _ IH]; intros i Hw; cbn [args_loop]; [apply pok_ret|].
      cbn [wt_args_with] in Hw. apply andb_true_iff in Hw. destruct Hw as [Hw1 Hw2].
      apply pok_bind; [|apply pok_bind; [|apply IH, Hw2]].
      - destruct (nth i (c_perr c) false); [|apply pok_ret].
        apply wt_expr_voc in Hw1. destruct arg as [a|c' args'|f a]; cbn [wt_voc] in Hw1;
          [apply pok_yield, Hw1|apply Harg, Hw1|apply pok_yield, Hw1].
      - destruct arg as [a|c' args'|f a]; try apply pok_ret.
        destruct (nth_error p f) as [fd|] eqn:Hfd; [|apply pok_ret].
        apply (closure_loop_ok (c_res c) f fd Hfd). exact (fun _ _ H => H).
    Qed.

    Lemma call_at_ok : forall e at_ T, wt_call_at e at_ T -> pok T (call_at fx p rec rlen e at_).
    Proof.
      induction e as [a|c args IH|f a] using expr_call_ind; intros at_ T Hw; cbn [call_at]; try apply pok_ret.
      destruct Hw as [Htg [Hargs Hres]].
      destruct (c_issig c) eqn:Esig; cbn [negb]; [|apply pok_ret].
      destruct (nth_error (c_res c) at_) as [rt|] eqn:Hn; [|apply pok_ret].
      specialize (Hres eq_refl rt eq_refl). apply (pok_weaken (r_ty rt)); [exact Hres|].
      destruct (follows (r_ty rt)); [|apply pok_yield, good_type_alt, assignable_refl].
      apply pok_bind.
      - destruct (is_error (r_ty rt)) eqn:Eerr; [|apply pok_ret].
        apply is_error_eq in Eerr. rewrite Eerr. apply args_loop_ok; [exact IH|exact Hargs].
      - destruct (c_target c) as [f|] eqn:Etg; [|apply pok_ret].
        destruct (nth_error p f) as [fd|] eqn:Hfd; [|apply pok_ret].
        unfold target_ok in Htg. rewrite Etg, Hfd in Htg. apply list_eqb_ty_eq in Htg.
        apply (Hrec (nres fd) f at_ fd (r_ty rt) Hfd). rewrite Htg, nth_error_map, Hn. reflexivity.
    Qed.

    Lemma value_or_call_ok : forall T e, wt_voc T e -> pok T (value_or_call fx p rec rlen e).
    Proof.
      intros T [a|c args|f a] Hw; cbn [value_or_call wt_voc] in *;
        [apply pok_yield, Hw|apply call_at_ok, Hw|apply pok_yield, Hw].
    Qed.

    Lemma wt_tuple_head : forall Ts e rest at_ T,
        wt_tuple os p Ts (e :: rest) = true -> nth_error Ts at_ = Some T -> wt_call_at e at_ T.
    Proof.
      intros Ts e rest at_ T H HT. unfold wt_tuple in H.
      destruct (Nat.eqb (length (e :: rest)) (length Ts)) eqn:El.
      - destruct Ts as [|T0 Ts']; [discriminate|]. cbn [forallb2] in H.
        apply andb_true_iff in H. destruct H as [H _].
        destruct e as [a|c args|f a]; cbn [wt_call_at]; auto.
        apply (wt_call_at_intro _ _ _ _ _ H). intros Hok rt Hn.
        destruct (single_res _ _ _ _ Hok Hn) as [-> Ha]. cbn in HT. injection HT as <-. exact Ha.
      - destruct e as [a|c args|f a]; try discriminate. destruct rest; [|discriminate].
        apply (wt_call_at_intro _ _ _ _ _ H). intros Hok rt Hn.
        eapply (forallb2_nth (fun r T => assignable (r_ty r) T)); eauto.
    Qed.

    Lemma wt_tuple_nth : forall Ts es at_ e T,
        wt_tuple os p Ts es = true -> nth_error es at_ = Some e -> nth_error Ts at_ = Some T -> wt_voc T e.
    Proof.
      intros Ts es at_ e T H He HT. unfold wt_tuple in H.
      destruct (Nat.eqb (length es) (length Ts)) eqn:El.
      - apply wt_expr_voc. eapply (forallb2_nth (wt_expr os p)); eauto.
      - destruct es as [|e0 [|e1 rest]]; try discriminate; destruct e0 as [a|c args|f a]; try discriminate.
        destruct at_ as [|n]; [|destruct n; discriminate]. cbn in He. inversion He; subst.
        cbn [wt_voc]. apply (wt_tuple_head Ts _ [] 0 T); [|exact HT].
        unfold wt_tuple. rewrite El. exact H.
    Qed.

    Lemma raroa_ok : forall Ts es retN at_ T,
        wt_tuple os p Ts es = true -> nth_error Ts at_ = Some T -> pok T (raroa fx p rec rlen es retN at_).
    Proof.
      intros Ts es retN at_ T H HT. unfold raroa.
      destruct (Nat.ltb (length es) retN && Nat.ltb 0 (length es)).
      - destruct es as [|e rest]; [apply pok_ret|]. eapply call_at_ok, wt_tuple_head; eauto.
      - destruct (nth_error es at_) as [e|] eqn:He; [|apply pok_ret]. eapply value_or_call_ok, wt_tuple_nth; eauto.
    Qed.

    Lemma assigned_until_ok : forall rs evs o To T until,
        Forall (fun ev => wt_event os p rs ev = true) evs ->
        oty os o = Some To -> assignable To T = true ->
        pok T (assigned_until fx p rec rlen evs (Some o) until).
    Proof.
      intros rs evs o To T until Hevs Ho HT. unfold assigned_until.
      destruct (last_match_spec (Some o) until evs None) as [->|(a & i & l & -> & Hin & Hl & Hm)]; [apply pok_ret|].
      rewrite Forall_forall in Hevs. specialize (Hevs _ Hin). cbn [wt_event] in Hevs.
      destruct (opt_all (map (lhs_ty os) (as_lhs a))) as [Ts|] eqn:EO; [|discriminate].
      assert (HTi : nth_error Ts i = Some To).
      { destruct (opt_all_nth _ _ i (lhs_ty os l) EO) as [t [Ht Hn]].
        - rewrite nth_error_map, Hl. reflexivity.
        - rewrite Hn. f_equal.
          assert (Hlt : lhs_ty os l = Some To).
          { destruct l as [[o'|]|[o'|]|]; cbn in Hm; try discriminate;
              apply N.eqb_eq in Hm; subst o'; cbn; exact Ho. }
          congruence. }
      exact (pok_weaken To T _ HT (raroa_ok Ts (as_rhs a) (length (as_lhs a)) i To Hevs HTi)).
    Qed.

    (* the lookup post makes for an identifier or selector: nothing is found for an expression of another package *)
    Lemma assigned_until_same_ok : forall rs evs o T (same : bool) pos,
        Forall (fun ev => wt_event os p rs ev = true) evs ->
        match oty os o with Some t => assignable t T | None => false end = true ->
        pok T (assigned_until fx p rec rlen evs (if same then Some o else None) (if same then Some pos else None)).
    Proof.
      intros rs evs o T same pos Hevs Hg. destruct same.
      - destruct (oty os o) as [To|] eqn:Ho; [|discriminate]. exact (assigned_until_ok rs evs o To T _ Hevs Ho Hg).
      - unfold assigned_until. rewrite last_match_until_none. apply pok_ret.
    Qed.

    Lemma post_ok : forall rs pkg evs T ret,
        Forall (fun ev => wt_event os p rs ev = true) evs -> good_alt os T ret = true ->
        pok T (fun k => post fx p rec rlen pkg evs k ret).
    Proof.
      intros rs pkg evs T ret Hevs Hret. unfold post.
      pose proof Hret as Hg. unfold good_alt in Hg. apply andb_true_iff in Hg. destruct Hg as [_ Hg].
      destruct (a_x ret) as [|resolved o|o].
      - apply pok_yield, Hret.
      - apply pok_bind; [|exact (assigned_until_same_ok rs evs o T _ _ Hevs Hg)].
        destruct resolved; [apply pok_ret|apply pok_yield, Hret].
      - apply pok_bind; [apply pok_yield, Hret|exact (assigned_until_same_ok rs evs o T _ _ Hevs Hg)].
    Qed.

    Lemma named_obj_nth : forall rs at_ t, named_obj rs at_ = Some t ->
        exists r, nth_error rs at_ = Some r /\ r_obj r = Some t.
    Proof. induction rs as [|r rs IH]; intros [|n] t H; cbn in *; try discriminate; eauto. Qed.

    Lemma named_obj_ty : forall rs at_ t T,
        forallb (wt_rdecl os) rs = true -> named_obj rs at_ = Some t -> nth_error (map r_ty rs) at_ = Some T ->
        oty os t = Some T.
    Proof.
      induction rs as [|r rs IH]; intros [|n] t T Hrd Hn HT; cbn in *; try discriminate;
        apply andb_true_iff in Hrd as [Hw Hrd].
      - unfold wt_rdecl in Hw. rewrite Hn in Hw. destruct (oty os t) as [To|]; [|discriminate].
        apply ty_eqb_eq in Hw. congruence.
      - eauto.
    Qed.

    Lemma returns_loop_ok : forall fd all evs at_ T,
        forallb (wt_rdecl os) (f_res fd) = true ->
        Forall (fun ev => wt_event os p (f_res fd) ev = true) all ->
        Forall (fun ev => wt_event os p (f_res fd) ev = true) evs ->
        nth_error (map r_ty (f_res fd)) at_ = Some T ->
        pok T (returns_loop fx p rec rlen fd all evs at_).
    Proof.
      intros fd all evs at_ T Hrd Hall Hevs HT. induction Hevs as [|[a|endp [es|]] r Hev _ IH]; cbn [returns_loop].
      - apply pok_ret.
      - exact IH.
      - apply pok_bind; [|exact IH]. intros k s Hk. apply (raroa_ok (map r_ty (f_res fd)) es rlen at_ T Hev HT).
        intros ret s1 Hret. exact (post_ok _ _ _ T ret Hall Hret k s1 Hk).
      - apply pok_bind; [|exact IH]. destruct (named_obj (f_res fd) at_) as [t|] eqn:En; [|apply pok_ret].
        exact (assigned_until_ok (f_res fd) all t T T _ Hall (named_obj_ty _ _ _ _ Hrd En HT) (assignable_refl _)).
    Qed.
  End Level.

  Lemma scan_body_ok : forall rec, rec_ok rec -> rec_ok (scan_body fx p rec).
  Proof.
    intros rec Hrec rlen f at_ fd T Hfd HT. unfold scan_body. rewrite Hfd.
    destruct (f_body fd) as [body|] eqn:Eb; [|apply pok_ret].
    assert (Hlt : at_ < nres fd).
    { unfold nres. rewrite <- (map_length r_ty). apply nth_error_Some. congruence. }
    intros k s Hk [Hwf HQ].
    pose proof (visited_spec (fx_visits fx) p (st_vs s) f fd at_ Hwf Hfd) as Hv.
    rewrite (proj2 (Nat.ltb_lt _ _) Hlt) in Hv. destruct Hv as (vs1 & -> & Hwf1 & _). cbn [bind].
    destruct (marked (st_vs s) (f, at_)); [apply safe_ok; split; assumption|].
    pose proof (wt_fdef_of f fd Hfd) as Hw. unfold wt_fdef in Hw. rewrite Eb in Hw.
    apply andb_true_iff in Hw. destruct Hw as [Hrd Hevs]. rewrite forallb_forall in Hevs.
    assert (Hall : Forall (fun ev => wt_event os p (f_res fd) ev = true) (flatten_all body))
      by (apply Forall_forall; exact Hevs).
    apply (returns_loop_ok rec Hrec rlen fd _ _ at_ T Hrd Hall Hall HT); [exact Hk|split; assumption].
  Qed.

  Lemma scan_ok : forall fuel, rec_ok (scan fx p fuel).
  Proof.
    induction fuel as [|fuel IH]; [|exact (scan_body_ok _ IH)].
    intros rlen f at_ fd T _ _ k s _ _. apply safe_oof.
  Qed.
End Sound.

Definition good_lists (os : otys) (sigres : list rdecl) (ls : list (list alt)) : Prop :=
  Forall2 (fun r l => Forall (fun a => good_alt os (r_ty r) a = true) l) sigres ls.

Lemma results_from_ast_loop_sound : forall fx os p fuel f fd,
    fx_closure fx = true -> wt_b os p = true -> nth_error p f = Some fd ->
    forall sigres rlen at_ vs,
      vs_wf p vs ->
      (forall i r, nth_error sigres i = Some r -> nth_error (map r_ty (f_res fd)) (at_ + i) = Some (r_ty r)) ->
      safe (fun x => vs_wf p (snd x) /\ good_lists os sigres (fst x)) (results_from_ast_loop fx p fuel f sigres rlen at_ vs).
Proof.
  intros fx os p fuel f fd Hcl Hwt Hfd sigres.
  induction sigres as [|r rest IH]; intros rlen at_ vs Hwf Hal; cbn [results_from_ast_loop].
  - apply safe_ok. split; [exact Hwf|constructor].
  - set (Q := Forall (fun a => good_alt os (r_ty r) a = true)).
    assert (HT : nth_error (map r_ty (f_res fd)) at_ = Some (r_ty r)).
    { specialize (Hal 0 r eq_refl). rewrite Nat.add_0_r in Hal. exact Hal. }
    assert (Hk : kok os p Q (r_ty r) collect).
    { intros a s Ha [Hw HQ]. apply safe_ok. split; [exact Hw|]. constructor; assumption. }
    assert (Hs : Inv p Q (mk_state vs [])) by (split; [exact Hwf|constructor]).
    eapply safe_bind; [exact (scan_ok fx os p Hcl Hwt Q fuel rlen f at_ fd (r_ty r) Hfd HT collect _ Hk Hs)|].
    intros s [Hwf1 HQ1]. eapply safe_bind.
    + apply (IH rlen (S at_) (st_vs s) Hwf1). intros i r0 Hn. replace (S at_ + i) with (at_ + S i) by lia. apply Hal. exact Hn.
    + intros [more vs'] [Hwf2 Hf2]. apply safe_ok. split; [exact Hwf2|]. constructor; [|exact Hf2].
      destruct (rev (st_out s)) eqn:Er; cbn [is_nil].
      * repeat constructor. apply good_type_alt, assignable_refl.
      * rewrite <- Er. apply Forall_rev, HQ1.
Qed.

Lemma results_from_ast_sound : forall fx os p fuel f fd sigres,
    fx_closure fx = true -> wt_b os p = true -> nth_error p f = Some fd ->
    map r_ty (f_res fd) = map r_ty sigres ->
    safe (good_lists os sigres) (results_from_ast fx p fuel f sigres []).
Proof.
  intros fx os p fuel f fd sigres Hcl Hwt Hfd Heq. unfold results_from_ast. rewrite Hfd.
  eapply safe_bind.
  - apply (results_from_ast_loop_sound fx os p fuel f fd Hcl Hwt Hfd sigres (length sigres) 0 [] (vs_wf_nil p)).
    intros i r Hn. cbn. rewrite Heq, nth_error_map, Hn. reflexivity.
  - intros [ls vs] H. apply safe_ok, H.
Qed.

Lemma from_signature_sound : forall os sigres, good_lists os sigres (from_signature sigres).
Proof.
  intros os sigres. induction sigres as [|r rest IH]; constructor; [|exact IH].
  repeat constructor. apply good_type_alt, assignable_refl.
Qed.

Lemma zip_app_sound : forall {A} (P : A -> list alt -> Prop) rs a b,
    (forall r x y, P r x -> P r y -> P r (x ++ y)) ->
    Forall2 P rs a -> Forall2 P rs b -> Forall2 P rs (zip_app a b).
Proof.
  intros A P rs a b Happ Ha. revert b. induction Ha as [|r x rs' a' Hx Ha' IH]; intros b Hb; [constructor|].
  inversion Hb; subst. cbn [zip_app]. constructor; [apply Happ; assumption|apply IH; assumption].
Qed.

Lemma zip_app_nil_r : forall a, zip_app a [] = a.
Proof. intros [|x a]; reflexivity. Qed.

Definition sound_lists (sigres : list rdecl) (ls : list (list alt)) : Prop :=
  forall i l r a, nth_error ls i = Some l -> nth_error sigres i = Some r -> In a l -> sound_b a (r_ty r) = true.

Lemma sound_lists_nil : forall sigres, sound_lists sigres [].
Proof. intros sigres [|i] l r a H; discriminate. Qed.

Lemma good_lists_sound : forall os sigres ls, good_lists os sigres ls -> sound_lists sigres ls.
Proof.
  intros os sigres ls HF. induction HF as [|r0 l0 rs ls' H0 _ IH]; intros i l r a Hl Hr Hin; [destruct i; discriminate|].
  destruct i; cbn in Hl, Hr.
  - injection Hl as <-. injection Hr as <-. rewrite Forall_forall in H0. specialize (H0 a Hin).
    unfold good_alt in H0. apply andb_true_iff in H0. apply H0.
  - exact (IH i l r a Hl Hr Hin).
Qed.

(* Concat of the declared types with what the body gives (nothing, when the function has no body here) *)
Lemma concat_results_sound : forall fx os sigres inner,
    inner = [] \/ good_lists os sigres inner ->
    sound_lists sigres (concat_results fx (from_signature sigres) inner).
Proof.
  intros fx os sigres inner Hin. unfold concat_results.
  destruct (fx_concat fx); [|apply sound_lists_nil]. apply (good_lists_sound os).
  destruct (Nat.eqb _ _); [|apply from_signature_sound]. destruct Hin as [->|Hin].
  - rewrite zip_app_nil_r. apply from_signature_sound.
  - apply zip_app_sound; [|apply from_signature_sound|exact Hin]. intros r x y Hx Hy. apply Forall_app. split; assumption.
Qed.

Theorem results_of_sound : forall fx os p fuel en sigres,
    fx_closure fx = true -> wt_b os p = true -> entry_ok p en sigres = true ->
    safe (fun x => sound_lists sigres (fst x)) (results_of fx p fuel en sigres).
Proof.
  intros fx os p fuel en sigres Hcl Hwt Hen. unfold results_of.
  destruct (Nat.eqb (length sigres) 0); [apply safe_ok, sound_lists_nil|].
  assert (Hast : forall f, entry_ok p (EnBody f) sigres = true -> safe (good_lists os sigres) (results_from_ast fx p fuel f sigres [])).
  { intros f H. unfold entry_ok in H. destruct (nth_error p f) as [fd|] eqn:Hfd; [|discriminate].
    apply list_eqb_ty_eq in H. exact (results_from_ast_sound fx os p fuel f fd sigres Hcl Hwt Hfd H). }
  destruct en as [f|[f|]| |].
  - eapply safe_bind; [exact (Hast f Hen)|]. intros ls H. apply safe_ok, (good_lists_sound os), H.
  - eapply safe_bind; [exact (Hast f Hen)|]. intros inner H. apply safe_ok, (concat_results_sound fx os). auto.
  - apply safe_ok, (concat_results_sound fx os). auto.
  - apply safe_ok, (good_lists_sound os), from_signature_sound.
  - apply safe_ok. destruct (fx_fallback fx); [apply (good_lists_sound os), from_signature_sound|apply sound_lists_nil].
Qed.

Theorem results_of_total : forall fx os p fuel en sigres,
    fx_visits fx = true -> fx_closure fx = true -> wt_b os p = true -> entry_ok p en sigres = true ->
    length (nodes p) < fuel -> exists ls n, results_of fx p fuel en sigres = Ok (ls, n).
Proof.
  intros fx os p fuel en sigres Hv Hcl Hwt Hen Hfuel.
  pose proof (results_of_terminates fx p Hv fuel en sigres Hfuel) as H1.
  pose proof (proj1 (results_of_sound fx os p fuel en sigres Hcl Hwt Hen)) as H2.
  destruct (results_of fx p fuel en sigres) as [[ls n]| |]; [eauto|congruence|congruence].
Qed.
