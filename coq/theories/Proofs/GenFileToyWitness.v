(* A NON-TRIVIAL instance of the hypotheses H0 / H1 / H2a / H2b of C01_written (Proofs/GenFile.v, section Claim).

   The instance in Proofs/GenFile.v ([hypotheses_satisfiable]) is the identity formatter with a parser that accepts
   everything and no declarations at all.  Here is a small formatter stack over bytes, written in Gallina, for a toy
   language ("toy Go"), with the four hypotheses PROVED for all inputs:

     a source PARSES iff it is   <general comment> \n package <identifier> \n <rest>   with the braces of <rest>
                                  balanced (never closing more than were opened, all closed at the end);
     its DECLARATIONS modulo formatting are the non-blank lines of <rest> with every space removed
                                  (after the import block "import(" ... ")" when asked so);
     fmt1   (the "printer")       rejects what does not parse; removes trailing spaces from the lines of <rest>;
     fmt2   ("gofumpt")           rejects what does not parse; allows at most ONE blank line in a row in <rest>;
     gofmt                        rejects what does not parse; allows at most TWO blank lines in a row.

   fmt1 is not the identity, its output is in general NOT a fixed point of fmt2, fmt2 is not the identity (the loop of
   WriteToFile runs two rounds: one that changes the text, one that finds it stable), gofmt is weaker than fmt2 (every
   fmt2 output is a gofmt fixed point, not conversely), the parser rejects byte strings, the declaration list is a
   real function of the text.  Nothing here is about the real Go tools: it shows that the hypotheses of C01_written
   are jointly satisfiable by a formatter that does something, and what the theorem then says. *)
Require Import Gengo.Base.Bytes Gengo.Base.Order Gengo.Model.GenFile Gengo.Proofs.GenFile.
Require Gengo.Base.Assoc.
From Coq Require Import PeanoNat.

Definition sp : ascii := ascii_of_N 32.
Definition lbrace : ascii := ascii_of_N 123.
Definition rbrace : ascii := ascii_of_N 125.

(* remove the spaces before a newline and at the end of the text; [pend] spaces are held back *)
Fixpoint trim (pend : nat) (s : bytes) : bytes :=
  match s with
  | [] => []
  | c :: r =>
      if Ascii.eqb c sp then trim (S pend) r
      else if Ascii.eqb c nl then nl :: trim 0 r
      else repeat sp pend ++ c :: trim 0 r
  end.

(* at most [lim] newlines in a row; [k] newlines have just been emitted *)
Fixpoint squeeze (lim k : nat) (s : bytes) : bytes :=
  match s with
  | [] => []
  | c :: r =>
      if Ascii.eqb c nl then (if Nat.leb lim k then squeeze lim k r else nl :: squeeze lim (S k) r)
      else c :: squeeze lim 0 r
  end.

(* braces balanced; [d] are open *)
Fixpoint bal (d : nat) (s : bytes) : bool :=
  match s with
  | [] => Nat.eqb d 0
  | c :: r =>
      if Ascii.eqb c lbrace then bal (S d) r
      else if Ascii.eqb c rbrace then match d with O => false | S d' => bal d' r end
      else bal d r
  end.

(* the non-blank lines with every space removed; [cur] is the line being read, reversed *)
Fixpoint decls (cur : bytes) (s : bytes) : list bytes :=
  match s with
  | [] => if is_nil cur then [] else [rev cur]
  | c :: r =>
      if Ascii.eqb c sp then decls cur r
      else if Ascii.eqb c nl then (if is_nil cur then decls [] r else rev cur :: decls [] r)
      else decls (c :: cur) r
  end.

Fixpoint after_nl (s : bytes) : option bytes :=
  match s with
  | [] => None
  | c :: r => if Ascii.eqb c nl then Some r else after_nl r
  end.

(* comment, package name, rest *)
Definition toy_parse (s : bytes) : option (bytes * bytes * bytes) :=
  match lead_comment s with
  | Some c =>
      match skipn (List.length c) s with
      | n :: r =>
          if Ascii.eqb n nl && prefix_b (bs "package ") r then
            match after_nl (skipn 8 r) with
            | Some rest =>
                let name := until_nl (skipn 8 r) in
                if ident name && negb (is_nil name) then Some (c, name, rest) else None
            | None => None
            end
          else None
      | [] => None
      end
  | None => None
  end.

Definition toy_build (c name rest : bytes) : bytes := c ++ nl :: bs "package " ++ name ++ nl :: rest.

Definition toy_fmt_with (norm : bytes -> bytes) (s : bytes) : option bytes :=
  match toy_parse s with
  | Some (c, name, rest) => if bal 0 rest then Some (toy_build c name (norm rest)) else None
  | None => None
  end.

(* one newline (the one that ends the package clause) has been emitted when <rest> starts *)
Definition toy_fmt1 : bytes -> option bytes := toy_fmt_with (trim 0).
Definition toy_fmt2 : bytes -> option bytes := toy_fmt_with (squeeze 2 1).
Definition toy_gofmt : bytes -> option bytes := toy_fmt_with (squeeze 3 1).

Definition toy_parses (s : bytes) : bool :=
  match toy_parse s with Some (_, _, rest) => bal 0 rest | None => false end.

Definition toy_decl_list (s : bytes) : option (list bytes) :=
  match toy_parse s with
  | Some (_, _, rest) => if bal 0 rest then Some (decls [] rest) else None
  | None => None
  end.

Fixpoint after_close (ds : list bytes) : list bytes :=
  match ds with
  | [] => []
  | l :: r => if bytes_eqb l (bs ")") then r else after_close r
  end.
(* the declarations after the import block: "import (" reads "import(" once the spaces are gone *)
Definition drop_import (ds : list bytes) : list bytes :=
  match ds with
  | l :: r => if bytes_eqb l (bs "import(") then after_close r else ds
  | [] => []
  end.

Definition toy_decls (b : bool) (s : bytes) : option (list bytes) :=
  option_map (fun ds => if b then drop_import ds else ds) (toy_decl_list s).

Lemma bal_repeat_sp : forall n d x, bal d (repeat sp n ++ x) = bal d x.
Proof. induction n as [|n IH]; intros d x; [reflexivity|]. cbn. apply IH. Qed.

Lemma decls_repeat_sp : forall n cur x, decls cur (repeat sp n ++ x) = decls cur x.
Proof. induction n as [|n IH]; intros cur x; [reflexivity|]. cbn. apply IH. Qed.

Lemma bal_trim : forall s pend d, bal d (trim pend s) = bal d s.
Proof.
  induction s as [|a s IH]; intros pend d; [reflexivity|]. cbn [trim].
  destruct (Ascii.eqb_spec a sp) as [->|_]; [cbn; apply IH|].
  destruct (Ascii.eqb_spec a nl) as [->|_]; [cbn; apply IH|].
  rewrite bal_repeat_sp. cbn [bal].
  destruct (Ascii.eqb a lbrace); [apply IH|]. destruct (Ascii.eqb a rbrace); [|apply IH].
  destruct d; [reflexivity|apply IH].
Qed.

Lemma decls_trim : forall s pend cur, decls cur (trim pend s) = decls cur s.
Proof.
  induction s as [|a s IH]; intros pend cur; [reflexivity|]. cbn [trim decls].
  destruct (Ascii.eqb a sp) eqn:Es; [apply IH|].
  destruct (Ascii.eqb a nl) eqn:En; [cbn; now rewrite IH|].
  rewrite decls_repeat_sp. cbn [decls]. rewrite Es, En. apply IH.
Qed.

Lemma bal_squeeze : forall s lim k d, bal d (squeeze lim k s) = bal d s.
Proof.
  induction s as [|a s IH]; intros lim k d; [reflexivity|]. cbn [squeeze].
  destruct (Ascii.eqb_spec a nl) as [->|_]; [destruct (Nat.leb lim k); cbn; apply IH|].
  cbn [bal]. destruct (Ascii.eqb a lbrace); [apply IH|]. destruct (Ascii.eqb a rbrace); [|apply IH].
  destruct d; [reflexivity|apply IH].
Qed.

(* a newline is only dropped after a newline, that is when no line is being read *)
Lemma decls_squeeze : forall s lim k cur, 1 <= lim -> (cur <> [] -> k = 0) ->
  decls cur (squeeze lim k s) = decls cur s.
Proof.
  induction s as [|a s IH]; intros lim k cur Hlim Hk; [reflexivity|]. cbn [squeeze].
  destruct (Ascii.eqb a nl) eqn:En.
  - apply Ascii.eqb_eq in En. subst a. destruct (Nat.leb lim k) eqn:El.
    + apply Nat.leb_le in El. destruct cur as [|c cur]; [|assert (k = 0) by (apply Hk; discriminate); lia].
      cbn. apply IH; [exact Hlim|intros H; now contradiction H].
    + cbn. rewrite (IH lim (S k) []); [reflexivity|exact Hlim|intros H; now contradiction H].
  - cbn [decls]. destruct (Ascii.eqb a sp); [apply IH; [exact Hlim|reflexivity]|].
    rewrite En. apply IH; [exact Hlim|reflexivity].
Qed.

(* a stricter limit subsumes a laxer one (in particular squeeze is idempotent) *)
Lemma squeeze_absorb : forall s lim lim' k, lim <= lim' ->
  squeeze lim' k (squeeze lim k s) = squeeze lim k s.
Proof.
  induction s as [|a s IH]; intros lim lim' k Hl; [reflexivity|]. cbn [squeeze].
  destruct (Ascii.eqb a nl) eqn:En.
  - apply Ascii.eqb_eq in En. subst a. destruct (Nat.leb lim k) eqn:El; [now apply IH|].
    apply Nat.leb_gt in El. cbn [squeeze]. rewrite Ascii.eqb_refl.
    assert (E : Nat.leb lim' k = false) by (apply Nat.leb_gt; lia). rewrite E. f_equal. now apply IH.
  - cbn [squeeze]. rewrite En. f_equal. now apply IH.
Qed.

(* the comment is a prefix of the text, and it is the comment of every text that starts with it *)
Lemma upto_close_prefix : forall r u, upto_close r = Some u ->
  u <> [] /\ (exists t0, r = u ++ t0) /\ forall t, upto_close (u ++ t) = Some u.
Proof.
  induction r as [|c r IH]; intros u H; [discriminate|].
  destruct r as [|d r']; [discriminate|]. rewrite upto_close_cons2 in H.
  destruct (Ascii.eqb c star && Ascii.eqb d slash) eqn:Ec.
  - injection H as <-. split; [discriminate|]. split; [now exists r'|].
    intros t. cbn [app]. now rewrite upto_close_cons2, Ec.
  - destruct (upto_close (d :: r')) as [u'|]; [|discriminate]. injection H as <-.
    destruct (IH u' eq_refl) as (Hne & [t0 Ht0] & Hall). split; [discriminate|].
    destruct u' as [|d' u'']; [now contradiction Hne|]. cbn [app] in Ht0. injection Ht0 as <- Ht0.
    split; [exists t0; now rewrite Ht0|].
    intros t. specialize (Hall t). cbn [app] in *. now rewrite upto_close_cons2, Ec, Hall.
Qed.

Lemma lead_comment_prefix : forall s c, lead_comment s = Some c ->
  (exists t0, s = c ++ t0) /\ forall t, lead_comment (c ++ t) = Some c.
Proof.
  intros [|a [|b r]] c H; cbn [lead_comment] in H; try discriminate.
  destruct (Ascii.eqb a slash && Ascii.eqb b star) eqn:Ec; [|discriminate].
  destruct (upto_close r) as [u|] eqn:Eu; [|discriminate]. inversion H; subst c.
  destruct (upto_close_prefix r u Eu) as (_ & [t0 Ht0] & Hall). split.
  - exists t0. cbn [app]. now rewrite Ht0.
  - intros t. cbn [app lead_comment]. rewrite Ec, Hall. reflexivity.
Qed.

Lemma prefix_b_split : forall w s, prefix_b w s = true -> s = w ++ skipn (List.length w) s.
Proof.
  intros w s H. apply Assoc.has_prefix_iff in H. destruct H as [r ->].
  now rewrite skipn_app, skipn_all, Nat.sub_diag.
Qed.

Lemma after_nl_split : forall x rest, after_nl x = Some rest -> x = until_nl x ++ nl :: rest.
Proof.
  induction x as [|c x IH]; intros rest H; [discriminate|]. cbn [after_nl until_nl] in *.
  destruct (Ascii.eqb c nl) eqn:En.
  - apply Ascii.eqb_eq in En. subst c. inversion H; subst. reflexivity.
  - cbn [app]. f_equal. now apply IH.
Qed.

Lemma after_nl_app : forall w t, ident w = true -> after_nl (w ++ nl :: t) = Some t.
Proof.
  induction w as [|c w IH]; intros t H; cbn [app after_nl].
  - reflexivity.
  - rewrite (ident_no_nl (c :: w) c H (or_introl eq_refl)). apply IH.
    unfold ident in *. cbn in H. now apply andb_true_iff in H.
Qed.

Lemma toy_parse_sound : forall s c name rest, toy_parse s = Some (c, name, rest) ->
  s = toy_build c name rest /\ lead_comment s = Some c /\ ident name = true /\ name <> [].
Proof.
  intros s c name rest H. unfold toy_parse in H.
  destruct (lead_comment s) as [c0|] eqn:Ec; [|discriminate].
  destruct (lead_comment_prefix s c0 Ec) as [[t0 ->] _]. rewrite skipn_app_exact in H.
  destruct t0 as [|n r]; [discriminate|].
  destruct (Ascii.eqb_spec n nl) as [->|]; [|discriminate].
  destruct (prefix_b (bs "package ") r) eqn:Ep; [|discriminate]. apply prefix_b_split in Ep.
  cbn [andb List.length] in *. destruct (after_nl (skipn 8 r)) as [rest0|] eqn:Ea; [|discriminate].
  apply after_nl_split in Ea. destruct (ident (until_nl (skipn 8 r))) eqn:Hid; [|discriminate].
  destruct (until_nl (skipn 8 r)) as [|x name0] eqn:En; [discriminate|]. injection H as <- <- <-.
  split; [|split; [reflexivity|split; [exact Hid|discriminate]]].
  unfold toy_build. change (List.length (bs "package ")) with 8 in Ep. now rewrite Ep, Ea.
Qed.

Lemma toy_parse_build : forall c name rest,
  (forall t, lead_comment (c ++ t) = Some c) -> ident name = true -> name <> [] ->
  toy_parse (toy_build c name rest) = Some (c, name, rest).
Proof.
  intros c name rest Hc Hid Hne. unfold toy_parse, toy_build. rewrite Hc, skipn_app_exact.
  change (Ascii.eqb nl nl && prefix_b (bs "package ") (bs "package " ++ name ++ nl :: rest)) with true. cbn iota.
  change (skipn 8 (bs "package " ++ name ++ nl :: rest)) with (name ++ nl :: rest).
  rewrite after_nl_app, until_nl_app, Hid by assumption.
  destruct name; [now contradiction Hne|reflexivity].
Qed.

Lemma toy_parse_rebuild : forall s c name rest, toy_parse s = Some (c, name, rest) ->
  forall rest', toy_parse (toy_build c name rest') = Some (c, name, rest').
Proof.
  intros s c name rest H rest'. destruct (toy_parse_sound _ _ _ _ H) as (_ & Hc & Hid & Hne).
  apply toy_parse_build; try assumption. apply (proj2 (lead_comment_prefix s c Hc)).
Qed.

(* the toy parser reads the package clause as [pkg_clause_of] does *)
Lemma toy_parse_pkg_clause : forall s c name rest, toy_parse s = Some (c, name, rest) -> pkg_clause_of s = Some name.
Proof.
  intros s c name rest H. destruct (toy_parse_sound _ _ _ _ H) as (-> & Hc & Hid & _).
  apply pkg_clause_of_build; [apply (lead_comment_prefix _ _ Hc)|exact Hid].
Qed.

Lemma fmt_with_spec : forall norm s out, toy_fmt_with norm s = Some out ->
  exists c name rest, toy_parse s = Some (c, name, rest) /\ bal 0 rest = true /\ out = toy_build c name (norm rest).
Proof.
  intros norm s out H. unfold toy_fmt_with in H. destruct (toy_parse s) as [[[c name] rest]|]; [|discriminate].
  destruct (bal 0 rest) eqn:Eb; [|discriminate]. inversion H. now exists c, name, rest.
Qed.

(* what fmt2 returns is stable under every formatter that allows at least as many blank lines *)
Lemma squeeze_stable : forall lim x y, 2 <= lim ->
  toy_fmt2 x = Some y -> toy_fmt_with (squeeze lim 1) y = Some y.
Proof.
  intros lim x y Hl H. destruct (fmt_with_spec _ _ _ H) as (c & name & rest & Hp & Hb & ->).
  unfold toy_fmt_with. rewrite (toy_parse_rebuild x c name rest Hp), bal_squeeze, Hb.
  now rewrite squeeze_absorb.
Qed.

Lemma iter_last : forall (f : bytes -> option bytes) n s out, iter f (S n) s = Some out -> exists x, f x = Some out.
Proof.
  intros f. induction n as [|n IH]; intros s out H; cbn [iter] in H; (destruct (f s) as [t|] eqn:E; [|discriminate]).
  - injection H as <-. now exists s.
  - exact (IH t out H).
Qed.

(* The whole pipeline is ONE toy formatter: what fmt2 returns is stable, so the loop is one application of fmt2
   (settle_idem), and two toy formatters in a row are one. *)
Lemma toy_fmt_src : forall s,
  fmt_src toy_fmt1 toy_fmt2 true s = toy_fmt_with (fun x => squeeze 2 1 (trim 0 x)) s.
Proof.
  intros s. unfold fmt_src, toy_fmt1, toy_fmt_with.
  destruct (toy_parse s) as [[[c name] rest]|] eqn:Hp; [|reflexivity]. destruct (bal 0 rest) eqn:Hb; [|reflexivity].
  unfold rounds. rewrite settle_idem by (intros x y; apply (squeeze_stable 2); lia).
  unfold toy_fmt2, toy_fmt_with. now rewrite (toy_parse_rebuild s c name rest Hp), bal_trim, Hb.
Qed.

Lemma toy_H0 : H0 toy_fmt1 pkg_clause_of.
Proof. intros pkg gen m body Hp Hg _. now apply pkg_clause_of_assemble. Qed.

(* trim and squeeze change neither the braces nor the declarations of <rest>, and the output parses as the source did *)
Lemma toy_H1 : H1 toy_fmt1 toy_fmt2 toy_parses pkg_clause_of toy_decls.
Proof.
  intros s out H. rewrite toy_fmt_src in H. destruct (fmt_with_spec _ _ _ H) as (c & name & rest & P1 & B1 & ->).
  pose proof (toy_parse_rebuild s c name rest P1 (squeeze 2 1 (trim 0 rest))) as P2.
  assert (B2 : bal 0 (squeeze 2 1 (trim 0 rest)) = true) by now rewrite bal_squeeze, bal_trim.
  assert (D : decls [] (squeeze 2 1 (trim 0 rest)) = decls [] rest).
  { rewrite decls_squeeze, decls_trim; [reflexivity|lia|]. intros E. now contradiction E. }
  split; [unfold toy_parses; now rewrite P2|].
  split; [now rewrite (toy_parse_pkg_clause _ _ _ _ P1), (toy_parse_pkg_clause _ _ _ _ P2)|].
  split; [intros b; unfold toy_decls, toy_decl_list; now rewrite P1, P2, B1, B2, D|].
  intros _ w c0 _ Hc Hw.
  destruct (toy_parse_sound _ _ _ _ P1) as (_ & Hc1 & _). destruct (toy_parse_sound _ _ _ _ P2) as (_ & Hc2 & _).
  rewrite Hc1 in Hc. inversion Hc; subst c0. now exists c.
Qed.

Lemma toy_H2a : H2a toy_fmt2 toy_gofmt.
Proof. intros x y H. apply (squeeze_stable 3 x y); [lia|exact H]. Qed.

Lemma toy_H2b : H2b toy_fmt1 toy_fmt2.
Proof.
  intros s p out _ H. unfold rounds in H. destruct (iter_last toy_fmt2 4 p out H) as [x Hx].
  apply (squeeze_stable 2 x out); [lia|exact Hx].
Qed.

(* C01_written with its four hypotheses discharged: a statement about these formatters and nothing else *)
Lemma toy_written :
  forall base pkg gfs fs fs',
    NoDup (map gf_name gfs) ->
    write_all toy_fmt1 toy_fmt2 true base pkg gfs fs = Some fs' ->
    forall g, In g gfs -> body_of (gf_snips g) <> [] ->
      let src := assemble pkg (gf_name g) (gf_imports g) (body_of (gf_snips g)) in
      exists out,
        fs_get fs' (filename base (gf_name g)) = Some out
        /\ toy_parses out = true
        /\ (ident pkg = true -> plain (gf_name g) = true -> mentions_build src = false ->
            exists c, lead_comment out = Some c /\ infix (bs "gengo:" ++ gf_name g) c)
        /\ (ident pkg = true -> plain (gf_name g) = true -> pkg_clause_of out = Some pkg)
        /\ (forall b, toy_decls b out = toy_decls b src)
        /\ toy_gofmt out = Some out
        /\ toy_fmt2 out = Some out.
Proof. exact (written_ok toy_fmt1 toy_fmt2 toy_gofmt toy_parses pkg_clause_of toy_decls toy_H0 toy_H1 toy_H2a toy_H2b). Qed.

Definition lf : string := String nl EmptyString.

(* generator "toy": one import, a function whose lines end in spaces, runs of blank lines, a comment *)
Definition toy_gen : genfile :=
  mk_genfile (bs "toy") [(bs "strings", bs "strings")]
    [SBlock (bs ("func f() {   " ++ lf ++ lf ++ lf ++ lf ++ "	return strings.ToUpper(""x"") " ++ lf ++ "}" ++ lf));
     SNil;
     SComment (bs ("two" ++ lf ++ "lines"));
     SBlock (bs (lf ++ "  " ++ lf ++ " " ++ lf ++ lf ++ "var x = struct{}{}  " ++ lf))].
(* generator "none" renders nothing: no file *)
Definition toy_gen_none : genfile := mk_genfile (bs "none") [] [SNil; SBlock []; SSnippets [SNil]].
(* generator "bad" renders an unbalanced brace: the first stage rejects it *)
Definition toy_gen_bad : genfile := mk_genfile (bs "bad") [] [SBlock (bs ("func g() {" ++ lf))].

Definition toy_fs0 : fsys := [(bs "user.go", bs "package p"); (bs "zz_generated.toy.go", bs "previous")].

Definition toy_src : bytes := assemble (bs "p") (bs "toy") (gf_imports toy_gen) (body_of (gf_snips toy_gen)).

Definition toy_out : bytes :=
  bs ("/*" ++ lf ++ "Package p GENERATED BY gengo:toy " ++ lf ++ "DON'T EDIT THIS FILE" ++ lf ++ "*/" ++ lf
      ++ "package p" ++ lf ++ lf
      ++ "import (" ++ lf ++ "	strings ""strings""" ++ lf ++ ")" ++ lf
      ++ "func f() {" ++ lf ++ lf ++ "	return strings.ToUpper(""x"")" ++ lf ++ "}" ++ lf
      ++ "// two" ++ lf ++ "// lines" ++ lf ++ lf
      ++ "var x = struct{}{}" ++ lf).

Lemma toy_decls_true : forall s, toy_decls true s = option_map drop_import (toy_decls false s).
Proof. intros s. unfold toy_decls. now destruct (toy_decl_list s). Qed.

(* what the first stage makes of the source of generator "toy", evaluated here once *)
Definition toy_printed : bytes := Eval vm_compute in match toy_fmt1 toy_src with Some p => p | None => [] end.

Lemma toy_stages : exists printed,
  toy_fmt1 toy_src = Some printed /\ printed <> toy_src /\ toy_fmt2 printed = Some toy_out /\ printed <> toy_out.
Proof.
  exists toy_printed. split; [reflexivity|]. split; [apply bytes_eqb_neq; reflexivity|].
  split; [reflexivity|apply bytes_eqb_neq; reflexivity].
Qed.

Lemma toy_out_stable : forall lim, 2 <= lim -> toy_fmt_with (squeeze lim 1) toy_out = Some toy_out.
Proof. destruct toy_stages as (printed & _ & _ & E2 & _). intros lim Hl. now apply (squeeze_stable lim printed). Qed.

(* the loop: one round that changes the text, one that finds it stable *)
Lemma toy_src_fmt : fmt_src toy_fmt1 toy_fmt2 true toy_src = Some toy_out.
Proof.
  destruct toy_stages as (printed & E1 & _ & E2 & N2). unfold fmt_src, rounds. rewrite E1.
  rewrite (settle_step toy_fmt2 4 printed toy_out E2) by congruence.
  apply settle_fixed, (toy_out_stable 2). lia.
Qed.

Lemma toy_gen_written :
  write_file toy_fmt1 toy_fmt2 true (bs "zz_generated") (bs "p") toy_gen = WWrite (bs "zz_generated.toy.go") toy_out.
Proof. apply (write_file_some _ _ true (bs "zz_generated") (bs "p") toy_gen toy_out); [discriminate|exact toy_src_fmt]. Qed.

(* what is on disk afterwards, and the conclusion of C01_written read off the bytes *)
Lemma toy_run :
  exists fs',
    write_all toy_fmt1 toy_fmt2 true (bs "zz_generated") (bs "p") [toy_gen_none; toy_gen] toy_fs0 = Some fs'
    /\ fs_get fs' (bs "zz_generated.toy.go") = Some toy_out
    /\ fs_get fs' (bs "zz_generated.none.go") = None
    /\ fs_get fs' (bs "user.go") = Some (bs "package p")
    /\ toy_out <> toy_src
    /\ (exists printed, toy_fmt1 toy_src = Some printed /\ printed <> toy_src
                        /\ toy_fmt2 printed = Some toy_out /\ printed <> toy_out)
    /\ toy_parses toy_out = true
    /\ lead_comment toy_out = Some (header_comment (bs "p") (bs "toy"))
    /\ pkg_clause_of toy_out = Some (bs "p")
    /\ toy_decls false toy_src
       = Some [bs "import("; bs "	strings""strings"""; bs ")"; bs "funcf(){"; bs "	returnstrings.ToUpper(""x"")"; bs "}";
               bs "//two"; bs "//lines"; bs "varx=struct{}{}"]
    /\ toy_decls false toy_out = toy_decls false toy_src
    /\ toy_decls true toy_out
       = Some [bs "funcf(){"; bs "	returnstrings.ToUpper(""x"")"; bs "}"; bs "//two"; bs "//lines"; bs "varx=struct{}{}"]
    /\ toy_gofmt toy_out = Some toy_out
    /\ toy_fmt2 toy_out = Some toy_out.
Proof.
  pose proof (toy_H1 _ _ toy_src_fmt) as H1. pose proof (proj1 (proj2 (proj2 H1))) as Hd.
  eassert (Hs : toy_decls false toy_src = Some _) by (vm_compute; reflexivity).
  refine (ex_intro _ ((bs "zz_generated.toy.go", toy_out) :: toy_fs0)
    (conj _ (conj _ (conj _ (conj _ (conj _ (conj toy_stages (conj (proj1 H1) (conj _ (conj _ (conj _ (conj (Hd false)
    (conj _ (conj (toy_out_stable 3 _) (toy_out_stable 2 _))))))))))))))).
  - unfold write_all. rewrite toy_gen_written. reflexivity.
  - reflexivity.
  - reflexivity.
  - reflexivity.
  - apply bytes_eqb_neq. reflexivity.
  - reflexivity.
  - reflexivity.
  - rewrite Hs. reflexivity.
  - rewrite Hd, toy_decls_true, Hs. reflexivity.
  - lia.
  - lia.
Qed.

Print Assumptions toy_written.
Print Assumptions toy_run.
