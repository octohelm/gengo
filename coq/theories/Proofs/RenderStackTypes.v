(* RenderStack: C10's and C11's models of Dumper.TypeLit agree on C10's universe.
   C10 (Model/ValueLit.v) has its own little model of the type literal of a reflect.Type ([type_lit] to a tree with
   package PATHS, [print_ty local] the text); C11 (Model/TypeLit.v) models the real thing through rawNamer and the
   tracker.  Here: on the view [gview t] of a C10 type, C11's model registers exactly the foreign packages of C10's tree,
   left to right, and prints — in every later tracker state — the text C10's printer gives with the tracker's names.
   In this file the tracker reasoning is done once, for any computation on the tracker ([renders]: it registers these
   packages in order and its text is this under any naming of them); C18's reading of the same code
   (Proofs/GeneratorsTypes.v) rests on it too.  Proofs/TypeLit.v has a notion of its own for its round trip, [runs] (the
   tree, for a set of packages), and Proofs/RenderStackLeaves.v [res_spec] (stability): none is an instance of another. *)
Require Import Gengo.Base.Bytes.
Require Import Gengo.Model.RenderStack Gengo.Proofs.RenderStackTracker Gengo.Proofs.RenderStackSnippet Gengo.Proofs.RenderStackLeaves.
Require Gengo.Model.TypeLit Gengo.Proofs.TypeLit Gengo.Model.ValueLit.

Section GotypeInd.
  Variable P : VL.gotype -> Prop.
  Hypothesis Hbool : P VL.TBool.
  Hypothesis Hint : forall k, P (VL.TInt k).
  Hypothesis Hfloat : forall k, P (VL.TFloat k).
  Hypothesis Hstr : P VL.TString.
  Hypothesis Hnamed : forall p n u, P (VL.TNamed p n u).
  Hypothesis Hptr : forall e, P e -> P (VL.TPtr e).
  Hypothesis Hslice : forall e, P e -> P (VL.TSlice e).
  Hypothesis Harray : forall n e, P e -> P (VL.TArray n e).
  Hypothesis Hmap : forall k e, P k -> P e -> P (VL.TMap k e).
  Hypothesis Hstruct : forall fs, Forall (fun f => P (snd f)) fs -> P (VL.TStruct fs).

  Fixpoint gotype_ind' (t : VL.gotype) : P t :=
    match t with
    | VL.TBool => Hbool | VL.TInt k => Hint k | VL.TFloat k => Hfloat k | VL.TString => Hstr
    | VL.TNamed p n u => Hnamed p n u
    | VL.TPtr e => Hptr e (gotype_ind' e)
    | VL.TSlice e => Hslice e (gotype_ind' e)
    | VL.TArray n e => Harray n e (gotype_ind' e)
    | VL.TMap k e => Hmap k e (gotype_ind' k) (gotype_ind' e)
    | VL.TStruct fs =>
        Hstruct fs ((fix go (l : list (bytes * VL.gotype)) : Forall (fun f => P (snd f)) l :=
                       match l with
                       | [] => Forall_nil _
                       | f :: r => Forall_cons f (gotype_ind' (snd f)) (go r)
                       end) fs)
    end.
End GotypeInd.

(* the inner fixpoint of [gview]'s struct case (Model/RenderStack.v), named; the two are convertible *)
Definition gfields : list (bytes * VL.gotype) -> TL.vfields :=
  fix go (l : list (bytes * VL.gotype)) : TL.vfields :=
    match l with
    | [] => TL.VFNil
    | f :: r => TL.VFCons (fst f) false (gview (snd f)) [] (go r)
    end.

Lemma parse_hyp_ident : forall parse, Proofs.TypeLit.parse_hyp parse ->
  forall n, TL.is_ident n = true -> parse n = Some (TL.TRef [] n TL.TRNil).
Proof.
  intros parse P n H. specialize (P (TL.TRef [] n TL.TRNil)). cbn [Proofs.TypeLit.tref_wf is_nil orb andb] in P.
  rewrite H in P. cbn [TL.tref_string is_nil app] in P. rewrite app_nil_r in P. exact (P eq_refl).
Qed.

Lemma print_fields_cons : forall quote name anon t tag rest,
  TL.print_fields quote (TL.AFCons name anon t tag rest) =
  (if anon then [] else name ++ bs " ") ++ TL.print quote t ++ TL.print_tag quote tag ++ [TL.nl] ++ TL.print_fields quote rest.
Proof. reflexivity. Qed.

Lemma print_struct : forall quote afs, TL.print quote (TL.AStruct afs) = bs "struct {" ++ TL.print_fields quote afs ++ bs "}".
Proof. reflexivity. Qed.

Lemma local_name_ext : forall p e s, TL.alookup p e <> None -> TL.local_name_of p (e ++ s) = TL.local_name_of p e.
Proof.
  intros p e s H. unfold TL.local_name_of. destruct (TL.alookup p e) as [n|] eqn:E; [|contradiction].
  rewrite (Proofs.TypeLit.alookup_app_some e s p n E). reflexivity.
Qed.

Section Renders.
  Variable pick : bytes -> TL.renv -> option bytes.
  Hypothesis pick_total : forall p e, TL.alookup p e = None -> pick p e <> None.
  Hypothesis pick_nonempty : forall p e n, TL.alookup p e = None -> pick p e = Some n -> n <> [].
  Variable parse : bytes -> option TL.tref.
  Hypothesis parse_ident : forall n, TL.is_ident n = true -> parse n = Some (TL.TRef [] n TL.TRNil).
  Variable self : bytes.
  Variable cbq : bytes -> bool.
  Variables fe ft : bool.
  (* the paths that count as foreign: for a path that occurs as the package of a named type, those other than [self] *)
  Variable fg : bytes -> bool.

  Notation tr_add := (TL.tr_add pick).
  Notation add_all := (add_all pick).
  Notation type_lit := (TL.type_lit pick parse self cbq fe ft).

  Definition found_ok (e : TL.renv) : Prop := forall p n, TL.alookup p e = Some n -> n <> [].

  Lemma add_all_found_ok : forall ps e, found_ok e -> found_ok (add_all ps e).
  Proof.
    apply add_all_inv. intros p e n A E H q m Hq. destruct (TL.alookup q e) as [m'|] eqn:Eq.
    - rewrite (Proofs.TypeLit.alookup_app_some e _ q m' Eq) in Hq. injection Hq as <-. exact (H q m' Eq).
    - rewrite (Proofs.TypeLit.alookup_app_none e _ q Eq) in Hq. cbn in Hq. destruct (bytes_eqb q p); [|discriminate].
      injection Hq as <-. exact (pick_nonempty p e n A E).
  Qed.

  Lemma add_all_bound : forall ps e p, In p ps -> TL.alookup p (add_all ps e) <> None.
  Proof.
    intros ps e p H. destruct (Proofs.RenderStackLeaves.add_all_bound pick pick_total ps e p H) as [n L]. rewrite L. discriminate.
  Qed.

  Lemma add_all_only : forall ps e q, TL.alookup q (add_all ps e) <> None -> TL.alookup q e <> None \/ In q ps.
  Proof.
    intros ps e q. rewrite !Proofs.TypeLit.alookup_eq, <- !(Assoc.get_keys _ Order.bytes_eqbP). apply (add_all_paths pick pick_total).
  Qed.

  (* what is claimed of a computation on the tracker: it succeeds, registers the foreign packages among [ps] in order,
     and what [pr] shows of its result is what [txt] gives under any qualifiers [L] that name those packages as the
     resulting table does *)
  Definition renders {A B} (f : TL.renv -> res (A * TL.renv)) (pr : A -> B) (ps : list bytes)
      (txt : (bytes -> bytes) -> B) : Prop :=
    forall e, found_ok e ->
      exists a, f e = Ok (a, add_all (filter fg ps) e) /\
                forall L, (forall p, In p (filter fg ps) -> L p = TL.local_name_of p (add_all (filter fg ps) e)) ->
                  pr a = txt L.

  Lemma renders_ret : forall {A B} f (a : A) (pr : A -> B) txt,
    (forall e, f e = Ok (a, e)) -> (forall L, pr a = txt L) -> renders f pr [] txt.
  Proof. intros A B f a pr txt Hf H e _. exists a. split; [apply Hf|]. intros L _. apply H. Qed.

  Lemma renders_map : forall {A A' B B'} f (c : A -> A') (pa : A -> B) (pb : A' -> B') ps t1 t2,
    (forall a L, pa a = t1 L -> pb (c a) = t2 L) ->
    renders f pa ps t1 -> renders (fun e => let! (a, e1) := f e in Ok (c a, e1)) pb ps t2.
  Proof.
    intros A A' B B' f c pa pb ps t1 t2 Hc Hf e Hn. destruct (Hf e Hn) as (a & Ea & Sa).
    exists (c a). split; [rewrite Ea; reflexivity|]. intros L X. apply Hc, Sa, X.
  Qed.

  (* the names of the first computation's packages are still those of its own table after the second *)
  Lemma renders_seq : forall {A1 A2 A3 B1 B2 B3} f g (c : A1 -> A2 -> A3) (pa : A1 -> B1) (pb : A2 -> B2) (pc : A3 -> B3)
      ps1 ps2 t1 t2 t3,
    (forall a b L, pa a = t1 L -> pb b = t2 L -> pc (c a b) = t3 L) ->
    renders f pa ps1 t1 -> renders g pb ps2 t2 ->
    renders (fun e => let! (a, e1) := f e in let! (b, e2) := g e1 in Ok (c a b, e2)) pc (ps1 ++ ps2) t3.
  Proof.
    intros A1 A2 A3 B1 B2 B3 f g c pa pb pc ps1 ps2 t1 t2 t3 Hc Hf Hg e Hn. destruct (Hf e Hn) as (a & Ea & Sa).
    destruct (Hg _ (add_all_found_ok (filter fg ps1) e Hn)) as (b & Eb & Sb).
    exists (c a b). rewrite filter_app, (add_all_app pick). split; [rewrite Ea; cbn [bind]; rewrite Eb; reflexivity|].
    intros L X. apply Hc.
    - apply Sa. intros p Hp. rewrite (X p (in_or_app _ _ p (or_introl Hp))).
      destruct (add_all_ext pick (filter fg ps2) (add_all (filter fg ps1) e)) as [x ->].
      apply local_name_ext, add_all_bound, Hp.
    - apply Sb. intros p Hp. apply X, in_or_app. right. exact Hp.
  Qed.

  (* a named type: rawNamer.Name *)
  Lemma renders_named : forall {B} p n (pr : TL.tyast -> B) txt,
    fg p = negb (bytes_eqb p self) -> TL.is_ident n = true ->
    (forall L, pr (TL.ANamed (if bytes_eqb p self then [] else L p) n TL.ANil) = txt L) ->
    renders (type_lit (TL.VNamed p n)) pr [p] txt.
  Proof.
    intros B p n pr txt Hp Hn Hpr e He. cbn [TL.type_lit filter].
    unfold TL.namer_name, TL.process_name. rewrite (parse_ident n Hn), Hp. cbn [bind].
    destruct (bytes_eqb p self) eqn:Es; cbn [negb].
    - exists (TL.ANamed [] n TL.ANil). split; [destruct n; [discriminate Hn|reflexivity]|].
      intros L _. apply Hpr.
    - cbv zeta. cbn [RenderStack.add_all fold_left]. set (e1 := tr_add p e).
      assert (Q : TL.local_name_of p e1 <> []).
      { destruct (tr_add_bound pick pick_total p e) as [m Lm]. unfold TL.local_name_of. fold e1 in Lm. rewrite Lm.
        exact (add_all_found_ok [p] e He p m Lm). }
      exists (TL.ANamed (TL.local_name_of p e1) n TL.ANil). split.
      + unfold TL.named_ast. destruct (TL.local_name_of p e1); [congruence|reflexivity].
      + intros L X. rewrite <- (Hpr L), (X p (or_introl eq_refl)). reflexivity.
  Qed.
End Renders.

Arguments renders_ret {pick fg A B} f a {pr txt}.
Arguments renders_map {pick fg A A' B B'} f c {pa pb ps t1 t2}.
Arguments renders_seq {pick} pick_total pick_nonempty {fg A1 A2 A3 B1 B2 B3} f g c {pa pb pc ps1 ps2 t1 t2 t3}.
Arguments renders_named {pick} pick_total pick_nonempty {parse} parse_ident {self cbq fe ft fg B} p n {pr txt}.

Section Agree.
  Variable pick : bytes -> TL.renv -> option bytes.
  Hypothesis pick_total : forall p e, TL.alookup p e = None -> pick p e <> None.
  Hypothesis pick_nonempty : forall p e n, pick p e = Some n -> n <> [].
  Variable self : bytes.
  Variable cbq : bytes -> bool.
  Variables fe ft : bool.
  Variable quote : bytes -> bytes.

  Notation add_all := (add_all pick).
  Notation type_lit := (TL.type_lit pick parse_c15 self cbq fe ft).
  Notation fields_lit := (TL.fields_lit pick parse_c15 self cbq fe ft).
  Notation foreign := (is_foreign self).

  Definition names_ok (e : TL.renv) : Prop := Forall (fun n => n <> []) (map snd e).

  Lemma names_ok_found : forall e, names_ok e -> found_ok e.
  Proof.
    intros e H p n L. apply Proofs.TypeLit.alookup_in in L. unfold names_ok in H. rewrite Forall_forall in H.
    apply H, in_map_iff. exists (p, n). auto.
  Qed.

  Lemma add_all_names_ok : forall ps e, names_ok e -> names_ok (add_all ps e).
  Proof.
    apply add_all_inv. intros p e n _ E H. unfold names_ok. rewrite map_app. apply Forall_app. split; [exact H|].
    constructor; [exact (pick_nonempty p e n E)|constructor].
  Qed.

  Lemma tr_add_names_ok : forall p e, names_ok e -> names_ok (TL.tr_add pick p e).
  Proof. intros p. exact (add_all_names_ok [p]). Qed.

  (* what is claimed of one type *)
  Definition agrees (t : VL.gotype) : Prop :=
    forall e, names_ok e ->
      exists a, type_lit (gview t) e = Ok (a, add_all (filter foreign (ty_pkgs (VL.type_lit t))) e) /\
                forall e2, ext (add_all (filter foreign (ty_pkgs (VL.type_lit t))) e) e2 ->
                  TL.print quote a = VL.print_ty (local_of self e2) (VL.type_lit t).

  (* C10's printer asks [local] about every path, also the empty one of a predeclared type: [local_of] answers with
     the table's name for a foreign path only *)
  Notation only_foreign L := (fun p => if foreign p then L p else []).
  Notation text t := (fun L => VL.print_ty (only_foreign L) (VL.type_lit t)).
  Notation renders := (renders pick foreign).

  Lemma renders_agrees : forall t,
    renders (type_lit (gview t)) (TL.print quote) (ty_pkgs (VL.type_lit t)) (text t) -> agrees t.
  Proof.
    intros t H e He. destruct (H e (names_ok_found e He)) as (a & Ea & Sa). exists a. split; [exact Ea|].
    intros e2 [x ->]. apply (Sa (fun p => TL.local_name_of p (_ ++ x))). intros p Hp.
    apply local_name_ext, (add_all_bound pick pick_total), Hp.
  Qed.

  Lemma renders_basic : forall t, (forall e, type_lit (gview t) e = Ok (TL.raw_ast (VL.kind_name t), e)) ->
    VL.type_lit t = VL.YName [] (VL.kind_name t) ->
    renders (type_lit (gview t)) (TL.print quote) (ty_pkgs (VL.type_lit t)) (text t).
  Proof.
    intros t Hl Hy. rewrite Hy. apply (renders_ret (fg := foreign) _ _ Hl). intros L.
    cbn [VL.print_ty]. unfold is_foreign. cbn [is_nil negb andb].
    unfold TL.raw_ast. destruct (TL.is_ident (VL.kind_name t)); cbn [TL.print is_nil app]; [apply app_nil_r|reflexivity].
  Qed.

  (* the fields of a struct type of C10: no tags, no embedded fields *)
  Lemma renders_fields : forall fs,
    Forall (fun f => renders (type_lit (gview (snd f))) (TL.print quote) (ty_pkgs (VL.type_lit (snd f))) (text (snd f))) fs ->
    renders (fields_lit (gfields fs)) (TL.print_fields quote)
      (ty_pkgs (VL.YStruct (map (fun f => (fst f, VL.type_lit (snd f))) fs)))
      (fun L => concat (map (fun f => fst f ++ bs " " ++ VL.print_ty (only_foreign L) (snd f) ++ [VL.nl])
                            (map (fun f => (fst f, VL.type_lit (snd f))) fs))).
  Proof.
    intros fs H. induction H as [|f r Hf _ IHr]; [apply (renders_ret _ TL.AFNil); reflexivity|].
    refine (renders_seq pick_total (fun p e n _ => pick_nonempty p e n) _ _ (fun a ar => TL.AFCons (fst f) false a TL.NoTag ar) _ Hf IHr).
    intros a ar L Ea Er. rewrite print_fields_cons, Ea, Er. cbn [map concat fst snd TL.print_tag].
    rewrite <- !app_assoc. reflexivity.
  Qed.

  Lemma type_lit_renders : forall t, ty_okb t = true ->
    renders (type_lit (gview t)) (TL.print quote) (ty_pkgs (VL.type_lit t)) (text t).
  Proof.
    induction t as [|k|k| |p n u|e IH|e IH|n e IH|k e IHk IHe|fs IH] using gotype_ind'; intros Hok; cbn [ty_okb] in Hok.
    - apply renders_basic; reflexivity.
    - apply renders_basic; reflexivity.
    - apply renders_basic; reflexivity.
    - apply renders_basic; reflexivity.
    - apply andb_true_iff in Hok. destruct Hok as [Hp Hn]. apply negb_true_iff in Hp.
      apply (renders_named pick_total (fun p e n _ => pick_nonempty p e n) (parse_hyp_ident _ parse_hyp_c15)); [unfold is_foreign; rewrite Hp; reflexivity|exact Hn|].
      intros L. cbn [TL.print VL.print_ty VL.type_lit]. unfold is_foreign. rewrite Hp. cbn [negb andb].
      destruct (bytes_eqb p self); cbn [negb is_nil app]; [apply app_nil_r|].
      destruct (L p); cbn [is_nil app]; [apply app_nil_r|]. rewrite <- app_assoc. cbn [app]. rewrite app_nil_r. reflexivity.
    - refine (renders_map _ TL.AStar _ (IH Hok)).
      intros a L E. cbn [TL.print VL.print_ty]. rewrite E. reflexivity.
    - refine (renders_map _ TL.ASlice _ (IH Hok)).
      intros a L E. cbn [TL.print VL.print_ty]. rewrite E. reflexivity.
    - apply andb_true_iff in Hok. destruct Hok as [Hd Hok]. apply bytes_eqb_spec in Hd.
      refine (renders_map _ (TL.AArray (N.of_nat n)) _ (IH Hok)).
      intros a L E. cbn [TL.print]. rewrite Hd, E. reflexivity.
    - apply andb_true_iff in Hok. destruct Hok as [Hk He].
      refine (renders_seq pick_total (fun p e n _ => pick_nonempty p e n) _ _ TL.AMap _ (IHk Hk) (IHe He)).
      intros ak ax L Ek Ex. cbn [TL.print VL.print_ty]. rewrite Ek, Ex. reflexivity.
    - rewrite forallb_forall in Hok.
      refine (renders_map _ TL.AStruct _ (renders_fields fs _)).
      + intros afs L E. rewrite print_struct, E. reflexivity.
      + rewrite Forall_forall in *. intros f Hf. exact (IH f Hf (Hok f Hf)).
  Qed.

  Theorem type_lit_agree : forall t, ty_okb t = true -> agrees t.
  Proof. intros t H. apply renders_agrees, type_lit_renders, H. Qed.
End Agree.
