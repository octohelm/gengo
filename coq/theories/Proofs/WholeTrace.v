(* The shape of Pipeline.exec_trace in a successful run: package by package in path order (the trace half of
   PipelinePkg.run_pkgs_done) and, within a processed package, generator by generator, the calls each generator received
   ([pkg_log]).  So what one generator receives for one processed package is a contiguous segment of the run's call
   log.  (Used to state, OF the pipeline trace, what C06 proves about one generator on one package.) *)
Require Import Gengo.Base.Bytes Gengo.Model.Pipeline.
Require Import Gengo.Proofs.Pipeline Gengo.Proofs.PipelinePkg.

Lemma flat_map_segment {A B} (f : A -> list B) : forall l x,
  In x l -> exists pre post, flat_map f l = pre ++ f x ++ post.
Proof.
  intros l x Hin. apply in_split in Hin. destruct Hin as (l1 & l2 & ->).
  exists (flat_map f l1), (flat_map f l2). rewrite flat_map_app. reflexivity.
Qed.

Section Trace.
  Variable E : env.

  Definition pkg_log (gens : list generator) (p : pkginfo) : trace := flat_map (fun g => go_trace (gen_run E g p)) gens.

  Lemma gen_phase_log : forall gens p,
    snd (gen_phase E gens p) = Done -> snd (fst (gen_phase E gens p)) = pkg_log gens p.
  Proof.
    induction gens as [|g r IH]; intros p Hd; [reflexivity|].
    rewrite gen_phase_cons in Hd |- *. cbv zeta in Hd |- *.
    destruct (go_out (gen_run E g p)); try discriminate Hd. cbn [fst snd] in *. rewrite (IH p Hd). reflexivity.
  Qed.

  Lemma pkg_effects_log : forall a gens p,
    snd (pkg_effects E a gens p) = Done -> snd (fst (pkg_effects E a gens p)) = pkg_log gens p.
  Proof.
    intros a gens p Hd. rewrite pkg_effects_eq in Hd |- *. cbv zeta in Hd |- *.
    destruct (snd (gen_phase E gens p)) eqn:Hgp; try discriminate Hd.
    destruct (snd (write_loop E a p (e_order E p (fst (fst (gen_phase E gens p)))) (generated_files a p)));
      apply (gen_phase_log gens p Hgp).
  Qed.

  Theorem exec_trace_segment : forall a w gens s p g,
    exec_outcome E a w gens s = Done ->
    In p (w_pkgs w) -> processed E a w s p = true -> In g gens ->
    exists pre post, exec_trace E a w gens s = pre ++ go_trace (gen_run E g p) ++ post.
  Proof.
    intros a w gens s p g Hd Hin [Hsel Hch]%andb_true_iff Hg.
    pose proof (proj1 (exec_done_iff E a w gens s) Hd p Hin Hsel) as Hpd.
    unfold exec_trace, run_all. rewrite (proj2 (run_pkgs_done E a w gens _ _ Hd)).
    destruct (flat_map_segment (fun p => snd (fst (pkg_execute E a w gens (load_prev E a w s) p)))
                (filter (selected a w) (sorted_pkgs w)) p) as (pre & post & ->).
    { apply filter_In. split; [apply (sort_by_In pk_path); exact Hin | exact Hsel]. }
    (* p is changed: its part of the loop's log is the log of pkg_effects *)
    unfold pkg_execute in Hpd |- *. rewrite Hch in Hpd |- *. rewrite (pkg_effects_log a gens p Hpd).
    destruct (flat_map_segment (fun g => go_trace (gen_run E g p)) gens g Hg) as (pre' & post' & Hp).
    unfold pkg_log. rewrite Hp. exists (pre ++ pre'), (post' ++ post). rewrite <- !app_assoc. reflexivity.
  Qed.
End Trace.
