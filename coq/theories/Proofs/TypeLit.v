(* C11 — lemmas: the printer's syntax tree, read back through the import table it produced,
   is the type it was rendered from.
   Props/C11.v (and Props/C18.v) is stated with notions DEFINED here: the hypothesis bundles [tracker_hyps],
   [tracker_not_predeclared], [tracker_lower_case] (the tracker), [parse_hyp] (ParseTypeRef) and [cbq_hyp]
   (strconv.CanBackquote); on import tables [tracker_inv], [no_predeclared_names], [free_names], [free_own_names],
   [ext]; [renders], [all_tags], [lower_name]; the instances [pick_long], [pick_q] of the hypotheses, and the data of
   the refutations [g_struct_error], [g_struct_tag], [g_string_clash], [pick_last_segment], [parse_only_T]. *)
Require Import Gengo.Base.Bytes Gengo.Base.Order Gengo.Model.TypeLit Gengo.Spec.TypeLit.
Require Gengo.Base.Assoc.

(* the model's [alookup] is Base/Assoc.v's [get] on byte-string keys, [rlookup] is [get] on the swapped table *)
Lemma alookup_eq {A} : forall k (l : list (bytes * A)), alookup k l = Assoc.get bytes_eqb k l.
Proof. apply Assoc.get_unfold. intros k [|[k' v] r]; reflexivity. Qed.

Lemma rlookup_eq : forall n (l : renv), rlookup n l = Assoc.get bytes_eqb n (map (fun e => (snd e, fst e)) l).
Proof. apply Assoc.get_swap_unfold. intros k [|[v k'] r]; reflexivity. Qed.

Lemma alookup_app_none : forall (l1 l2 : renv) p,
  alookup p l1 = None -> alookup p (l1 ++ l2) = alookup p l2.
Proof. intros l1 l2 p. rewrite !alookup_eq, Assoc.get_app. now intros ->. Qed.

Lemma alookup_app_some : forall (l1 l2 : renv) p n,
  alookup p l1 = Some n -> alookup p (l1 ++ l2) = Some n.
Proof. intros l1 l2 p n. rewrite !alookup_eq, Assoc.get_app. now intros ->. Qed.

Lemma alookup_in : forall (l : renv) p n, alookup p l = Some n -> In (p, n) l.
Proof. intros l p n. rewrite alookup_eq. apply Assoc.get_Some_In, bytes_eqbP. Qed.

Lemma alookup_none_notin : forall (l : renv) p, alookup p l = None -> ~ In p (map fst l).
Proof. intros l p. rewrite alookup_eq. apply Assoc.get_None, bytes_eqbP. Qed.

Lemma rlookup_none_notin : forall (l : renv) n, rlookup n l = None <-> ~ In n (map snd l).
Proof. intros l n. rewrite rlookup_eq, (Assoc.get_None _ bytes_eqbP), map_map. reflexivity. Qed.

Lemma rlookup_in_nodup : forall (l : renv) p n,
  NoDup (map snd l) -> In (p, n) l -> rlookup n l = Some p.
Proof.
  intros l p n Hnd Hin. rewrite rlookup_eq. apply (Assoc.get_In _ bytes_eqbP); [now rewrite map_map|].
  apply (in_map (fun e => (snd e, fst e)) _ _ Hin).
Qed.

(* well-formed references: the domain of the ParseTypeRef hypothesis *)

Fixpoint tref_wf (t : tref) : bool :=
  match t with
  | TRef p n a => (is_nil p || pkg_ok p) && is_ident n && trefs_wf a
  end
with trefs_wf (l : trefs) : bool :=
  match l with
  | TRNil => true
  | TRCons t r => tref_wf t && trefs_wf r
  end.

Lemma bk_view_name_ident : forall k, is_ident (bk_view_name k) = true.
Proof. destruct k; vm_compute; reflexivity. Qed.

Lemma bk_view_name_predeclared : forall k, alookup (bk_view_name k) predeclared = Some (GBasic (bk_canon k)).
Proof. destruct k; vm_compute; reflexivity. Qed.

Lemma bk_view_name_nonnil : forall k, bk_view_name k <> [].
Proof. destruct k; vm_compute; discriminate. Qed.

Ltac btrue :=
  repeat match goal with
         | H : _ && _ = true |- _ => apply andb_true_iff in H; destruct H
         end.

Section Domain.
  Variable tag_ok : bytes -> bool.
  Variable self : bytes.

  (* unfolding equations (mutual fixpoints do not refold under cbn) *)
  Lemma in_domain_named : forall p n a,
    in_domain tag_ok self (GNamed p n a) =
    pkg_ok p && is_ident n && negb (is_predeclared n) && (bytes_eqb p self || exported n)
    && in_domain_args tag_ok self a.
  Proof. reflexivity. Qed.

  Lemma in_domain_args_cons : forall g r,
    in_domain_args tag_ok self (GCons g r) = is_arg g && in_domain tag_ok self g && in_domain_args tag_ok self r.
  Proof. reflexivity. Qed.

  Lemma in_domain_struct : forall fs, in_domain tag_ok self (GStruct fs) = in_domain_fields tag_ok self fs.
  Proof. reflexivity. Qed.

  Lemma in_domain_fields_cons : forall n anon o t tag r,
    in_domain_fields tag_ok self (GFCons n anon o t tag r) =
    (if anon then option_eqb bytes_eqb (emb_name t) (Some n) else true)
    && is_ident n && bytes_eqb o (if exported n then [] else self)
    && tag_ok tag && in_domain tag_ok self t && in_domain_fields tag_ok self r.
  Proof. reflexivity. Qed.

  Lemma tref_of_wf :
    (forall g, in_domain tag_ok self g = true -> is_arg g = true -> tref_wf (tref_of g) = true)
    /\ (forall gs, in_domain_args tag_ok self gs = true -> trefs_wf (trefs_of gs) = true)
    /\ (forall fs : gfields, True).
  Proof.
    apply gty_mutind; try (intros; exact I); try (intros; discriminate).
    - intros k _ _. cbn. rewrite bk_view_name_ident. reflexivity.
    - intros _ _. reflexivity.
    - intros p n a IH Hd _. rewrite in_domain_named in Hd. btrue.
      change (tref_wf (tref_of (GNamed p n a))) with ((is_nil p || pkg_ok p) && is_ident n && trefs_wf (trefs_of a)).
      rewrite IH by assumption.
      repeat match goal with H : _ = true |- _ => rewrite H end.
      rewrite orb_true_r. reflexivity.
    - intros _. reflexivity.
    - intros g IHg r IHr Hd. rewrite in_domain_args_cons in Hd. btrue.
      change (trefs_wf (trefs_of (GCons g r))) with (tref_wf (tref_of g) && trefs_wf (trefs_of r)).
      rewrite IHg, IHr by assumption. reflexivity.
  Qed.
End Domain.

Lemma tag_ok_raw_value : forall s, tag_ok_raw s = true -> tag_value (RawTag s) = Some s.
Proof.
  unfold tag_ok_raw, tag_value. intros s H. apply negb_true_iff in H.
  assert (A : existsb (Ascii.eqb backquote) s = false /\ filter (fun c => negb (Ascii.eqb c cr)) s = s).
  { induction s as [|c s IH]; cbn [existsb filter] in *; [split; reflexivity|].
    apply orb_false_iff in H. destruct H as [H1 H2].
    apply orb_false_iff in H1. destruct H1 as [Hb Hc].
    destruct (IH H2) as [I1 I2]. split.
    - rewrite (Ascii.eqb_sym backquote c), Hb. exact I1.
    - rewrite Hc. cbn [negb]. rewrite I2. reflexivity. }
  destruct A as [A1 A2]. rewrite A1, A2. reflexivity.
Qed.

Definition ext (e e' : renv) : Prop := exists x, e' = e ++ x.

Lemma ext_refl : forall e, ext e e.
Proof. intros e. exists []. rewrite app_nil_r. reflexivity. Qed.

Lemma ext_trans : forall a b c, ext a b -> ext b c -> ext a c.
Proof. intros a b c [x Hx] [y Hy]. exists (x ++ y). subst. rewrite app_assoc. reflexivity. Qed.

Lemma ext_alookup : forall e e' p n, ext e e' -> alookup p e = Some n -> alookup p e' = Some n.
Proof. intros e e' p n [x Hx] H. subst. apply alookup_app_some, H. Qed.

Section RoundTrip.
  Variable pick : bytes -> renv -> option bytes.
  Variable parse_tref : bytes -> option tref.
  Variable self : bytes.
  Variable can_backquote : bytes -> bool.

  (* what C03 proves of the real tracker (names it hands out) *)
  Hypothesis H_pick_fresh : forall p e n, pick p e = Some n -> ~ In n (map snd e).
  Hypothesis H_pick_nonempty : forall p e n, pick p e = Some n -> n <> [].
  Hypothesis H_pick_total : forall p e, alookup p e = None -> pick p e <> None.
  (* any further property of the names the tracker hands out (instantiated below) *)
  Variable nm_ok : bytes -> Prop.
  Hypothesis H_pick_nm : forall p e n, pick p e = Some n -> nm_ok n.
  (* what C15 proves of the repaired ParseTypeRef *)
  Hypothesis H_parse : forall t, tref_wf t = true -> parse_tref (tref_string t) = Some t.
  (* strconv.CanBackquote: a string it accepts has no backquote and no carriage return *)
  Hypothesis H_cbq : forall s, can_backquote s = true -> tag_ok_raw s = true.

  Definition inv (e : renv) : Prop :=
    NoDup (map snd e) /\ ~ In self (map fst e) /\ Forall (fun n => n <> []) (map snd e)
    /\ Forall nm_ok (map snd e).

  Definition paths_spec (e e1 : renv) (F : list bytes) : Prop :=
    forall p, In p (map fst e1) <-> In p (map fst e) \/ In p F.

  Lemma paths_spec_refl : forall e, paths_spec e e [].
  Proof. intros e p. split; [now left | intros [H|[]]; exact H]. Qed.

  Lemma paths_spec_trans : forall e e1 e2 F1 F2,
    paths_spec e e1 F1 -> paths_spec e1 e2 F2 -> paths_spec e e2 (F1 ++ F2).
  Proof.
    intros e e1 e2 F1 F2 H1 H2 p. rewrite (H2 p), (H1 p), in_app_iff. apply or_assoc.
  Qed.

  Definition free (l : list bytes) (ef : renv) : Prop := forall n, In n l -> rlookup n ef = None.

  Notation tr_add := (tr_add pick).
  Notation walk := (walk pick self).
  Notation walks := (walks pick self).
  Notation type_lit := (type_lit pick parse_tref self can_backquote true true).
  Notation fields_lit := (fields_lit pick parse_tref self can_backquote true true).

  Lemma tr_add_spec : forall p e,
    inv e -> p <> self ->
    ext e (tr_add p e) /\ inv (tr_add p e) /\ paths_spec e (tr_add p e) [p]
    /\ exists n, alookup p (tr_add p e) = Some n /\ n <> [].
  Proof.
    intros p e [Hnd [Hself [Hne Hok]]] Hp. unfold TypeLit.tr_add.
    destruct (alookup p e) as [n|] eqn:E.
    - pose proof (alookup_in _ _ _ E) as Hin.
      split; [apply ext_refl|]. split; [exact (conj Hnd (conj Hself (conj Hne Hok)))|]. split.
      + intros q. split; [now left|]. intros [H|[<-|[]]]; [exact H|exact (in_map fst _ _ Hin)].
      + exists n. split; [exact E|]. rewrite Forall_forall in Hne. exact (Hne n (in_map snd _ _ Hin)).
    - destruct (pick p e) as [n|] eqn:Ep; [|exfalso; exact (H_pick_total p e E Ep)].
      split; [exists [(p, n)]; reflexivity|]. split; [|split].
      + unfold inv. rewrite !map_app. cbn. repeat split.
        * apply NoDup_app_one; [exact Hnd|exact (H_pick_fresh _ _ _ Ep)].
        * rewrite in_app_iff. cbn. intros [H|[H|[]]]; [exact (Hself H)|congruence].
        * apply Forall_app. split; [exact Hne|]. constructor; [exact (H_pick_nonempty _ _ _ Ep)|constructor].
        * apply Forall_app. split; [exact Hok|]. constructor; [exact (H_pick_nm _ _ _ Ep)|constructor].
      + intros q. rewrite map_app, in_app_iff. reflexivity.
      + exists n. split; [|exact (H_pick_nonempty _ _ _ Ep)].
        rewrite alookup_app_none by exact E. cbn. rewrite bytes_eqb_refl. reflexivity.
  Qed.

  Notation dom := (in_domain (fun _ => true) self).
  Notation dom_args := (in_domain_args (fun _ => true) self).
  Notation dom_fields := (in_domain_fields (fun _ => true) self).

  (* The round trip has two halves.  I ([roundtrip_all]): rendering g succeeds, registers the foreign packages of g and
     returns the tree [ast_of L g], L giving each package the name the final table gives it; this half follows the
     printer and threads the table.  II ([denote_all]): in a table with [inv] that has those packages and leaves the
     unqualified identifiers of g free, [ast_of L g] denotes g; this half mentions neither printer nor tracker. *)

  (* the tree expected for g when package p is written with qualifier L p *)
  Fixpoint ast_of (L : bytes -> bytes) (g : gty) : tyast :=
    match g with
    | GBasic k => ANamed [] (bk_view_name k) ANil
    | GError => ANamed [] (bs "error") ANil
    | GAny => ANamed [] (bs "any") ANil
    | GNamed p n a => ANamed (if bytes_eqb p self then [] else L p) n (asts_of L a)
    | GPtr t => AStar (ast_of L t)
    | GChan t => AChan (ast_of L t)
    | GSlice t => ASlice (ast_of L t)
    | GArray n t => AArray n (ast_of L t)
    | GMap k t => AMap (ast_of L k) (ast_of L t)
    | GStruct fs => AStruct (afields_of L fs)
    end
  with asts_of (L : bytes -> bytes) (gs : gtys) : tyasts :=
    match gs with GNil => ANil | GCons g r => ACons (ast_of L g) (asts_of L r) end
  with afields_of (L : bytes -> bytes) (fs : gfields) : afields :=
    match fs with
    | GFNil => AFNil
    | GFCons n anon _ t tag r =>
        AFCons (if anon then [] else n) anon (ast_of L t) (tag_lit can_backquote true tag) (afields_of L r)
    end.

  Lemma ast_named : forall L p n a,
    ast_of L (GNamed p n a) = ANamed (if bytes_eqb p self then [] else L p) n (asts_of L a).
  Proof. reflexivity. Qed.

  Lemma foreign_named : forall p n a,
    foreign_pkgs self (GNamed p n a) = (if bytes_eqb p self then [] else [p]) ++ foreign_pkgs_l self a.
  Proof. reflexivity. Qed.

  (* L names the packages as the table e does (a naming of a later table is one of e too: [names_ext]) *)
  Definition names (e : renv) (L : bytes -> bytes) : Prop := forall p n, alookup p e = Some n -> L p = n.

  Lemma names_ext : forall e e1 L, ext e e1 -> names e1 L -> names e L.
  Proof. intros e e1 L He H p n Hp. exact (H p n (ext_alookup _ _ _ _ He Hp)). Qed.

  Definition grows (e e1 : renv) (F : list bytes) : Prop := ext e e1 /\ inv e1 /\ paths_spec e e1 F.

  Lemma grows_refl : forall e, inv e -> grows e e [].
  Proof. intros e Hi. exact (conj (ext_refl e) (conj Hi (paths_spec_refl e))). Qed.

  Lemma grows_trans : forall e e1 e2 F1 F2, grows e e1 F1 -> grows e1 e2 F2 -> grows e e2 (F1 ++ F2).
  Proof.
    intros e e1 e2 F1 F2 [A1 [_ A3]] [B1 [B2 B3]].
    exact (conj (ext_trans _ _ _ A1 B1) (conj B2 (paths_spec_trans _ _ _ _ _ A3 B3))).
  Qed.

  Lemma grows_comm : forall e e1 F1 F2, grows e e1 (F1 ++ F2) -> grows e e1 (F2 ++ F1).
  Proof.
    intros e e1 F1 F2 [A1 [A2 A3]]. split; [exact A1|]. split; [exact A2|].
    intros p. rewrite (A3 p), !in_app_iff, (or_comm (In p F1)). reflexivity.
  Qed.

  (* a computation on the table that, from every table with inv, succeeds, registers exactly the packages F, and
     returns X L for every naming L that agrees with the table it ends in *)
  Definition runs {A} (f : renv -> res (A * renv)) (F : list bytes) (X : (bytes -> bytes) -> A) : Prop :=
    forall e, inv e -> exists a e1, f e = Ok (a, e1) /\ grows e e1 F /\ forall L, names e1 L -> a = X L.

  Lemma runs_ret {A} : forall a : A, runs (fun e => Ok (a, e)) [] (fun _ => a).
  Proof. intros a e Hi. exists a, e. split; [reflexivity|]. split; [exact (grows_refl e Hi)|reflexivity]. Qed.

  Lemma runs_map {A B} : forall (f : renv -> res (A * renv)) (h : A -> B) F X,
    runs f F X -> runs (fun e => let! (a, e1) := f e in Ok (h a, e1)) F (fun L => h (X L)).
  Proof.
    intros f h F X Hf e Hi. destruct (Hf e Hi) as [a [e1 [Ea [G1 G2]]]].
    exists (h a), e1. split; [rewrite Ea; reflexivity|]. split; [exact G1|].
    intros L HL. rewrite (G2 L HL). reflexivity.
  Qed.

  (* a package registered by the first computation keeps its name while the second runs: names_ext *)
  Lemma runs_bind {A B C} : forall (f : renv -> res (A * renv)) (g : renv -> res (B * renv)) (h : A -> B -> C)
      F1 F2 X1 X2,
    runs f F1 X1 -> runs g F2 X2 ->
    runs (fun e => let! (a, e1) := f e in let! (b, e2) := g e1 in Ok (h a b, e2)) (F1 ++ F2)
      (fun L => h (X1 L) (X2 L)).
  Proof.
    intros f g h F1 F2 X1 X2 Hf Hg e Hi. destruct (Hf e Hi) as [a [e1 [Ea [A1 A2]]]].
    destruct (Hg e1 (proj1 (proj2 A1))) as [b [e2 [Eb [B1 B2]]]].
    exists (h a b), e2. split; [rewrite Ea; cbn [bind]; rewrite Eb; reflexivity|].
    split; [exact (grows_trans _ _ _ _ _ A1 B1)|].
    intros L HL. rewrite (A2 L (names_ext _ _ _ (proj1 B1) HL)), (B2 L HL). reflexivity.
  Qed.

  (* [walk] and [walks] thread the table with [let '(a, e1) := ..], not with [bind]: pointwise equal is enough *)
  Lemma runs_ext {A} : forall (f g : renv -> res (A * renv)) F X, (forall e, f e = g e) -> runs g F X -> runs f F X.
  Proof. intros f g F X H Hg e Hi. rewrite H. exact (Hg e Hi). Qed.

  Definition P (g : gty) : Prop :=
    dom g = true -> runs (type_lit (view_of g)) (foreign_pkgs self g) (fun L => ast_of L g).

  Definition P' (g : gty) : Prop :=
    dom g = true -> is_arg g = true ->
    runs (fun e => let '(t', e1) := walk (tref_of g) e in Ok (ast_of_tref t', e1)) (foreign_pkgs self g)
      (fun L => ast_of L g).

  Definition Q (gs : gtys) : Prop :=
    dom_args gs = true ->
    runs (fun e => let '(ts', e1) := walks (trefs_of gs) e in Ok (asts_of_trefs ts', e1)) (foreign_pkgs_l self gs)
      (fun L => asts_of L gs).

  Definition R (fs : gfields) : Prop :=
    dom_fields fs = true -> runs (fields_lit (view_fields fs)) (foreign_pkgs_f self fs) (fun L => afields_of L fs).

  Lemma P_basic : forall k, P (GBasic k).
  Proof.
    intros k _. refine (runs_ext _ _ _ _ _ (runs_ret (ANamed [] (bk_view_name k) ANil))).
    intros e. cbn. unfold raw_ast. rewrite bk_view_name_ident. reflexivity.
  Qed.

  Lemma P_error : P GError.
  Proof. intros _. exact (runs_ret (ANamed [] (bs "error") ANil)). Qed.

  Lemma P_any : P GAny.
  Proof. intros _. exact (runs_ret (ANamed [] (bs "any") ANil)). Qed.

  Lemma P_ptr : forall g, P g -> P (GPtr g).
  Proof. intros g IH Hd. exact (runs_map _ AStar _ _ (IH Hd)). Qed.

  Lemma P_chan : forall g, P g -> P (GChan g).
  Proof. intros g IH Hd. exact (runs_map _ AChan _ _ (IH Hd)). Qed.

  Lemma P_slice : forall g, P g -> P (GSlice g).
  Proof. intros g IH Hd. exact (runs_map _ ASlice _ _ (IH Hd)). Qed.

  Lemma P_array : forall n g, P g -> P (GArray n g).
  Proof. intros n g IH Hd. exact (runs_map _ (AArray n) _ _ (IH Hd)). Qed.

  Lemma P_map : forall k, P k -> forall g, P g -> P (GMap k g).
  Proof.
    intros k IHk g IHg Hd. cbn [in_domain] in Hd. btrue.
    refine (runs_bind _ _ AMap _ _ _ _ (IHk _) (IHg _)); assumption.
  Qed.

  Lemma R_nil : R GFNil.
  Proof. intros _. exact (runs_ret AFNil). Qed.

  Lemma R_cons : forall n anon o t tag r, P t -> R r -> R (GFCons n anon o t tag r).
  Proof.
    intros n anon o t tag r IHt IHr Hd. rewrite in_domain_fields_cons in Hd. btrue.
    refine (runs_bind _ _ (fun a => AFCons (if anon then [] else n) anon a (tag_lit can_backquote true tag))
              _ _ _ _ (IHt _) (IHr _)); assumption.
  Qed.

  Lemma P_struct : forall fs, R fs -> P (GStruct fs).
  Proof. intros fs IH Hd. exact (runs_map _ AStruct _ _ (IH Hd)). Qed.

  (* type arguments (processName's walk) *)
  Lemma walk_eq : forall p n a e,
    walk (TRef p n a) e =
    (let '(pkg', e1) :=
       if is_nil p then (p, e)
       else if bytes_eqb p self then ([], e)
       else let e1 := tr_add p e in (local_name_of p e1, e1) in
     let '(args', e2) := walks a e1 in (TRef pkg' n args', e2)).
  Proof. reflexivity. Qed.

  Lemma walks_cons_eq : forall t r e,
    walks (TRCons t r) e =
    (let '(t', e1) := walk t e in let '(r', e2) := walks r e1 in (TRCons t' r', e2)).
  Proof. reflexivity. Qed.

  Lemma Q_nil : Q GNil.
  Proof. intros _. exact (runs_ret ANil). Qed.

  Lemma Q_cons : forall g, P' g -> forall r, Q r -> Q (GCons g r).
  Proof.
    intros g IHg r IHr Hd. rewrite in_domain_args_cons in Hd. btrue.
    refine (runs_ext _ _ _ _ _ (runs_bind _ _ ACons _ _ _ _ (IHg _ _) (IHr _))); try assumption.
    intros e. rewrite (walks_cons_eq (tref_of g) (trefs_of r)).
    destruct (walk (tref_of g) e) as [t' e1]. cbn [bind]. destruct (walks (trefs_of r) e1). reflexivity.
  Qed.

  Lemma pkg_ok_nonnil : forall p, pkg_ok p = true -> is_nil p = false.
  Proof. intros p H. unfold pkg_ok in H. btrue. destruct p; [discriminate|reflexivity]. Qed.

  Lemma P'_named : forall p n a, Q a -> P' (GNamed p n a).
  Proof.
    intros p n a IH Hd _. rewrite in_domain_named in Hd. btrue.
    (* the head: a type of the target package is unqualified, another package is registered and its local name used *)
    assert (Hh : runs (fun e => if bytes_eqb p self then Ok ([], e)
                                else let e1 := tr_add p e in Ok (local_name_of p e1, e1))
                   (if bytes_eqb p self then [] else [p]) (fun L => if bytes_eqb p self then [] else L p)).
    { destruct (bytes_eqb p self) eqn:Eself; [exact (runs_ret [])|]. intros e Hinv.
      destruct (tr_add_spec p e Hinv (proj1 (bytes_eqb_neq _ _) Eself)) as [A1 [A2 [A3 [q [Hq _]]]]].
      exists (local_name_of p (tr_add p e)), (tr_add p e). split; [reflexivity|]. split; [exact (conj A1 (conj A2 A3))|].
      intros L HL. unfold local_name_of. rewrite Hq. symmetry. exact (HL p q Hq). }
    refine (runs_ext _ _ _ _ _ (runs_bind _ _ (fun q => ANamed q n) _ _ _ _ Hh (IH _))); [|assumption].
    intros e. rewrite (walk_eq p n (trefs_of a)).
    match goal with Hp : pkg_ok p = true |- _ => rewrite (pkg_ok_nonnil p Hp) end.
    destruct (bytes_eqb p self); cbv zeta; cbn [bind]; destruct (walks (trefs_of a) _); reflexivity.
  Qed.

  (* a named type in type position (rawNamer.Name) *)
  Lemma process_name_ok : forall n a e,
    dom_args a = true -> is_ident n = true ->
    process_name pick parse_tref self (name_string n a) e =
    (let '(args', e2) := walks (trefs_of a) e in Ok (TRef [] n args', e2)).
  Proof.
    intros n a e Hd Hn. unfold process_name, name_string.
    rewrite H_parse.
    2:{ change (tref_wf (TRef [] n (trefs_of a))) with ((is_nil (@nil ascii) || pkg_ok []) && is_ident n && trefs_wf (trefs_of a)).
        rewrite Hn. destruct (tref_of_wf (fun _ => true) self) as [_ [W _]]. rewrite (W a Hd). reflexivity. }
    destruct a as [|g r]; [reflexivity|].
    change (trefs_of (GCons g r)) with (TRCons (tref_of g) (trefs_of r)).
    cbv iota beta. rewrite walk_eq. cbn [is_nil]. destruct (walks _ e). reflexivity.
  Qed.

  Lemma P_named : forall p n a, Q a -> P (GNamed p n a).
  Proof.
    intros p n a IH Hd e Hinv.
    rewrite in_domain_named in Hd. btrue.
    match goal with Ha : dom_args a = true |- _ => destruct (IH Ha e Hinv) as [asts [e2 [Ea [B1 B2]]]] end.
    cbn [view_of TypeLit.type_lit]. unfold namer_name. rewrite process_name_ok by assumption.
    destruct (walks (trefs_of a) e) as [args' e2']. inversion Ea; subst asts e2'. clear Ea. cbn [bind].
    rewrite foreign_named. destruct (bytes_eqb p self) eqn:Eself.
    - exists (ANamed [] n (asts_of_trefs args')), e2. split; [|split; [exact B1|]].
      + destruct n; [discriminate|reflexivity].
      + intros L HL. rewrite ast_named, Eself, (B2 L HL). reflexivity.
    - assert (Hne : p <> self) by (apply bytes_eqb_neq; exact Eself).
      destruct (tr_add_spec p e2 (proj1 (proj2 B1)) Hne) as [A1 [A2 [A3 [q [Hq Hqne]]]]].
      exists (ANamed q n (asts_of_trefs args')), (tr_add p e2). split; [|split].
      + cbv zeta. unfold local_name_of. rewrite Hq.
        destruct n; [discriminate|]. destruct q; [contradiction|reflexivity].
      + apply grows_comm. exact (grows_trans _ _ _ _ _ B1 (conj A1 (conj A2 A3))).
      + intros L HL. rewrite ast_named, Eself, (HL p q Hq), (B2 L (names_ext _ _ _ A1 HL)). reflexivity.
  Qed.

  Lemma P'_other : forall g, is_arg g = false -> P' g.
  Proof. intros g H _ Ha. rewrite H in Ha. discriminate. Qed.

  Theorem roundtrip_all :
    (forall g, P g /\ P' g) /\ (forall gs, Q gs) /\ (forall fs, R fs).
  Proof.
    apply gty_mutind.
    - intros k. split; [apply P_basic|]. intros _ _. exact (runs_ret (ANamed [] (bk_view_name k) ANil)).
    - split; [apply P_error|]. intros _ _. exact (runs_ret (ANamed [] (bs "error") ANil)).
    - split; [apply P_any|]. apply P'_other. reflexivity.
    - intros p n a IH. split; [apply P_named|apply P'_named]; exact IH.
    - intros g [IH _]. split; [apply P_ptr; exact IH|apply P'_other; reflexivity].
    - intros g [IH _]. split; [apply P_chan; exact IH|apply P'_other; reflexivity].
    - intros g [IH _]. split; [apply P_slice; exact IH|apply P'_other; reflexivity].
    - intros n g [IH _]. split; [apply P_array; exact IH|apply P'_other; reflexivity].
    - intros k [IHk _] g [IHg _]. split; [apply P_map; assumption|apply P'_other; reflexivity].
    - intros fs IH. split; [apply P_struct; exact IH|apply P'_other; reflexivity].
    - apply Q_nil.
    - intros g [_ IHg] r IHr. apply Q_cons; assumption.
    - apply R_nil.
    - intros n anon o t [IHt _] tag r IHr. apply R_cons; assumption.
  Qed.

  Lemma resolve_ident_predeclared : forall ef n g,
    rlookup n ef = None -> alookup n predeclared = Some g -> resolve ef self (ANamed [] n ANil) = Some g.
  Proof. intros ef n g H1 H2. cbn [resolve]. rewrite H1, H2. reflexivity. Qed.

  Lemma resolve_local : forall ef n asts gs,
    rlookup n ef = None -> is_predeclared n = false -> is_ident n = true ->
    resolve_args ef self asts = Some gs ->
    resolve ef self (ANamed [] n asts) = Some (GNamed self n gs).
  Proof.
    intros ef n asts gs H1 H2 H3 H4.
    change (resolve ef self (ANamed [] n asts)) with
      (match rlookup n ef with
       | Some _ => None
       | None => match alookup n predeclared with
                 | Some g => match asts with ANil => Some g | _ => None end
                 | None => if is_ident n then option_map (GNamed self n) (resolve_args ef self asts) else None
                 end
       end).
    rewrite H1. unfold is_predeclared in H2. destruct (alookup n predeclared); [discriminate|].
    rewrite H3, H4. reflexivity.
  Qed.

  Lemma resolve_foreign : forall ef q p n asts gs,
    q <> [] -> rlookup q ef = Some p -> exported n = true -> is_ident n = true -> p <> self ->
    resolve_args ef self asts = Some gs ->
    resolve ef self (ANamed q n asts) = Some (GNamed p n gs).
  Proof.
    intros ef q p n asts gs Hq H1 H2 H3 H4 H5.
    destruct q as [|c q]; [contradiction|].
    change (resolve ef self (ANamed (c :: q) n asts)) with
      (match rlookup (c :: q) ef with
       | Some p => if exported n && is_ident n && negb (bytes_eqb p self)
                   then option_map (GNamed p n) (resolve_args ef self asts) else None
       | None => None
       end).
    rewrite H1, H2, H3. apply bytes_eqb_neq in H4. rewrite H4, H5. reflexivity.
  Qed.

  Lemma tag_lit_value : forall tag, tag_value (tag_lit can_backquote true tag) = Some tag.
  Proof.
    intros tag. unfold tag_lit. destruct tag as [|c tag]; [reflexivity|].
    cbn [is_nil andb]. destruct (can_backquote (c :: tag)) eqn:E; cbn [negb].
    - apply tag_ok_raw_value, H_cbq, E.
    - reflexivity.
  Qed.

  Section Denote.
    Variable ef : renv.
    Hypothesis Hef : inv ef.
    Notation L := (fun p => local_name_of p ef).

    (* the packages F are registered, the names U are free *)
    Definition fits (F U : list bytes) : Prop := (forall p, In p F -> alookup p ef <> None) /\ free U ef.

    Lemma fits_app : forall F1 F2 U1 U2, fits (F1 ++ F2) (U1 ++ U2) -> fits F1 U1 /\ fits F2 U2.
    Proof.
      intros F1 F2 U1 U2 [H1 H2]. split; split; intros x Hx.
      - apply H1, in_app_iff. left. exact Hx.
      - apply H2, in_app_iff. left. exact Hx.
      - apply H1, in_app_iff. right. exact Hx.
      - apply H2, in_app_iff. right. exact Hx.
    Qed.

    Definition RP (g : gty) : Prop :=
      dom g = true -> fits (foreign_pkgs self g) (unq_names self g) ->
      resolve ef self (ast_of L g) = Some (canon g).

    Definition RQ (gs : gtys) : Prop :=
      dom_args gs = true -> fits (foreign_pkgs_l self gs) (unq_names_l self gs) ->
      resolve_args ef self (asts_of L gs) = Some (canons gs).

    Definition RR (fs : gfields) : Prop :=
      dom_fields fs = true -> fits (foreign_pkgs_f self fs) (unq_names_f self fs) ->
      resolve_fields ef self (afields_of L fs) = Some (canon_fields fs).

    Lemma local_name_reads : forall p q, alookup p ef = Some q -> q <> [] /\ rlookup q ef = Some p.
    Proof.
      intros p q H. apply alookup_in in H. destruct Hef as [Hnd [_ [Hne _]]]. split.
      - rewrite Forall_forall in Hne. exact (Hne q (in_map snd _ _ H)).
      - exact (rlookup_in_nodup _ _ _ Hnd H).
    Qed.

    Lemma emb_ast : forall g n, emb_name g = Some n -> embedded_name (ast_of L g) = Some n.
    Proof. intros g n H. destruct g as [| | | |[]| | | | |]; try discriminate; exact H. Qed.

    Lemma RP_named : forall p n a, RQ a -> RP (GNamed p n a).
    Proof.
      intros p n a IH Hd Hfit. rewrite in_domain_named in Hd. btrue.
      apply fits_app in Hfit. destruct Hfit as [[A1 A2] B].
      rewrite ast_named. change (canon (GNamed p n a)) with (GNamed p n (canons a)).
      destruct (bytes_eqb p self) eqn:Eself.
      - apply bytes_eqb_spec in Eself. subst p.
        apply resolve_local; [apply A2; left; reflexivity|apply negb_true_iff; assumption|assumption|].
        apply IH; assumption.
      - destruct (alookup p ef) as [q|] eqn:Eq; [|destruct (A1 p (or_introl eq_refl) Eq)].
        destruct (local_name_reads p q Eq) as [Hq Hr]. unfold local_name_of. rewrite Eq.
        apply resolve_foreign; try assumption; [apply bytes_eqb_neq, Eself|]. apply IH; assumption.
    Qed.

    Lemma RR_cons : forall n anon o t, RP t -> forall tag r, RR r -> RR (GFCons n anon o t tag r).
    Proof.
      intros n anon o t IHt tag r IHr Hd Hfit.
      rewrite in_domain_fields_cons in Hd. btrue. apply fits_app in Hfit. destruct Hfit as [A B].
      assert (Hname : (if anon then embedded_name (ast_of L t) else Some (if anon then [] else n)) = Some n).
      { destruct anon; [|reflexivity]. apply emb_ast.
        match goal with H : option_eqb bytes_eqb (emb_name t) (Some n) = true |- _ =>
          destruct (emb_name t) as [m|]; cbn in H; [|discriminate]; apply bytes_eqb_spec in H; subst; reflexivity end. }
      change (resolve_fields ef self (afields_of L (GFCons n anon o t tag r))) with
        (match (if anon then embedded_name (ast_of L t) else Some (if anon then [] else n)), resolve ef self (ast_of L t),
               tag_value (tag_lit can_backquote true tag), resolve_fields ef self (afields_of L r) with
         | Some fname, Some g, Some tv, Some r0 => Some (GFCons fname anon (if exported fname then [] else self) g tv r0)
         | _, _, _, _ => None
         end).
      rewrite Hname, IHt, tag_lit_value, IHr by assumption.
      match goal with H : bytes_eqb o _ = true |- _ => apply bytes_eqb_spec in H; rewrite <- H end. reflexivity.
    Qed.

    Theorem denote_all : (forall g, RP g) /\ (forall gs, RQ gs) /\ (forall fs, RR fs).
    Proof.
      apply gty_mutind.
      - intros k _ [_ Hfr]. apply resolve_ident_predeclared; [apply Hfr; left; reflexivity|].
        apply bk_view_name_predeclared.
      - intros _ [_ Hfr]. apply resolve_ident_predeclared; [apply Hfr; left|]; reflexivity.
      - intros _ [_ Hfr]. apply resolve_ident_predeclared; [apply Hfr; left|]; reflexivity.
      - apply RP_named.
      - intros g IH Hd Hfit. exact (f_equal (option_map GPtr) (IH Hd Hfit)).
      - intros g IH Hd Hfit. exact (f_equal (option_map GChan) (IH Hd Hfit)).
      - intros g IH Hd Hfit. exact (f_equal (option_map GSlice) (IH Hd Hfit)).
      - intros n g IH Hd Hfit. exact (f_equal (option_map (GArray n)) (IH Hd Hfit)).
      - intros k IHk g IHg Hd Hfit. cbn [in_domain] in Hd. btrue. apply fits_app in Hfit. destruct Hfit as [A B].
        change (resolve ef self (ast_of L (GMap k g))) with
          (match resolve ef self (ast_of L k), resolve ef self (ast_of L g) with
           | Some k', Some v' => Some (GMap k' v') | _, _ => None end).
        rewrite IHk, IHg by assumption. reflexivity.
      - intros fs IH Hd Hfit. exact (f_equal (option_map GStruct) (IH Hd Hfit)).
      - intros _ _. reflexivity.
      - intros g IHg r IHr Hd Hfit. rewrite in_domain_args_cons in Hd. btrue. apply fits_app in Hfit. destruct Hfit as [A B].
        change (resolve_args ef self (asts_of L (GCons g r))) with
          (match resolve ef self (ast_of L g), resolve_args ef self (asts_of L r) with
           | Some g0, Some gs => Some (GCons g0 gs) | _, _ => None end).
        rewrite IHg, IHr by assumption. reflexivity.
      - intros _ _. reflexivity.
      - apply RR_cons.
    Qed.
  End Denote.

End RoundTrip.

Definition tracker_hyps (pick : bytes -> renv -> option bytes) : Prop :=
  (forall p e n, pick p e = Some n -> ~ In n (map snd e))
  /\ (forall p e n, pick p e = Some n -> n <> [])
  /\ (forall p e, alookup p e = None -> pick p e <> None).

(* what C03 adds about the real tracker after fixes/C03-3 (Props/C03.v C03_not_predeclared_universe, for every
   history, every reserved table): a local name is never a predeclared identifier.  A HYPOTHESIS here, like
   [tracker_hyps]: this file treats the tracker abstractly (Proofs/RenderStackTracker.v proves all three of C03's tracker). *)
Definition tracker_not_predeclared (pick : bytes -> renv -> option bytes) : Prop :=
  forall p e n, pick p e = Some n -> is_predeclared n = false.

(* ... and on ASCII paths its names are lower-cased (C03_local_name_is_lowercased_words + sanitising) *)
Definition tracker_lower_case (pick : bytes -> renv -> option bytes) : Prop :=
  forall p e n, pick p e = Some n -> exported n = false.

Definition parse_hyp (parse_tref : bytes -> option tref) : Prop :=
  forall t, tref_wf t = true -> parse_tref (tref_string t) = Some t.

Definition cbq_hyp (can_backquote : bytes -> bool) : Prop :=
  forall s, can_backquote s = true -> tag_ok_raw s = true.

(* the tracker state: local names pairwise distinct and non-empty, the target package itself not imported *)
Definition tracker_inv (self : bytes) (e : renv) : Prop := inv self (fun _ => True) e.

(* no identifier the text uses unqualified is the name of an import *)
Definition free_names (self : bytes) (g : gty) (e : renv) : Prop :=
  forall n, In n (unq_names self g) -> rlookup n e = None.

(* the part of [free_names] that remains once import names are known not to be predeclared: the names of the
   target package's own types that occur in g (every other unqualified identifier of the text is predeclared) *)
Definition free_own_names (self : bytes) (g : gty) (e : renv) : Prop :=
  forall n, In n (unq_names self g) -> is_predeclared n = false -> rlookup n e = None.

Definition no_predeclared_names (e : renv) : Prop := Forall (fun n => is_predeclared n = false) (map snd e).

Definition all_tags : bytes -> bool := fun _ => true.

(* x is what ident.Frag receives for the type g: its reflect.Type, its go/types Type, or — for the predeclared
   any, which go/types represents as an alias — the *types.Alias, which ident.Frag tests for first *)
Definition renders (x : idarg) (g : gty) : Prop :=
  x = IdR (view_of g) \/ x = IdT (view_of g) \/ (x = IdAlias (bs "any") /\ g = GAny).

Lemma class_app : forall (C : bytes -> Prop) (a b : bool) (la lb : list bytes),
  (a = true -> forall n, In n la -> C n) -> (b = true -> forall n, In n lb -> C n) ->
  a && b = true -> forall n, In n (la ++ lb) -> C n.
Proof.
  intros C a b la lb Ha Hb H n Hn. apply andb_true_iff in H. destruct H as [H1 H2].
  apply in_app_iff in Hn. destruct Hn as [Hn|Hn]; [exact (Ha H1 n Hn)|exact (Hb H2 n Hn)].
Qed.

Section Final.
  Variable pick : bytes -> renv -> option bytes.
  Variable parse_tref : bytes -> option tref.
  Variable self : bytes.
  Variable can_backquote : bytes -> bool.
  Hypothesis Ht : tracker_hyps pick.
  Hypothesis Hp : parse_hyp parse_tref.
  Hypothesis Hc : cbq_hyp can_backquote.

  Notation frag := (ident_frag pick parse_tref self can_backquote true true).

  Lemma frag_type_lit : forall x g e, renders x g ->
    frag x e = type_lit pick parse_tref self can_backquote true true (view_of g) e.
  Proof. intros x g e [H|[H|[H1 H2]]]; subst; reflexivity. Qed.

  (* the C11 family in one statement, for any property nm_ok of the names the tracker hands out: rendering succeeds;
     the table grows by the foreign packages of g and keeps its invariant; and the tree denotes g in the final table
     provided no unqualified identifier of g that satisfies nm_ok is an import name (one that does not cannot be) *)
  Lemma frag_spec : forall (nm_ok : bytes -> Prop),
    (forall p e n, pick p e = Some n -> nm_ok n) ->
    forall x g e, renders x g -> in_domain all_tags self g = true -> inv self nm_ok e ->
    (exists a e', frag x e = Ok (a, e')) /\
    forall a e', frag x e = Ok (a, e') ->
      ext e e' /\ inv self nm_ok e' /\ paths_spec e e' (foreign_pkgs self g)
      /\ ((forall n, In n (unq_names self g) -> nm_ok n -> rlookup n e' = None) -> resolve e' self a = Some (canon g)).
  Proof.
    intros nm_ok Hn x g e Hx Hd Hi. rewrite (frag_type_lit x g e Hx). destruct Ht as [H1 [H2 H3]].
    destruct (roundtrip_all pick parse_tref self can_backquote H1 H2 H3 nm_ok Hn Hp) as [H _].
    destruct (proj1 (H g) Hd e Hi) as [a [e' [Ha [[G1 [G2 G3]] G4]]]]. split; [exists a, e'; exact Ha|].
    intros a0 e0 Hf. rewrite Ha in Hf. inversion Hf; subst a0 e0. split; [exact G1|]. split; [exact G2|]. split; [exact G3|].
    intros Hfr. rewrite (G4 (fun p => local_name_of p e')).
    2:{ intros p n Hp'. unfold local_name_of. rewrite Hp'. reflexivity. }
    apply (proj1 (denote_all self can_backquote nm_ok Hc e' G2) g Hd). split.
    - intros p Hp' Hnone. apply alookup_none_notin in Hnone. apply Hnone, G3. right. exact Hp'.
    - intros n Hn'. apply rlookup_none_notin. intros Hin.
      refine (proj1 (rlookup_none_notin _ _) (Hfr n Hn' _) Hin).
      destruct G2 as [_ [_ [_ Hall]]]. rewrite Forall_forall in Hall. exact (Hall n Hin).
  Qed.

  Lemma total : forall x g e,
    renders x g -> in_domain all_tags self g = true -> tracker_inv self e ->
    exists a e', frag x e = Ok (a, e').
  Proof. intros x g e Hx Hd Hi. exact (proj1 (frag_spec (fun _ => True) (fun _ _ _ _ => I) x g e Hx Hd Hi)). Qed.

  Lemma roundtrip : forall x g e a e',
    renders x g -> in_domain all_tags self g = true -> tracker_inv self e ->
    frag x e = Ok (a, e') -> free_names self g e' ->
    resolve e' self a = Some (canon g).
  Proof.
    intros x g e a e' Hx Hd Hi Hf Hfree.
    destruct (proj2 (frag_spec (fun _ => True) (fun _ _ _ _ => I) x g e Hx Hd Hi) a e' Hf) as [_ [_ [_ G]]].
    apply G. intros n Hn _. exact (Hfree n Hn).
  Qed.

  Lemma imports_exact : forall x g e a e',
    renders x g -> in_domain all_tags self g = true -> tracker_inv self e ->
    frag x e = Ok (a, e') ->
    (exists added, e' = e ++ added) /\ tracker_inv self e'
    /\ (forall p, In p (map fst e') <-> In p (map fst e) \/ In p (foreign_pkgs self g)).
  Proof.
    intros x g e a e' Hx Hd Hi Hf.
    destruct (proj2 (frag_spec (fun _ => True) (fun _ _ _ _ => I) x g e Hx Hd Hi) a e' Hf) as [G1 [G2 [G3 _]]].
    exact (conj G1 (conj G2 G3)).
  Qed.

  (* with the C03 fact as hypothesis the predeclared half of [free_names] is discharged: an import can only
     clash with the name of one of the target package's own types *)
  Lemma roundtrip_no_predeclared_imports : forall x g e a e',
    tracker_not_predeclared pick ->
    renders x g -> in_domain all_tags self g = true -> tracker_inv self e -> no_predeclared_names e ->
    frag x e = Ok (a, e') -> free_own_names self g e' ->
    no_predeclared_names e' /\ resolve e' self a = Some (canon g).
  Proof.
    intros x g e a e' Hnp Hx Hd Hi Hnames Hf Hfree.
    assert (Hi' : inv self (fun n => is_predeclared n = false) e).
    { destruct Hi as [I1 [I2 [I3 _]]]. repeat split; assumption. }
    destruct (proj2 (frag_spec _ Hnp x g e Hx Hd Hi') a e' Hf) as [_ [G2 [_ G4]]].
    split; [apply G2|exact (G4 Hfree)].
  Qed.

  (* corollary: when the tracker hands out lower-case, non-predeclared names (what C03 shows of the real
     one on ASCII paths) and the target package's own types are exported, nothing can clash *)
  Definition lower_name (n : bytes) : Prop := is_predeclared n = false /\ exported n = false.

  Lemma unq_names_class :
    (forall g, locals_exported self g = true ->
       forall n, In n (unq_names self g) -> is_predeclared n = true \/ exported n = true)
    /\ (forall gs, locals_exported_l self gs = true ->
       forall n, In n (unq_names_l self gs) -> is_predeclared n = true \/ exported n = true)
    /\ (forall fs, locals_exported_f self fs = true ->
       forall n, In n (unq_names_f self fs) -> is_predeclared n = true \/ exported n = true).
  Proof.
    apply gty_mutind.
    - intros k _ n [H|[]]. subst. left. unfold is_predeclared. rewrite bk_view_name_predeclared. reflexivity.
    - intros _ n [H|[]]. subst. left. reflexivity.
    - intros _ n [H|[]]. subst. left. reflexivity.
    - intros p n a IH. refine (class_app _ _ _ _ _ _ IH). intros H m Hm.
      destruct (bytes_eqb p self); [|destruct Hm]. destruct Hm as [Hm|[]]. subst m. right. exact H.
    - intros g IH. exact IH.
    - intros g IH. exact IH.
    - intros g IH. exact IH.
    - intros n g IH. exact IH.
    - intros k IHk g IHg. exact (class_app _ _ _ _ _ IHk IHg).
    - intros fs IH. exact IH.
    - intros _ n [].
    - intros g IHg r IHr. exact (class_app _ _ _ _ _ IHg IHr).
    - intros _ n [].
    - intros n anon o t IHt tag r IHr. exact (class_app _ _ _ _ _ IHt IHr).
  Qed.

  Lemma roundtrip_exported : forall x g e a e',
    tracker_not_predeclared pick -> tracker_lower_case pick ->
    renders x g -> in_domain all_tags self g = true -> locals_exported self g = true ->
    tracker_inv self e -> Forall lower_name (map snd e) ->
    frag x e = Ok (a, e') ->
    resolve e' self a = Some (canon g).
  Proof.
    intros x g e a e' Hnp Hlc Hx Hd Hl Hi Hnames Hf.
    assert (Hi' : inv self lower_name e).
    { destruct Hi as [I1 [I2 [I3 _]]]. repeat split; assumption. }
    destruct (proj2 (frag_spec lower_name (fun p0 e0 n0 Hp0 => conj (Hnp p0 e0 n0 Hp0) (Hlc p0 e0 n0 Hp0)) x g e Hx Hd Hi')
                a e' Hf) as [_ [_ [_ G4]]].
    apply G4. intros n Hn [L1 L2]. destruct (proj1 unq_names_class g Hl n Hn); congruence.
  Qed.
End Final.

(* the defects the check found, kept as refutations of the unrepaired code *)
Definition g_struct_error : gty := GStruct (GFCons (bs "E") false [] GError [] GFNil).
Definition g_struct_tag : gty := GStruct (GFCons (bs "A") false [] (GBasic BInt) (bs "a`b") GFNil).

Lemma error_refuted_before_fix :
  forall pick parse_tref self can_backquote fx_tag,
    in_domain all_tags self g_struct_error = true /\
    exists a, type_lit pick parse_tref self can_backquote false fx_tag (view_of g_struct_error) [] = Ok (a, [])
              /\ resolve [] self a <> Some (canon g_struct_error).
Proof.
  intros. split; [reflexivity|]. eexists. split; [reflexivity|]. cbn. discriminate.
Qed.

Lemma tag_refuted_before_fix :
  forall pick parse_tref self can_backquote fx_err,
    in_domain all_tags self g_struct_tag = true /\
    exists a, type_lit pick parse_tref self can_backquote fx_err false (view_of g_struct_tag) [] = Ok (a, [])
              /\ resolve [] self a = None.
Proof.
  intros. split; [reflexivity|]. eexists. split; [reflexivity|]. reflexivity.
Qed.

(* the tracker hypotheses are satisfiable (a naming scheme that is always fresh) *)
Definition pick_long : bytes -> renv -> option bytes :=
  fun _ e => Some ("p"%char :: concat (map snd e)).

Lemma concat_len_ge : forall (l : list bytes) n, In n l -> length n <= length (concat l).
Proof.
  induction l as [|x l IH]; intros n H; cbn in *; [destruct H|].
  rewrite app_length. destruct H as [H|H]; [subst; lia|]. specialize (IH n H). lia.
Qed.

Lemma tracker_hyps_fresh : forall c, tracker_hyps (fun _ e => Some (c :: concat (map snd e))).
Proof.
  intros c. repeat split.
  - intros p e n H Hin. inversion H; subst. apply concat_len_ge in Hin. cbn in Hin. lia.
  - intros p e n H. inversion H. discriminate.
  - intros p e _ H. discriminate.
Qed.

Lemma tracker_hyps_sat : tracker_hyps pick_long.
Proof. exact (tracker_hyps_fresh "p"%char). Qed.

(* ... also together with the two C03 facts (no predeclared identifier starts with q) *)
Definition pick_q : bytes -> renv -> option bytes :=
  fun _ e => Some ("q"%char :: concat (map snd e)).

Lemma tracker_hyps_c03_sat : tracker_hyps pick_q /\ tracker_not_predeclared pick_q /\ tracker_lower_case pick_q.
Proof.
  split; [exact (tracker_hyps_fresh "q"%char)|]. split; intros p e n H; inversion H; reflexivity.
Qed.

(* the tracker before fixes/C03-3, as far as this development sees it: the last path segment, unless taken *)
Fixpoint last_segment (cur p : bytes) : bytes :=
  match p with
  | [] => rev cur
  | c :: r => if byte_eqb c "/"%char then last_segment [] r else last_segment (c :: cur) r
  end.

Definition pick_last_segment : bytes -> renv -> option bytes :=
  fun p e =>
    let n := last_segment [] p in
    if is_nil n || existsb (bytes_eqb n) (map snd e) then pick_long p e else Some n.

Definition parse_only_T : bytes -> option tref := fun _ => Some (TRef [] (bs "T") TRNil).   (* the only name parsed is "T" *)

Definition g_string_clash : gty :=
  GStruct (GFCons (bs "A") false [] (GBasic BString) []
          (GFCons (bs "B") false [] (GNamed (bs "x/string") (bs "T") GNil) [] GFNil)).

Lemma tracker_hyps_last_segment : tracker_hyps pick_last_segment.
Proof.
  destruct tracker_hyps_sat as [L1 [L2 L3]].
  unfold tracker_hyps, pick_last_segment. repeat split; intros p e;
    destruct (is_nil (last_segment [] p) || existsb (bytes_eqb (last_segment [] p)) (map snd e)) eqn:E;
    eauto; try discriminate; intros n H; inversion H; subst; apply orb_false_iff in E; destruct E as [E1 E2].
  - intros Hin. apply not_true_iff_false in E2. apply E2, existsb_bytes_eqb_in, Hin.
  - intros Hn. rewrite Hn in E1. discriminate.
Qed.

Lemma import_name_predeclared_refuted_before_fix :
  tracker_hyps pick_last_segment /\
  in_domain all_tags (bs "t") g_string_clash = true /\
  exists a e', ident_frag pick_last_segment parse_only_T (bs "t") (fun _ => true) true true (IdT (view_of g_string_clash)) [] = Ok (a, e')
               /\ e' = [(bs "x/string", bs "string")] /\ resolve e' (bs "t") a = None.
Proof.
  split; [exact tracker_hyps_last_segment|]. split; [vm_compute; reflexivity|].
  do 2 eexists. split; [vm_compute; reflexivity|]. split; [reflexivity|]. vm_compute. reflexivity.
Qed.
