(* RenderStack: the theorems about the composed rendering (C09 over C10 / C11 / C15 over C03) and about the file
   assembled from it (C01).
   DEFINED here and used in statements of Props/C01.v, Props/C03.v and Props/C11.v: [cpkgs] (the packages a term refers
   to) and [table_ok] (the import table a writer builds from the empty tracker: distinct paths, distinct valid
   lower-case names none of which is refused). *)
Require Import Gengo.Base.Bytes.
Require Import Gengo.Model.GoIdent Gengo.Model.RenderStack.
Require Import Gengo.Proofs.RenderStackTracker Gengo.Proofs.RenderStackSnippet Gengo.Proofs.RenderStackLeaves.
Require Gengo.Model.Snippet Gengo.Model.SnippetSpec Gengo.Proofs.Snippet.
Require Gengo.Model.TypeLit Gengo.Spec.TypeLit Gengo.Proofs.TypeLit Gengo.Proofs.RenderStackConcrete.
Require Gengo.Model.GenFile Gengo.Proofs.GenFile.
Require Gengo.Model.Tracker Gengo.Proofs.Tracker Gengo.Proofs.StdTable.
From Coq Require Import Permutation Sorted.


Section Stack.
  Context {F : Type}.
  Variable fzero : F -> bool.
  Variables ffmt gfmt : VL.fkind -> F -> bytes.
  Variable fbig : F -> bool.
  Variable quote : bytes -> bytes.
  Variable cbq : bytes -> bool.
  Variable pre : list bytes.
  Variable std : option Tk.tracker.
  Variable self : bytes.
  Variable fx6 : bool.

  Notation pick := (pick_c03 pre std).
  Notation crender := (crender fzero ffmt gfmt fbig quote cbq pick self fx6).
  Notation crender_all := (crender_all fzero ffmt gfmt fbig quote cbq pick self fx6).
  Notation cerase := (cerase fzero ffmt gfmt fbig quote cbq pick self fx6).
  Notation leaf_regs := (leaf_regs fzero ffmt gfmt fbig quote self fx6).
  Notation raw_v_regs := (raw_v_regs fzero ffmt gfmt fbig quote self fx6).
  Notation raw_t_regs := (@raw_t_regs F self).
  Notation csnip := (@csnip F).
  Notation add_all := (add_all pick).

  (* the packages a term refers to: those of the leaves that are rendered (holes that occur, arguments a verb consumes) *)
  Definition cpkgs (s : csnip) : list bytes :=
    rpkgs_render (@leaf F) (@rawarg F) leaf_isnil leaf_regs raw_v_regs raw_t_regs s.

  Let ptotal := pick_total pre std.

  (* ---- text: the composed rendering is C09's rendering of the term whose leaves are replaced by what the
     component models render them to in the final tracker state ---- *)
  Theorem crender_erase : forall s e out e',
    crender s e = Ok (out, e') ->
    ext e e' /\
    forall e2, ext e' e2 ->
      crender s e2 = Ok (out, e2) /\ Sn.render Sn.all_fixed (cerase e2 s) = Ok out.
  Proof.
    intros s e out e' H. unfold RenderStack.crender, RenderStack.cerase in *.
    exact (rrender_erase TL.renv ext Proofs.TypeLit.ext_refl Proofs.TypeLit.ext_trans _ _ _ _ _ _
             (leaf_frag_stable fzero ffmt gfmt fbig quote cbq pick ptotal self fx6)
             (raw_v_stable fzero ffmt gfmt fbig quote pick ptotal self fx6)
             (raw_t_stable quote cbq pick ptotal self) s e out e' H).
  Qed.

  (* ... hence the specification of C09 itself, on C09's domain *)
  Corollary crender_spec : forall s e out e',
    crender s e = Ok (out, e') ->
    SS.fmts_utf8 (cerase e' s) = true -> SS.cls_nolit (cerase e' s) = false ->
    SS.spec_render SS.same OutOfFuel (cerase e' s) = Ok out.
  Proof.
    intros s e out e' H U N. destruct (crender_erase s e out e' H) as [_ R].
    destruct (R e' (Proofs.TypeLit.ext_refl e')) as [_ P]. rewrite <- (Gengo.Proofs.Snippet.render_dom _ U N). exact P.
  Qed.

  (* ---- imports: the tracker after rendering is AddType of the referenced packages, in order, on the tracker
     before; so the registered set is exactly the old one plus the packages the term refers to ---- *)
  Theorem crender_all_reach : forall l e out e', crender_all l e = Ok (out, e') -> e' = add_all (flat_map cpkgs l) e.
  Proof.
    intros l e out e' H.
    exact (rrender_all_regs TL.renv _ (regs_ok_ext _ _) (regs_ok_ret _ _ (reached_refl pick)) (regs_ok_panic _ _ [])
             (regs_ok_emitr _ _ (reached_trans pick)) _ _ _ _ _ _ _ _ _
             (leaf_frag_regs fzero ffmt gfmt fbig quote cbq pick ptotal self fx6)
             (raw_v_regs_ok fzero ffmt gfmt fbig quote pick ptotal self fx6)
             (raw_t_regs_ok quote cbq pick ptotal self) l e out e' H).
  Qed.

  (* one Render call is a body of one fragment *)
  Theorem crender_reach : forall s e out e', crender s e = Ok (out, e') -> e' = add_all (cpkgs s) e.
  Proof.
    intros s e out e' H. rewrite <- (app_nil_r (cpkgs s)).
    exact (crender_all_reach [s] e _ e' (emitr_st_ok _ _ _ _ _ _ _ _ H eq_refl)).
  Qed.

  Corollary crender_imports : forall s e out e', crender s e = Ok (out, e') ->
    forall p, In p (map fst e') <-> In p (map fst e) \/ In p (cpkgs s).
  Proof. intros s e out e' H p. rewrite (crender_reach s e out e' H). apply (add_all_paths pick ptotal). Qed.

  (* and in C03's own vocabulary: the final tracker is C03's [add_all] (a history of AddType calls) on the first *)
  Corollary crender_all_is_history : forall l e out e', crender_all l e = Ok (out, e') ->
    Tk.add_all true pre std (tr_of e) (flat_map cpkgs l) = Ok (tr_of e').
  Proof.
    intros l e out e' H. rewrite (crender_all_reach l e out e' H).
    unfold RenderStack.add_all. rewrite fold_tr_add_simulation. apply fold_cadd_add_all.
  Qed.

  (* ---- the table a writer builds from the empty tracker ---- *)
  Definition name_ok (n : bytes) : Prop := valid_name_b n = true /\ lower_first n /\ name_in pre n = false.
  Definition table_ok (e : TL.renv) : Prop :=
    NoDup (map fst e) /\ NoDup (map snd e) /\ Forall name_ok (map snd e).

  Lemma table_ok_nil : table_ok [].
  Proof. repeat split; constructor. Qed.

  Lemma add_all_table_ok : forall ps e, table_ok e -> table_ok (add_all ps e).
  Proof.
    apply add_all_inv. intros p e n L P (N1 & N2 & A).
    destruct (pick_spec pre std p e n P) as (_ & _ & Fr & NP & V & LF). unfold table_ok. rewrite !map_app. repeat split.
    - apply alookup_none_notin in L. apply Order.NoDup_app_one; assumption.
    - apply Order.NoDup_app_one; assumption.
    - apply Forall_app. split; [exact A|]. constructor; [|constructor]. exact (conj V (conj LF NP)).
  Qed.

  Lemma tr_add_table_ok : forall p e, table_ok e -> table_ok (TL.tr_add pick p e).
  Proof. intros p. exact (add_all_table_ok [p]). Qed.

  Lemma is_foreign_not_self : forall p, is_foreign self p = true -> p <> self.
  Proof.
    intros p Fg ->. unfold is_foreign in Fg. rewrite bytes_eqb_refl, andb_false_r in Fg. discriminate.
  Qed.

  (* no registration is the file's own package or the empty path *)
  Lemma tref_regs_foreign :
    (forall t p, In p (tref_regs self t) -> is_foreign self p = true) /\
    (forall l p, In p (trefs_regs self l) -> is_foreign self p = true).
  Proof.
    apply tref_mutind.
    - intros pkg name args IH p H. cbn [tref_regs] in H. apply in_app_iff in H. destruct H as [H|H]; [|apply IH, H].
      unfold is_foreign. destruct (is_nil pkg) eqn:E1; [destruct H|]. destruct (bytes_eqb pkg self) eqn:E2; [destruct H|].
      destruct H as [<-|[]]. rewrite E1, E2. reflexivity.
    - intros p [].
    - intros t IHt r IHr p H. cbn [trefs_regs] in H. apply in_app_iff in H. destruct H; auto.
  Qed.

  (* ---- every fragment of a body is rendered with the FINAL table ---- *)
  Lemma crender_all_erase : forall l e body e', crender_all l e = Ok (body, e') ->
    forall e2, ext e' e2 ->
    exists outs, Forall2 (fun s o => Sn.render Sn.all_fixed (cerase e2 s) = Ok o) l outs /\ body = concat outs.
  Proof.
    induction l as [|s r IH]; intros e body e' H e2 X.
    - apply ret_st_inv in H. destruct H as [-> _]. exists []. split; [constructor|reflexivity].
    - apply emitr_st_inv in H. destruct H as (a & e1 & b & E1 & E2 & ->).
      destruct (IH _ _ _ E2 e2 X) as (outs & Ho & ->).
      assert (M : ext e1 e') by (rewrite (crender_all_reach r e1 _ e' E2); apply (add_all_ext pick)).
      destruct (crender_erase s e a e1 E1) as [_ R]. destruct (R e2 (Proofs.TypeLit.ext_trans _ _ _ M X)) as [_ P].
      exists (a :: outs). split; [constructor; assumption|reflexivity].
  Qed.

  Theorem file_imports : forall pkg gen frags body e',
    crender_all frags [] = Ok (body, e') ->
    (* the source handed to the formatter *)
    Gengo.Model.GenFile.assemble pkg gen e' body
      = Gengo.Model.GenFile.header_comment pkg gen ++ ([Gengo.Model.GenFile.nl] ++ bs "package " ++ pkg ++ [Gengo.Model.GenFile.nl]) ++ Gengo.Model.GenFile.import_block e' ++ body
    (* its import table: pairwise distinct paths under pairwise distinct names that are valid identifiers, not
       keywords, not "_", not upper-case (never exported-looking), not refused ([pre]: predeclared) *)
    /\ table_ok e'
    (* exactly the packages the rendered body refers to: none missing, none extra *)
    /\ (forall p, In p (map fst e') <-> In p (flat_map cpkgs frags))
    (* the block lists exactly the table, one line per entry, sorted by path *)
    /\ (e' = [] -> Gengo.Model.GenFile.import_block e' = [])
    /\ (e' <> [] ->
        exists entries,
          Permutation entries e' /\ StronglySorted Gengo.Proofs.GenFile.le (map fst entries) /\
          Gengo.Model.GenFile.import_block e'
          = Gengo.Model.GenFile.nl :: bs "import (" ++ [Gengo.Model.GenFile.nl]
            ++ flat_map (fun e => Gengo.Model.GenFile.tab :: snd e ++ bs " " ++ [Gengo.Model.GenFile.dquote] ++ fst e ++ [Gengo.Model.GenFile.dquote; Gengo.Model.GenFile.nl]) entries
            ++ bs ")" ++ [Gengo.Model.GenFile.nl])
    (* and the body is the concatenation of the fragments, each rendered (C09) with its leaves printed against THIS
       table: every qualifier in the body is the name the block binds to the package *)
    /\ exists outs, Forall2 (fun s o => Sn.render Sn.all_fixed (cerase e' s) = Ok o) frags outs /\ body = concat outs.
  Proof.
    intros pkg gen frags body e' H.
    pose proof (crender_all_reach frags [] body e' H) as R.
    assert (T : table_ok e') by (rewrite R; apply add_all_table_ok, table_ok_nil).
    split; [apply Gengo.Proofs.GenFile.assemble_shape|]. split; [exact T|]. split.
    - intros p. rewrite R. split; intros Hp.
      + apply (add_all_paths pick ptotal) in Hp. destruct Hp as [[]|Hp]. exact Hp.
      + apply (add_all_paths pick ptotal). right. exact Hp.
    - split; [intros ->; exact (proj1 Gengo.Proofs.GenFile.imports_claim)|]. split.
      + intros Hne. exact (proj2 Gengo.Proofs.GenFile.imports_claim e' Hne (proj1 T)).
      + exact (crender_all_erase frags [] body e' H e' (Proofs.TypeLit.ext_refl e')).
  Qed.

  Lemma idarg_regs_not_self : forall x p, In p (idarg_regs self parse_c15 x) -> p <> self.
  Proof.
    assert (N : forall pkg name p, In p (name_regs self parse_c15 pkg name) -> p <> self).
    { intros pkg name p H. unfold name_regs in H. apply in_app_iff in H. destruct H as [H|H].
      - destruct (parse_c15 name) as [[q n [|a0 r0]]|]; try (destruct H; fail).
        exact (is_foreign_not_self p (proj1 tref_regs_foreign _ p H)).
      - destruct (bytes_eqb pkg self) eqn:E; [destruct H|]. destruct H as [<-|[]]. intros ->. rewrite bytes_eqb_refl in E. discriminate. }
    assert (V : (forall v p, In p (RenderStack.view_regs self parse_c15 v) -> p <> self) /\
                (forall fs p, In p (RenderStack.fields_regs self parse_c15 fs) -> p <> self)).
    { apply tyview_mutind; try (intros; cbn in *; contradiction); try (intros; cbn in *; auto; fail).
      - intros pkg name p H. exact (N _ _ _ H).
      - intros k IHk x IHx p H. rewrite view_regs_map_eq in H. apply in_app_iff in H. destruct H; auto.
      - intros name anon t IHt tag rest IHr p H. rewrite fields_regs_cons_eq in H. apply in_app_iff in H. destruct H; auto. }
    intros x p H. destruct x as [s|s|pk n tps|v|v|]; cbn [idarg_regs] in H.
    - destruct (TL.parse_ref s) as [[pk n]|]; [exact (N _ _ _ H)|destruct H].
    - destruct (TL.parse_ref s) as [[pk n]|]; [exact (N _ _ _ H)|destruct H].
    - exact (N _ _ _ H).
    - exact (proj1 V _ _ H).
    - exact (proj1 V _ _ H).
    - destruct H.
  Qed.

  Lemma cpkgs_not_self : forall s p, In p (cpkgs s) -> p <> self.
  Proof.
    assert (L : forall t v p, In p (leaf_value_regs fzero ffmt gfmt fbig quote self fx6 t v) -> p <> self).
    { intros t v p H. apply filter_In in H. exact (is_foreign_not_self p (proj2 H)). }
    intros s p H. unfold cpkgs in H. revert s p H. apply rpkgs_render_forall.
    - intros [[[t v]|]|[x|]|pk n] p H; cbn [RenderStack.leaf_regs] in H; try (destruct H; fail).
      + exact (L _ _ _ H).
      + exact (idarg_regs_not_self _ _ H).
      + exact (idarg_regs_not_self _ _ H).
    - intros [t v| |x] p H; cbn [RenderStack.raw_v_regs] in H; try (destruct H; fail). exact (L _ _ _ H).
    - intros [t v| |x] p H; cbn [RenderStack.raw_t_regs] in H; try (destruct H; fail).
      + destruct t; try (destruct H; fail). destruct v; try (destruct H; fail). exact (idarg_regs_not_self _ _ H).
      + exact (idarg_regs_not_self _ _ H).
  Qed.

  Lemma crender_all_not_self : forall frags e body e',
    crender_all frags e = Ok (body, e') -> ~ In self (map fst e) -> ~ In self (map fst e').
  Proof.
    intros frags e body e' H He Hin. rewrite (crender_all_reach frags e body e' H) in Hin.
    apply (add_all_paths pick ptotal) in Hin. destruct Hin as [Hin|Hin]; [exact (He Hin)|].
    apply in_flat_map in Hin. destruct Hin as (s & _ & Hp). exact (cpkgs_not_self s self Hp eq_refl).
  Qed.

  Lemma body_table_not_self : forall frags body e', crender_all frags [] = Ok (body, e') -> ~ In self (map fst e').
  Proof. intros frags body e' H. exact (crender_all_not_self frags [] body e' H (fun F => F)). Qed.

  (* value leaves, repaired code: exactly the foreign packages the literal mentions *)
  Lemma value_regs_exact : forall local t v l,
    fx6 = true ->
    vlit fzero ffmt gfmt fbig quote local false t v = Ok l ->
    keys_distinct fzero ffmt gfmt fbig quote local t v = true ->
    forall p, In p (leaf_value_regs fzero ffmt gfmt fbig quote self fx6 t v) <-> In p (filter (is_foreign self) (lit_pkgs l)).
  Proof.
    intros local t v l -> H K p. unfold leaf_value_regs. rewrite !filter_In. split; intros [H1 H2]; (split; [|exact H2]).
    - exact (value_regs_used fzero ffmt gfmt fbig quote v local false t l H K p H1).
    - exact (value_lit_pkgs fzero ffmt gfmt fbig quote true v local false t l H p H1).
  Qed.

  Lemma add_all_registered : forall ps e, (forall p, In p ps -> In p (map fst e)) -> add_all ps e = e.
  Proof. exact (add_all_known pick). Qed.
End Stack.

(* ident.Frag registers exactly the foreign packages of the type.  A fact about lists: read off a run from the empty
   table through any tracker that always finds a name, with a CanBackquote that refuses everything (tags do not matter) *)
Lemma idarg_regs_exact : forall parse self, Proofs.TypeLit.parse_hyp parse ->
  forall x g, Proofs.TypeLit.renders x g ->
  Gengo.Spec.TypeLit.in_domain Proofs.TypeLit.all_tags self g = true ->
  forall p, In p (idarg_regs self parse x) <-> In p (Gengo.Spec.TypeLit.foreign_pkgs self g).
Proof.
  intros parse self Hp x g Hx Hd p.
  pose proof Proofs.TypeLit.tracker_hyps_sat as Ht. pose proof (proj2 (proj2 Ht)) as Tot.
  assert (Hc : Proofs.TypeLit.cbq_hyp (fun _ => false)) by (intros s H; discriminate H).
  pose proof (Gengo.Proofs.RenderStackConcrete.tracker_inv_nil self) as I.
  destruct (Proofs.TypeLit.total _ parse self _ Ht Hp Hc x g [] Hx Hd I) as (a & e' & E).
  destruct (Proofs.TypeLit.imports_exact _ parse self _ Ht Hp Hc x g [] a e' Hx Hd I E) as (_ & _ & P).
  destruct (ident_frag_spec _ Tot parse self _ true true x [] a e' E) as [-> _].
  pose proof (add_all_paths _ Tot (idarg_regs self parse x) [] p) as A.
  specialize (P p). cbn [map In] in A, P. split; intros H.
  - destruct (proj1 P (proj2 A (or_intror H))) as [[]|H']. exact H'.
  - destruct (proj1 A (proj2 P (or_intror H))) as [[]|H']. exact H'.
Qed.

(* ---- type leaves: C11's theorems at the table of the assembled file (the tracker of the current tree) ---- *)
Section TypeLeaves.
  Variable self : bytes.
  Variable cbq : bytes -> bool.
  Hypothesis Hc : Proofs.TypeLit.cbq_hyp cbq.

  Import Gengo.Spec.TypeLit.

  Lemma table_ok_inv : forall e, table_ok the_pre e -> ~ In self (map fst e) ->
    Proofs.TypeLit.tracker_inv self e /\ Forall Proofs.TypeLit.lower_name (map snd e).
  Proof.
    intros e (N1 & N2 & A) Hs. split.
    - unfold Proofs.TypeLit.tracker_inv, Proofs.TypeLit.inv. repeat split; try assumption.
      + rewrite Forall_forall in *. intros n Hn. destruct (A n Hn) as (V & _ & _). apply Gengo.Proofs.Tracker.valid_name_nonempty, V.
      + rewrite Forall_forall. intros; exact I.
    - rewrite Forall_forall in *. intros n Hn. destruct (A n Hn) as (_ & [_ LF] & NP). split; [|exact LF].
      destruct (is_predeclared n) eqn:E; [|reflexivity]. exfalso.
      apply Gengo.Proofs.StdTable.c11_predeclared_in_universe in E. apply Gengo.Proofs.Tracker.name_in_spec in E.
      unfold the_pre in NP. congruence.
  Qed.

  (* a type all of whose packages the file imports renders, against the file's table, to an expression that leaves the
     table alone and that denotes the type when it is read through that table *)
  Theorem type_leaf_denotes : forall e' x g,
    table_ok the_pre e' -> ~ In self (map fst e') ->
    Proofs.TypeLit.renders x g -> in_domain Proofs.TypeLit.all_tags self g = true -> locals_exported self g = true ->
    (forall p, In p (foreign_pkgs self g) -> In p (map fst e')) ->
    exists a, TL.ident_frag the_pick parse_c15 self cbq true true x e' = Ok (a, e') /\
              resolve e' self a = Some (canon g).
  Proof.
    intros e' x g T Hs Hx Hd Hl Hin. destruct (table_ok_inv e' T Hs) as [I L].
    destruct (Gengo.Proofs.RenderStackConcrete.c11_total_concrete self cbq Hc x g e' Hx Hd I) as (a & e2 & E).
    destruct (ident_frag_spec the_pick (pick_total the_pre the_std) parse_c15 self cbq true true x e' a e2 E) as [R _].
    assert (E2 : e2 = e').
    { rewrite R. apply add_all_registered. intros p Hp. apply Hin. apply (idarg_regs_exact parse_c15 self parse_hyp_c15 x g Hx Hd). exact Hp. }
    clear R. subst e2. exists a. split; [exact E|].
    exact (Gengo.Proofs.RenderStackConcrete.c11_roundtrip_exported_concrete self cbq Hc x g e' a e' Hx Hd Hl I L E).
  Qed.
End TypeLeaves.
