(* Every value returned by a call of Rule.Inflected is f of that call's argument, under every
   schedule; and no reachable state is a deadlock. *)
Require Import Gengo.Base.Bytes Gengo.Model.OnceCache.
From Coq Require Import PeanoNat.

Section CacheProofs.
  Variables key val : Type.
  Variable key_eqb : key -> key -> bool.
  Hypothesis key_eqb_eq : forall a b, key_eqb a b = true -> a = b.
  Variable f : key -> val.
  Variable keys : nat -> key.

  Notation state := (state key val).
  Notation step := (step key val key_eqb f keys).
  Notation run := (run key val key_eqb f keys).
  Notation init := (init key val).

  (* The invariant, one clause per component of the state: what the condition of a closure means, given the phases
     [ph] of the calls ([cell_ok]), and what a call in a phase knows about its closure or its result ([phase_ok]). *)
  Definition cell_ok (ph : nat -> phase val) (c : nat) (x : cell val) : Prop :=
    match x with
    | Fresh => True
    | Running => exists t, ph t = InOnce c
    | Finished v => v = f (keys c)
    end.

  Definition phase_ok (t : nat) (p : phase val) : Prop :=
    match p with
    | Start => True
    | Loaded c | InOnce c => keys c = keys t
    | Done v => v = f (keys t)
    end.

  Record inv (st : state) : Prop := {
    inv_cache : forall k c, In (k, c) (cache _ _ st) -> keys c = k;
    inv_cell : forall c, cell_ok (phases _ _ st) c (cells _ _ st c);
    inv_phase : forall t, phase_ok t (phases _ _ st t)
  }.

  Lemma find_in : forall k m c, find key key_eqb k m = Some c -> In (k, c) m.
  Proof.
    induction m as [|[k' c'] m IH]; intros c H; [discriminate|].
    cbn in H. destruct (key_eqb k k') eqn:E; [|right; exact (IH c H)].
    left. inversion H. rewrite (key_eqb_eq _ _ E). reflexivity.
  Qed.

  Lemma upd_same : forall A (g : nat -> A) i a, upd g i a i = a.
  Proof. intros. unfold upd. rewrite Nat.eqb_refl. reflexivity. Qed.

  Lemma upd_other : forall A (g : nat -> A) i a j, j <> i -> upd g i a j = g j.
  Proof. intros A g i a j H. unfold upd. apply Nat.eqb_neq in H. rewrite H. reflexivity. Qed.

  Lemma inv_init : inv init.
  Proof. constructor; cbn; intros; [contradiction|exact I|exact I]. Qed.

  (* a closure is as it was when a call that is not running it moves on *)
  Lemma cell_ok_upd : forall st t p c, inv st -> phases _ _ st t <> InOnce c ->
    cell_ok (upd (phases _ _ st) t p) c (cells _ _ st c).
  Proof.
    intros st t p c I N. pose proof (inv_cell st I c) as H.
    destruct (cells _ _ st c) as [| |v]; [exact H| |exact H]. destruct H as [t' Ht']. exists t'.
    rewrite upd_other; [exact Ht'|]. intros ->. exact (N Ht').
  Qed.

  (* Every transition writes the phase of the stepping call and leaves the other calls alone: the
     invariant of the new state follows from what was written to the cache, to the cells and to that phase. *)
  Lemma inv_upd : forall st t ca cl p, inv st ->
    (forall k c, In (k, c) ca -> keys c = k) ->
    (forall c, cell_ok (upd (phases _ _ st) t p) c (cl c)) ->
    phase_ok t p ->
    inv (mk_state key val ca cl (upd (phases _ _ st) t p)).
  Proof.
    intros st t ca cl p I HC HE HP. constructor; cbn [cache cells phases]; [exact HC|exact HE|].
    intros t0. unfold upd. destruct (Nat.eqb_spec t0 t) as [->|_]; [exact HP|apply (inv_phase st I)].
  Qed.

  Lemma inv_step : forall st t, inv st -> inv (step st t).
  Proof.
    intros st t I. pose proof (inv_cache st I) as IC. pose proof (inv_phase st I t) as IP.
    unfold OnceCache.step. destruct (phases _ _ st t) as [|c|c|v] eqn:Ph; [| | |exact I].
    - (* Start: LoadOrStore *)
      destruct (find key key_eqb (keys t) (cache _ _ st)) as [c|] eqn:Fd; apply inv_upd; trivial.
      + intros c0. apply cell_ok_upd; congruence.
      + exact (IC _ _ (find_in _ _ _ Fd)).
      + intros k c0 [H|H]; [inversion H; reflexivity|exact (IC _ _ H)].
      + intros c0. apply cell_ok_upd; congruence.
      + reflexivity.
    - (* Loaded c: once.Do *)
      pose proof (inv_cell st I c) as IE.
      destruct (cells _ _ st c) as [| |v] eqn:Cl; [apply inv_upd; trivial|exact I|apply inv_upd; trivial].
      + intros c0. unfold upd at 2. destruct (Nat.eqb_spec c0 c) as [->|_];
          [exists t; apply upd_same|apply cell_ok_upd; congruence].
      + intros c0. apply cell_ok_upd; congruence.
      + cbn in IE, IP |- *. congruence.
    - (* InOnce c: f returns *)
      apply inv_upd; trivial.
      intros c0. unfold upd at 2. destruct (Nat.eqb_spec c0 c) as [->|N]; [reflexivity|apply cell_ok_upd; congruence].
  Qed.

  Lemma inv_run : forall sched st, inv st -> inv (run sched st).
  Proof.
    induction sched as [|t sched IH]; intros st I.
    - exact I.
    - cbn. apply IH. apply inv_step. exact I.
  Qed.

  (* every interleaving: whatever a call returns is f of its own argument *)
  Lemma cache_consistent : forall sched t v,
    phases _ _ (run sched init) t = Done v -> v = f (keys t).
  Proof.
    intros sched t v H. pose proof (inv_phase _ (inv_run sched init inv_init) t) as P.
    rewrite H in P. exact P.
  Qed.

  (* two calls with the same argument return the same value, whatever the interleaving *)
  Lemma cache_same_result : forall sched t1 t2 v1 v2,
    keys t1 = keys t2 ->
    phases _ _ (run sched init) t1 = Done v1 -> phases _ _ (run sched init) t2 = Done v2 -> v1 = v2.
  Proof.
    intros sched t1 t2 v1 v2 Hk H1 H2.
    rewrite (cache_consistent _ _ _ H1), (cache_consistent _ _ _ H2), Hk. reflexivity.
  Qed.

  Lemma run_app : forall a b st, run (a ++ b) st = run b (run a st).
  Proof. intros. unfold OnceCache.run. apply fold_left_app. Qed.

  Lemma step_start : forall st t, phases _ _ st t = Start -> exists c, phases _ _ (step st t) t = Loaded c.
  Proof.
    intros st t Ph. unfold OnceCache.step. rewrite Ph.
    destruct (find key key_eqb (keys t) (cache _ _ st)); cbn [phases]; rewrite upd_same; eexists; reflexivity.
  Qed.

  Lemma step_loaded_fresh : forall st t c, phases _ _ st t = Loaded c -> cells _ _ st c = Fresh ->
    phases _ _ (step st t) t = InOnce c.
  Proof. intros st t c Ph Cl. unfold OnceCache.step. rewrite Ph, Cl. apply upd_same. Qed.

  Lemma step_loaded_finished : forall st t c v, phases _ _ st t = Loaded c -> cells _ _ st c = Finished v ->
    phases _ _ (step st t) t = Done v.
  Proof. intros st t c v Ph Cl. unfold OnceCache.step. rewrite Ph, Cl. apply upd_same. Qed.

  Lemma step_inonce : forall st t c, phases _ _ st t = InOnce c ->
    cells _ _ (step st t) c = Finished (f (keys c)) /\ phases _ _ (step st t) t = Loaded c
    /\ forall t', t' <> t -> phases _ _ (step st t) t' = phases _ _ st t'.
  Proof.
    intros st t c Ph. unfold OnceCache.step. rewrite Ph. cbn [cells phases].
    split; [apply upd_same|]. split; [apply upd_same|]. intros t' N. apply upd_other. exact N.
  Qed.

  (* a call that holds a closure returns after at most three further steps: its own, or one of the
     call that is running the closure and one of its own *)
  Lemma loaded_can_finish : forall st t c, inv st -> phases _ _ st t = Loaded c ->
    exists more v, length more <= 3 /\ phases _ _ (run more st) t = Done v.
  Proof.
    intros st t c I Ph. destruct (cells _ _ st c) as [| |v] eqn:Cl.
    - pose proof (step_loaded_fresh st t c Ph Cl) as P1.
      destruct (step_inonce _ t c P1) as [C2 [P2 _]].
      exists [t; t; t], (f (keys c)). split; [cbn; lia|]. exact (step_loaded_finished _ t c _ P2 C2).
    - pose proof (inv_cell st I c) as R. rewrite Cl in R. destruct R as [t' Ht']. destruct (step_inonce st t' c Ht') as [C1 [_ P1]].
      exists [t'; t], (f (keys c)). split; [cbn; lia|]. apply (step_loaded_finished _ t c); [|exact C1].
      rewrite P1; [exact Ph|]. intros ->. rewrite Ph in Ht'. discriminate.
    - exists [t], v. split; [cbn; lia|]. exact (step_loaded_finished st t c v Ph Cl).
  Qed.

  (* no deadlock: from every reachable state, every call can be driven to its return by at most
     four further atomic steps *)
  Lemma cache_can_finish : forall sched t,
    exists more v, length more <= 4 /\ phases _ _ (run (sched ++ more) init) t = Done v.
  Proof.
    intros sched t. pose proof (inv_run sched init inv_init) as I. set (st := run sched init) in *.
    assert (K : forall c, phases _ _ (step st t) t = Loaded c ->
              exists more v, length more <= 4 /\ phases _ _ (run (sched ++ more) init) t = Done v).
    { intros c Hc. destruct (loaded_can_finish _ t c (inv_step st t I) Hc) as [more [v [Hl Hv]]].
      exists (t :: more), v. split; [cbn; lia|]. rewrite run_app. exact Hv. }
    destruct (phases _ _ st t) as [|c|c|v] eqn:Ph.
    - destruct (step_start st t Ph) as [c Hc]. exact (K c Hc).
    - destruct (loaded_can_finish st t c I Ph) as [more [v [Hl Hv]]].
      exists more, v. split; [lia|]. rewrite run_app. exact Hv.
    - exact (K c (proj1 (proj2 (step_inonce st t c Ph)))).
    - exists [], v. split; [cbn; lia|]. rewrite app_nil_r. exact Ph.
  Qed.
End CacheProofs.

(* The cache of Rule.Inflected: keys are Go strings, f is Rule.inflected of the rule. *)
Require Import Gengo.Model.Inflector Gengo.Model.InflectorApi Gengo.Proofs.Inflector.

Lemma bytes_eqb_eq : forall a b, bytes_eqb a b = true -> a = b.
Proof. intros a b H. apply bytes_eqb_spec. exact H. Qed.

(* calls from any number of goroutines, any interleaving: a call that has returned has returned
   exactly what the sequential function gives on its argument, and that is a value, not a panic *)
Lemma concurrent_api : forall plural suffix (keys : nat -> bytes) sched t v,
  phases _ _ (run bytes (res bytes) bytes_eqb (api true plural suffix) keys sched (init _ _)) t = Done v ->
  exists r, v = Ok r /\ api true plural suffix (keys t) = Ok r.
Proof.
  intros plural suffix keys sched t v H.
  pose proof (cache_consistent bytes (res bytes) bytes_eqb bytes_eqb_eq (api true plural suffix) keys sched t v H) as E.
  destruct (api_total plural suffix (keys t)) as [r Hr].
  exists r. split; [rewrite E; exact Hr|exact Hr].
Qed.
