(* C18 — non-vacuity witnesses for C18_types (Props/C18.v) and for the transfer theorem C18_copy_unshared with a
   CONCRETE [rec_spec] / [callees_as_ok]: an origin struct with eight fields — scalar, omitted slice, slice, map of a
   foreign scalar, foreign named, replaced struct field, error, same-package interface — whose replacement type Y is a
   struct with a slice and a map of its own, copied by a DeepCopyIntoAs method that is executed (C17's exec_into), not
   assumed. *)
Require Import Gengo.Base.Bytes.
Require Import Gengo.Model.Generators.
Require Import Gengo.Proofs.Generators.
From Coq Require Import Lia NArith.

(* 1. C18_types: the rendered field types denote the origin's types through the file's import block *)

Definition wt_time : bytes := bs "time".
Definition wt_lib : bytes := bs "example.com/m/lib".

(* the import block of the generated file: path -> the tracker's name (last segment), no clashes *)
Definition wt_imps : list (bytes * bytes) :=
  [(PP.w_origin, bs "origin"); (wt_time, bs "time"); (wt_lib, bs "lib")].

(* the origin struct: scalar, (omitted) slice, slice, map, foreign named, pointer to foreign named, replaced field,
   error, any, own-package type, nested containers, array *)
Definition wt_fields : list PS.field :=
  [ PS.mk_field (bs "A") (PS.TBasic (bs "int")) (of_string "json:""a""");
    PS.mk_field (bs "B") (PS.TSlice (PS.TBasic (bs "int"))) [];
    PS.mk_field (bs "S") (PS.TSlice (PS.TBasic (bs "string"))) [];
    PS.mk_field (bs "M") (PS.TMap (PS.TBasic (bs "string")) (PS.TNamed wt_lib (bs "Code") PS.UOther [])) [];
    PS.mk_field (bs "C") (PS.TMap (PS.TBasic (bs "string")) (PS.TSlice (PS.TPtr (PS.TNamed PP.w_origin (bs "Inner") PS.UStruct [])))) [];
    PS.mk_field (bs "D") (PS.TNamed wt_time (bs "Duration") PS.UOther []) [];
    PS.mk_field (bs "P") (PS.TPtr (PS.TNamed wt_time (bs "Time") PS.UStruct [])) [];
    PS.mk_field (bs "R") (PS.TArray 4 (PS.TNamed wt_lib (bs "Code") PS.UOther [])) [];
    PS.mk_field (bs "I") (PS.TNamed PP.w_origin (bs "Inner") PS.UStruct []) [];
    PS.mk_field (bs "E") PS.TError [];
    PS.mk_field (bs "G") PS.TAny [];
    PS.mk_field (bs "N") (PS.TNamed PP.w_target (bs "LIface") PS.UIface []) [] ].

Definition wt_ti : PS.tinput :=
  PS.mk_tinput (bs "x") true [(bs "x", PS.RSel (Some (PP.w_origin, bs "T")))] (Some wt_fields) [bs "B"] [bs "I:Y"].

Lemma wt_imps_ok :
  (forall p n, In (p, n) wt_imps -> n = PS.last_segment p) /\ NoDup (map snd wt_imps).
Proof.
  split.
  - assert (Hb : forallb (fun q => bytes_eqb (snd q) (PS.last_segment (fst q))) wt_imps = true) by (vm_compute; reflexivity).
    intros p n H. rewrite forallb_forall in Hb. apply bytes_eqb_spec. exact (Hb (p, n) H).
  - apply Order.nodup_bytes_NoDup. reflexivity.
Qed.

(* PP.imported, decided *)
Definition imported_b (L : bytes -> bytes) (target : bytes) (imps : list (bytes * bytes)) (t : PS.ty) : bool :=
  forallb (fun p => bytes_eqb p target || existsb (fun q => bytes_eqb (fst q) p && bytes_eqb (snd q) (L p)) imps)
          (PS.ty_pkgs t).

Lemma imported_b_sound : forall L target imps t, imported_b L target imps t = true -> PP.imported L target imps t.
Proof.
  intros L target imps t H p Hp Hne. unfold imported_b in H. rewrite forallb_forall in H. specialize (H p Hp).
  rewrite Hne in H. apply existsb_exists in H. destruct H as [[q n] [Hin Hq]].
  apply andb_true_iff in Hq. destruct Hq as [H1 H2]. apply bytes_eqb_spec in H1, H2. cbn [fst snd] in H1, H2.
  subst q n. exact Hin.
Qed.

Lemma wt_types_hyps : forall f, In f wt_fields ->
  (PS.fx_errlit PS.all_fixed = true \/ PP.no_error (PS.f_ty f) = true) /\
  PS.has_iface_lit (PS.f_ty f) = false /\
  PP.imported PS.last_segment PP.w_target wt_imps (PS.f_ty f).
Proof.
  assert (Hb : forallb (fun f => negb (PS.has_iface_lit (PS.f_ty f)) &&
                                 imported_b PS.last_segment PP.w_target wt_imps (PS.f_ty f)) wt_fields = true)
    by (vm_compute; reflexivity).
  intros f Hin. rewrite forallb_forall in Hb. specialize (Hb f Hin). apply andb_true_iff in Hb. destruct Hb as [Hi Hm].
  split; [left; reflexivity|]. split; [apply negb_true_iff; exact Hi|apply imported_b_sound; exact Hm].
Qed.

(* the theorem, instantiated on every field type of the origin *)
Lemma wt_types_denote : forall f, In f wt_fields ->
  PS.denotes wt_imps PP.w_target (fst (PS.type_lit PS.last_segment PP.w_target PS.all_fixed (PS.f_ty f))) (PS.f_ty f) = true.
Proof.
  intros f Hin. destruct (wt_types_hyps f Hin) as (He & Hi & Hm).
  exact (PP.type_lit_denotes PS.last_segment PP.w_target PS.all_fixed wt_imps (proj2 wt_imps_ok)
           (PS.f_ty f) He Hi Hm).
Qed.

(* what was generated: the omitted field is gone, the replaced one has the replacement type, the others are rendered
   with the import names, and the imports registered are the foreign packages mentioned *)
Definition wt_g : PS.gtype :=
  PS.mk_gtype (bs "X") (PS.OSel (bs "origin") (bs "T"))
    [ PS.mk_gfield (bs "A") (PS.OIdent (bs "int")) (of_string "json:""a""");
      PS.mk_gfield (bs "S") (PS.OSlice (PS.OIdent (bs "string"))) [];
      PS.mk_gfield (bs "M") (PS.OMap (PS.OIdent (bs "string")) (PS.OSel (bs "lib") (bs "Code"))) [];
      PS.mk_gfield (bs "C") (PS.OMap (PS.OIdent (bs "string")) (PS.OSlice (PS.OPtr (PS.OSel (bs "origin") (bs "Inner"))))) [];
      PS.mk_gfield (bs "D") (PS.OSel (bs "time") (bs "Duration")) [];
      PS.mk_gfield (bs "P") (PS.OPtr (PS.OSel (bs "time") (bs "Time"))) [];
      PS.mk_gfield (bs "R") (PS.OArray 4 (PS.OSel (bs "lib") (bs "Code"))) [];
      PS.mk_gfield (bs "I") (PS.OText (bs "Y")) [];
      PS.mk_gfield (bs "E") (PS.OIdent (bs "error")) [];
      PS.mk_gfield (bs "G") (PS.OIdent (bs "any")) [];
      PS.mk_gfield (bs "N") (PS.OIdent (bs "LIface")) [] ]
    [ PS.SAssign (bs "A");
      PS.SCopySlice (bs "S") (PS.OSlice (PS.OIdent (bs "string")));
      PS.SCopyMap (bs "M") (PS.OMap (PS.OIdent (bs "string")) (PS.OSel (bs "lib") (bs "Code")));
      PS.SCopyMap (bs "C") (PS.OMap (PS.OIdent (bs "string")) (PS.OSlice (PS.OPtr (PS.OSel (bs "origin") (bs "Inner")))));
      PS.SAssign (bs "D"); PS.SAssign (bs "P"); PS.SAssign (bs "R");
      PS.SCallInto (bs "I") (bs "DeepCopyIntoAs");
      PS.SAssign (bs "E"); PS.SAssign (bs "G"); PS.SAssign (bs "N") ].

Lemma wt_generated :
  PS.generate_type PS.last_segment PP.w_target PS.all_fixed wt_ti =
  PS.TGen wt_g [wt_lib; PP.w_origin; wt_time; wt_time; wt_lib; PP.w_origin; wt_lib; PP.w_origin].
Proof. vm_compute. reflexivity. Qed.

(* every rendered field type of the generated struct that was not replaced denotes the origin field's type *)
Lemma wt_generated_fields_denote :
  forallb (fun f => match find (fun gf => bytes_eqb (PS.gf_name gf) (PS.f_name f)) (PS.g_fields wt_g) with
                    | Some gf => bytes_eqb (PS.f_name f) (bs "I") || PS.denotes wt_imps PP.w_target (PS.gf_ty gf) (PS.f_ty f)
                    | None => bytes_eqb (PS.f_name f) (bs "B")
                    end) wt_fields = true.
Proof. vm_compute. reflexivity. Qed.

(* 2. C18_copy_unshared with concrete rec_spec / callees_as_ok *)

(* the origin (fields inside the common domain of the two models of the copy helper): scalar, omitted slice, slice, map
   of a foreign scalar, foreign named, struct replaced by Y, error, same-package interface *)
Definition wh_fields : list PS.field :=
  [ PS.mk_field (bs "A") (PS.TBasic (bs "int")) [];
    PS.mk_field (bs "B") (PS.TSlice (PS.TBasic (bs "int"))) [];
    PS.mk_field (bs "S") (PS.TSlice (PS.TBasic (bs "string"))) [];
    PS.mk_field (bs "M") (PS.TMap (PS.TBasic (bs "string")) (PS.TNamed wt_lib (bs "Code") PS.UOther [])) [];
    PS.mk_field (bs "D") (PS.TNamed wt_time (bs "Duration") PS.UOther []) [];
    PS.mk_field (bs "I") (PS.TNamed PP.w_origin (bs "Inner") PS.UStruct []) [];
    PS.mk_field (bs "E") PS.TError [];
    PS.mk_field (bs "N") (PS.TNamed PP.w_target (bs "LIface") PS.UIface []) [] ].
Definition wh_ti : PS.tinput :=
  PS.mk_tinput (bs "x") true [(bs "x", PS.RSel (Some (PP.w_origin, bs "T")))] (Some wh_fields) [bs "B"] [bs "I:Y"].
Definition wh_repl := PS.replace_map (PS.ti_replace wh_ti) [].

Definition wh_g : PS.gtype :=
  PS.mk_gtype (bs "X") (PS.OSel (bs "origin") (bs "T"))
    [ PS.mk_gfield (bs "A") (PS.OIdent (bs "int")) [];
      PS.mk_gfield (bs "S") (PS.OSlice (PS.OIdent (bs "string"))) [];
      PS.mk_gfield (bs "M") (PS.OMap (PS.OIdent (bs "string")) (PS.OSel (bs "lib") (bs "Code"))) [];
      PS.mk_gfield (bs "D") (PS.OSel (bs "time") (bs "Duration")) [];
      PS.mk_gfield (bs "I") (PS.OText (bs "Y")) [];
      PS.mk_gfield (bs "E") (PS.OIdent (bs "error")) [];
      PS.mk_gfield (bs "N") (PS.OIdent (bs "LIface")) [] ]
    [ PS.SAssign (bs "A");
      PS.SCopySlice (bs "S") (PS.OSlice (PS.OIdent (bs "string")));
      PS.SCopyMap (bs "M") (PS.OMap (PS.OIdent (bs "string")) (PS.OSel (bs "lib") (bs "Code")));
      PS.SAssign (bs "D");
      PS.SCallInto (bs "I") (bs "DeepCopyIntoAs");
      PS.SAssign (bs "E"); PS.SAssign (bs "N") ].

(* the generated struct X in C17's terms, the replacement type Y — a struct with containers of its own —, the interface *)
Definition wh_cfs : list (bytes * DC.fty) :=
  [ (bs "A", DC.FBasic (bs "int")); (bs "S", DC.FSlice (DC.EBasic (bs "string")));
    (bs "M", DC.FMap (bs "string") (DC.EForeign (bs "lib") (bs "Code")));
    (bs "D", DC.FForeign []);
    (bs "I", DC.FNamed (bs "Y") []); (bs "E", DC.FError); (bs "N", DC.FNamed (bs "LIface") []) ].
Definition wh_yfs : list (bytes * DC.fty) :=
  [ (bs "P", DC.FSlice (DC.EBasic (bs "int"))); (bs "Q", DC.FBasic (bs "int"));
    (bs "K", DC.FMap (bs "string") (DC.EBasic (bs "int"))) ].
Definition wh_G : DC.pkg :=
  DC.mk_pkg false
    [ DC.mk_decl (bs "X") (DC.DStruct [] wh_cfs) false None [];
      DC.mk_decl (bs "Y") (DC.DStruct [] wh_yfs) false None [];
      DC.mk_decl (bs "LIface") DC.DIface false None [] ].

(* the methods that exist: Y's DeepCopyIntoAs, with the body the copy helper gives for Y's fields *)
Definition wh_ybody : list DC.stmt :=
  [ DC.SCopySlice (bs "P") (bs "[]int"); DC.SAssign (bs "Q"); DC.SCopyMap (bs "K") (bs "map[string]int") ].
Definition wh_ms : list DC.method := [DC.MPtrInto (bs "Y") [] wh_ybody].

Lemma wh_generated :
  PS.generate_type PS.last_segment PP.w_target PS.all_fixed wh_ti = PS.TGen wh_g [wt_lib; wt_time; PP.w_origin; wt_lib] /\
  fields17 PS.last_segment PP.w_target PS.all_fixed wh_repl (filter (keep (PS.ti_omit wh_ti)) wh_fields) = Some wh_cfs /\
  DC.lookup wh_G (PS.g_name wh_g) = Some (DC.mk_decl (bs "X") (DC.DStruct [] wh_cfs) false None []).
Proof. split; [vm_compute; reflexivity|]. split; vm_compute; reflexivity. Qed.

Lemma wh_agrees : forall f, In f wh_fields -> keep (PS.ti_omit wh_ti) f = true ->
  agrees_field PP.w_target wh_G wh_repl f.
Proof.
  intros f Hin Hk. unfold wh_fields in Hin. cbn [In] in Hin.
  repeat (destruct Hin as [<-|Hin]; [try (vm_compute in Hk; discriminate)|]); try contradiction; try exact I.
  - unfold agrees_field. vm_compute. eexists. split; [reflexivity|]. split; [right; eauto|reflexivity].
  - unfold agrees_field. cbn. intros _. split; [|reflexivity]. vm_compute. eexists. split; [reflexivity|]. split; [exact I|reflexivity].
Qed.

Lemma wh_dom : PDS.dom wh_G.
Proof. apply Gengo.Proofs.DeepCopyTop.dom_b_sound. vm_compute. reflexivity. Qed.

Lemma wh_callees_ok : PDS.callees_ok wh_G wh_ms.
Proof.
  intros n body H. cbn [wh_ms DC.find_into] in H.
  destruct (bytes_eqb (bs "Y") n) eqn:E; [|discriminate]. apply bytes_eqb_spec in E. subst n.
  inversion H; subst body. eexists. split; [vm_compute; reflexivity|]. right.
  exists [], wh_yfs, []. split; [reflexivity|]. split; [vm_compute; reflexivity|].
  intros f c args Hin. unfold wh_yfs in Hin. cbn [In] in Hin. repeat (destruct Hin as [Hin|Hin]; [discriminate Hin|]). contradiction.
Qed.

(* [rec_spec] holds of the EXECUTED methods, for every call-depth bound *)
Lemma wh_rec_spec : forall fuel, PDS.rec_spec wh_G wh_ms (DC.exec_into fuel wh_G wh_ms) fuel.
Proof. exact (PDS.exec_into_spec wh_G wh_ms wh_dom wh_callees_ok). Qed.

Lemma wh_callees_as_ok : callees_as_ok wh_G wh_ms wh_cfs.
Proof.
  intros f c0 args Hin. unfold wh_cfs in Hin. cbn [In] in Hin.
  repeat (destruct Hin as [Hin|Hin]; [try discriminate Hin; injection Hin as <- <- <-|]); try contradiction.
  - split; [intros Hm; vm_compute in Hm; discriminate|]. intros dc _ _. vm_compute. discriminate.
  - split; [intros Hm; vm_compute in Hm; discriminate|]. intros dc Hdc Hk. vm_compute in Hdc. inversion Hdc; subst dc.
    destruct Hk as [Hk|[tp [fs Hk]]]; discriminate.
Qed.

(* the theorem, instantiated: every heap, every well-typed value of X *)
Lemma wh_transfer : forall fuel h,
  deep_copy_as_heap (DC.exec_into fuel wh_G wh_ms) wh_G wh_ms wh_g None h = Ok (None, h) /\
  forall fin, PDS.wt_fields wh_G h wh_cfs fin -> PDS.depth_fields fin < fuel ->
    unshared_copy (DC.exec_into fuel wh_G wh_ms) wh_G wh_ms wh_g h fin.
Proof.
  intros fuel.
  exact (copy_as_transfer PS.last_segment PP.w_target PS.all_fixed wh_ti wh_g _ wh_fields wh_G wh_ms
           (DC.exec_into fuel wh_G wh_ms) fuel wh_cfs _ []
           (proj1 wh_generated) eq_refl (proj1 (proj2 wh_generated)) wh_agrees wh_dom
           (proj2 (proj2 wh_generated)) eq_refl (wh_rec_spec fuel) wh_callees_as_ok).
Qed.

(* a value: filled slice and map in X, filled slice and map inside the replaced struct *)
Definition wh_heap : DC.heap := [DC.CSlice [1; 2]%N; DC.CMap [(3, 4)]%N; DC.CSlice [9; 8; 7]%N; DC.CMap [(5, 6)]%N].
Definition wh_fin : list (bytes * DC.value) :=
  [ (bs "A", DC.VScalar 7); (bs "S", DC.VSlice (Some 0)); (bs "M", DC.VMap (Some 1)); (bs "D", DC.VScalar 3600);
    (bs "I", DC.VStruct [(bs "P", DC.VSlice (Some 2)); (bs "Q", DC.VScalar 5); (bs "K", DC.VMap (Some 3))]);
    (bs "E", DC.VIface 5); (bs "N", DC.VIface 6) ].

Lemma wh_fin_typed : PDS.wt_fields wh_G wh_heap wh_cfs wh_fin /\ PDS.depth_fields wh_fin < 3.
Proof. split; [vm_compute; repeat split; eauto|vm_compute; lia]. Qed.

Lemma wh_instance :
  exists fout t,
    deep_copy_as_heap (DC.exec_into 3 wh_G wh_ms) wh_G wh_ms wh_g (Some wh_fin) wh_heap
      = Ok (Some (DC.VStruct fout), wh_heap ++ t) /\
    DC.snapshot (wh_heap ++ t) (DC.VStruct fout) = DC.snapshot wh_heap (DC.VStruct wh_fin) /\
    (forall a, In a (DC.locs (DC.VStruct fout)) -> List.length wh_heap <= a < List.length (wh_heap ++ t)) /\
    (forall a cell, In a (DC.locs (DC.VStruct fout)) ->
       DC.snapshot (DC.write (wh_heap ++ t) a cell) (DC.VStruct wh_fin) = DC.snapshot wh_heap (DC.VStruct wh_fin)).
Proof. exact (proj2 (wh_transfer 3 wh_heap) wh_fin (proj1 wh_fin_typed) (proj2 wh_fin_typed)). Qed.

(* and computed: nil gives nil; four fresh cells (4..7), two of them inside the replaced struct; a write through the
   copy's inner map leaves the original as it was, while the same write through the ORIGINAL's cell does not *)
Lemma wh_computed :
  deep_copy_as_heap (DC.exec_into 3 wh_G wh_ms) wh_G wh_ms wh_g None wh_heap = Ok (None, wh_heap) /\
  match deep_copy_as_heap (DC.exec_into 3 wh_G wh_ms) wh_G wh_ms wh_g (Some wh_fin) wh_heap with
  | Ok (Some v', h') =>
      DC.snapshot h' v' = DC.snapshot wh_heap (DC.VStruct wh_fin) /\ DC.locs v' = [4; 5; 6; 7] /\ List.length h' = 8 /\
      DC.snapshot (DC.write h' 7 (DC.CMap [])) (DC.VStruct wh_fin) = DC.snapshot wh_heap (DC.VStruct wh_fin) /\
      DC.snapshot (DC.write h' 3 (DC.CMap [])) (DC.VStruct wh_fin) <> DC.snapshot wh_heap (DC.VStruct wh_fin)
  | _ => False
  end.
Proof. split; [reflexivity|]. vm_compute. repeat split. discriminate. Qed.
