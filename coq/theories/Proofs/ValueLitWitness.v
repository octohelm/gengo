(* C10 — non-vacuity witnesses for the round-trip theorem:
     A. a decimal-float instance of the external float components whose [fbig] is not constant
        (scientific notation exactly when |x| >= 1e21; clause 5 of the hypotheses is not vacuous),
     B. a quote function that really escapes, with its injectivity,
     C. concrete nested values (with and without floats): in the domain and well typed (Props/C10.v instantiates
        the main theorem on them and computes the literal text),
     D. the harness's float record [fl] with a finite table of real strconv data. *)
Require Import Gengo.Base.Bytes Gengo.Model.ValueLit Gengo.Model.ValueLitSpec Gengo.Model.ValueLitInst
               Gengo.Proofs.ValueLitBase Gengo.Proofs.ValueLit.
From Coq Require Import ZArith DecimalString DecimalZ Permutation.

Definition not_e (c : ascii) : Prop := c <> "e"%char.

Lemma uint_no_e : forall d, Forall not_e (of_string (NilEmpty.string_of_uint d)).
Proof. induction d; cbn; constructor; try assumption; intros H; discriminate H. Qed.

Lemma zuint_no_e : forall d, Forall not_e (of_string (NilZero.string_of_uint d)).
Proof.
  intros d. unfold NilZero.string_of_uint. destruct d; try apply uint_no_e.
  cbn. constructor; [intros H; discriminate H | constructor].
Qed.

Lemma int_no_e : forall i, Forall not_e (of_string (NilZero.string_of_int i)).
Proof.
  intros [d|d]; cbn [NilZero.string_of_int of_string].
  - apply zuint_no_e.
  - constructor; [intros H; discriminate H | apply zuint_no_e].
Qed.

Lemma dec_no_e : forall z, Forall not_e (dec z).
Proof. intros z. unfold dec. apply int_no_e. Qed.

Lemma parse_int_no_e : forall s z, parse_int s = Some z -> Forall not_e s.
Proof.
  unfold parse_int. intros s z H.
  destruct (NilZero.int_of_string (to_string s)) as [i|] eqn:E; [|discriminate].
  apply NilZero.sis in E. rewrite <- (of_to_string s), <- E. apply int_no_e.
Qed.

Lemma parse_int_e : forall a b, parse_int (a ++ "e"%char :: b) = None.
Proof.
  intros a b. destruct (parse_int (a ++ "e"%char :: b)) as [z|] eqn:E; [|reflexivity].
  apply parse_int_no_e in E. apply Forall_app in E. destruct E as [_ E].
  destruct (Forall_inv E eq_refl).
Qed.

(* (m, e) stands for m * 10^e *)
Definition df : Type := (Z * nat)%type.
Definition d_val (x : df) : Z := (fst x * 10 ^ Z.of_nat (snd x))%Z.

Definition d_fzero (x : df) : bool := (d_val x =? 0)%Z.
Definition d_fbig (x : df) : bool := (10 ^ 21 <=? Z.abs (d_val x))%Z.
(* 'f' format of an integer-valued float: all the digits *)
Definition d_ffmt (_ : fkind) (x : df) : bytes := dec (d_val x).
(* 'g' format: scientific notation exactly from 1e21 on *)
Definition d_gfmt (_ : fkind) (x : df) : bytes :=
  if d_fbig x then dec (fst x) ++ bs "e+" ++ dec_nat (snd x) else dec (d_val x).

(* split at the first 'e' *)
Fixpoint split_e (s : bytes) : option (bytes * bytes) :=
  match s with
  | [] => None
  | c :: r => if Ascii.eqb c "e"%char then Some ([], r)
              else match split_e r with Some (a, b) => Some (c :: a, b) | None => None end
  end.

(* INT, or INT "e+" INT *)
Definition d_fparse (_ : fkind) (s : bytes) : option df :=
  match parse_int s with
  | Some z => Some (z, 0)
  | None =>
      match split_e s with
      | Some (a, c :: b) =>
          if Ascii.eqb c "+"%char then
            match parse_int a, parse_int b with
            | Some m, Some e => Some (m, Z.to_nat e)
            | _, _ => None
            end
          else None
      | _ => None
      end
  end.

Definition d_f0 : df := (0%Z, 0).

(* a finite value of the type: bounded mantissa, exponent and magnitude *)
Definition d_frepb (k : fkind) (x : df) : bool :=
  match k with
  | KF64 => (Z.abs (fst x) <? 2 ^ 53)%Z && Nat.leb (snd x) 308 && (Z.abs (d_val x) <? 2 ^ 1024)%Z
  | KF32 => (Z.abs (fst x) <? 2 ^ 24)%Z && Nat.leb (snd x) 38 && (Z.abs (d_val x) <? 2 ^ 128)%Z
  end.
Definition d_frep (k : fkind) (x : df) : Prop := d_frepb k x = true.
Definition d_feq (x y : df) : Prop := d_val x = d_val y.

Lemma split_e_app : forall a b, Forall not_e a -> split_e (a ++ "e"%char :: b) = Some (a, b).
Proof.
  induction a as [|c a IH]; intros b H; [reflexivity|].
  apply Forall_cons_iff in H. destruct H as [Hc Ha]. cbn [app split_e].
  destruct (Ascii.eqb c "e"%char) eqn:E; [apply Ascii.eqb_eq in E; contradiction|].
  now rewrite (IH b Ha).
Qed.

Lemma d_fparse_int : forall k z, d_fparse k (dec z) = Some (z, 0).
Proof. intros k z. unfold d_fparse. now rewrite parse_int_dec. Qed.

Lemma d_fparse_sci : forall k m e, d_fparse k (dec m ++ bs "e+" ++ dec_nat e) = Some (m, e).
Proof.
  intros k m e. unfold d_fparse. change (bs "e+" ++ dec_nat e) with ("e"%char :: "+"%char :: dec_nat e).
  rewrite parse_int_e, (split_e_app _ _ (dec_no_e m)). cbn [Ascii.eqb Bool.eqb].
  unfold dec_nat. rewrite !parse_int_dec. now rewrite Nat2Z.id.
Qed.

Lemma d_feq_int : forall x, d_feq x (d_val x, 0).
Proof. intros x. unfold d_feq, d_val. cbn [fst snd Z.of_nat]. now rewrite Z.pow_0_r, Z.mul_1_r. Qed.

Lemma d_instance :
  (forall x, d_fzero x = true -> d_feq x d_f0) /\
  (forall k x, d_frep k x -> exists y, d_fparse k (d_ffmt k x) = Some y /\ d_feq x y) /\
  (forall k x, d_frep k x -> exists y, d_fparse k (d_gfmt k x) = Some y /\ d_feq x y) /\
  (forall k x z, d_frep k x -> d_fbig x = false -> parse_int (d_ffmt k x) = Some z -> int_const_ok z = true) /\
  (forall k x, d_frep k x -> d_fbig x = true -> parse_int (d_gfmt k x) = None).
Proof.
  repeat match goal with |- _ /\ _ => split end.
  - intros x H. unfold d_fzero in H. apply Z.eqb_eq in H. unfold d_feq. rewrite H. reflexivity.
  - intros k x _. exists (d_val x, 0). split; [apply d_fparse_int | apply d_feq_int].
  - intros k [m e] _. unfold d_gfmt. destruct (d_fbig (m, e)).
    + exists (m, e). split; [apply d_fparse_sci | reflexivity].
    + exists (d_val (m, e), 0). split; [apply d_fparse_int | apply d_feq_int].
  - intros k x z _ Hb H. unfold d_ffmt in H. rewrite parse_int_dec in H. injection H as <-.
    unfold int_const_ok. apply Z.ltb_lt. unfold d_fbig in Hb. apply Z.leb_gt in Hb.
    eapply Z.lt_trans; [exact Hb | vm_compute; reflexivity].
  - intros k [m e] _ Hb. unfold d_gfmt. rewrite Hb.
    change (bs "e+" ++ dec_nat e) with ("e"%char :: "+"%char :: dec_nat e). apply parse_int_e.
Qed.

(* 2e308 is no float64.  10^308 is not evaluated: 5^28 > 2^65, and 308 = 28 * 11, 1024 = 1 + 308 + 65 * 11 *)
Lemma d_frepb_2e308 : d_frepb KF64 (2%Z, 308) = false.
Proof.
  assert (H : (0 <= 2 ^ 65 <= 5 ^ 28)%Z) by (split; apply Z.leb_le; vm_compute; reflexivity).
  apply (Z.pow_le_mono_l _ _ 11) in H. rewrite <- !Z.pow_mul_r in H by discriminate.
  apply andb_false_intro2, Z.ltb_ge. apply Z.le_trans with (2 * 10 ^ 308)%Z; [|rewrite Z.abs_max; apply Z.le_max_l].
  change (10 ^ 308)%Z with ((2 * 5) ^ (28 * 11))%Z. rewrite Z.pow_mul_l.
  replace (2 ^ 1024)%Z with (2 * (2 ^ (28 * 11) * 2 ^ (65 * 11)))%Z
    by (rewrite <- Z.pow_add_r, <- Z.pow_succ_r by discriminate; reflexivity).
  apply Z.mul_le_mono_nonneg_l; [discriminate|].
  apply Z.mul_le_mono_nonneg_l; [apply Z.pow_nonneg; discriminate | exact H].
Qed.

Definition bsl : ascii := ascii_of_N 92.   (* backslash *)
Definition dq : ascii := ascii_of_N 34.    (* double quote *)

Definition esc (c : ascii) : bytes :=
  if Ascii.eqb c bsl then [bsl; bsl]
  else if Ascii.eqb c dq then [bsl; dq]
  else if Ascii.eqb c nl then [bsl; "n"%char]
  else [c].

Definition esc_quote (s : bytes) : bytes := dq :: concat (map esc s) ++ [dq].

Fixpoint unesc (s : bytes) : bytes :=
  match s with
  | [] => []
  | c :: r =>
      if Ascii.eqb c bsl then
        match r with
        | d :: r' => (if Ascii.eqb d "n"%char then nl else d) :: unesc r'
        | [] => []
        end
      else c :: unesc r
  end.

Lemma unesc_esc : forall s, unesc (concat (map esc s)) = s.
Proof.
  induction s as [|c s IH]; [reflexivity|].
  cbn [map concat]. unfold esc at 1.
  destruct (Ascii.eqb_spec c bsl) as [->|N]; [cbn; now rewrite IH|].
  destruct (Ascii.eqb_spec c dq) as [->|_]; [cbn; now rewrite IH|].
  destruct (Ascii.eqb_spec c nl) as [->|_]; [cbn; now rewrite IH|].
  cbn [app unesc]. rewrite (proj2 (Ascii.eqb_neq c bsl) N). now rewrite IH.
Qed.

Lemma esc_quote_inj : forall a b, esc_quote a = esc_quote b -> a = b.
Proof.
  intros a b H. unfold esc_quote in H. injection H as H. apply app_inj_tail in H. destruct H as [H _].
  rewrite <- (unesc_esc a), <- (unesc_esc b). now rewrite H.
Qed.

Lemma esc_quote_example :
  esc_quote ["a"%char; dq; bsl; nl] = ["""" ; "a"; "\"; """"; "\"; "\"; "\"; "n"; """"]%char.
Proof. vm_compute. reflexivity. Qed.

(* the main theorem at the instance A + B *)
Lemma d_roundtrip : forall local t (v : goval df), dom t -> typed d_frep t v ->
  exists l v', value_lit d_fzero d_ffmt d_gfmt d_fbig esc_quote local true false t v = Ok l /\
               denote d_fparse d_f0 t l = Some v' /\ deep_eq d_feq v v'.
Proof.
  destruct d_instance as (H1 & H2 & H3 & H4 & H5). intros local.
  exact (roundtrip_top d_fzero d_ffmt d_gfmt d_fbig d_fparse d_f0 esc_quote local d_frep d_feq
                       H1 H2 H3 H4 H5 esc_quote_inj).
Qed.

(* the example of Props/C10.v (no floats), for every float carrier *)

Definition wit_S : gotype :=
  TNamed (bs "m") (bs "S")
    (TStruct [(bs "Z", TPtr T_In); (bs "M", TMap TString T_In); (bs "P", TPtr TString);
              (bs "C", TPtr T_Color); (bs "L", TSlice (TInt KInt32))]).
Definition wit_v (F : Type) : goval F :=
  VStruct [VPtr (VStruct [VInt 0]);
           VMap false [(VStr (bs "b"), VStruct [VInt 0]); (VStr (bs "a"), VStruct [VInt 7])];
           VPtr (VStr (bs "x")); VPtr (VInt 3); VSlice false [VInt 97; VInt 39]].

Lemma wit_S_dom : dom wit_S.
Proof. unfold wit_S, T_In, T_Color. dom_tac. Qed.

Lemma wit_v_typed : forall (F : Type) (frep : fkind -> F -> Prop), typed frep wit_S (wit_v F).
Proof. intros F frep. unfold wit_S, wit_v. typed_tac. Qed.

Definition wit_T : gotype :=
  TNamed (bs "m") (bs "Rec")
    (TStruct [(bs "Rows", TSlice (TMap TString (TFloat KF64)));
              (bs "C", TPtr T_Color);
              (bs "K", T_Color);
              (bs "X", TFloat KF32);
              (bs "P", TPtr TString);
              (bs "Q", TPtr TString);
              (bs "Z0", TFloat KF64);
              (bs "In", T_In);
              (bs "A", TArray 2 (TFloat KF64))]).

(* say <quote>hi<quote><backslash><newline> *)
Definition wit_str : bytes := bs "say " ++ [dq] ++ bs "hi" ++ [dq; bsl; nl].
(* k<quote><backslash> *)
Definition wit_key : bytes := ["k"%char; dq; bsl].

Definition wit_fv : goval df :=
  VStruct [VSlice false [VMap false [(VStr (bs "big"), VFloat (15%Z, 20));          (* 1.5e21 *)
                                     (VStr wit_key, VFloat (42%Z, 1));               (* 420 *)
                                     (VStr (bs "zero"), VFloat (0%Z, 5))];           (* 0 *)
                         VMap false [];                                             (* empty map *)
                         VMap true []];                                             (* nil map *)
           VPtr (VInt 3);                                                           (* non-nil *Color *)
           VInt (-7);
           VFloat ((-1)%Z, 30);                                                     (* float32(-1e30) *)
           VPtr (VStr wit_str);
           VNilPtr;
           VFloat (0%Z, 3);                                                         (* zero: omitted *)
           VStruct [VInt 0];                                                        (* zero struct: omitted *)
           VArray [VFloat (1%Z, 21); VFloat ((-25)%Z, 19)]].                        (* 1e21 (big), -2.5e20 (not) *)

Lemma wit_T_dom : dom wit_T.
Proof. unfold wit_T, T_In, T_Color. dom_tac. Qed.

Lemma wit_fv_typed : typed d_frep wit_T wit_fv.
Proof. unfold wit_T, wit_fv. typed_tac. Qed.

Definition wit_local (p : bytes) : bytes := if bytes_eqb p (bs "m") then [] else p.

(* what the literal denotes: 420 comes back as (420, 0), 1.5e21 as (15, 20), the nil map as an empty one,
   the omitted fields as zero values *)
Definition wit_fv' : goval df :=
  VStruct [VSlice false [VMap false [(VStr (bs "big"), VFloat (15%Z, 20));
                                     (VStr wit_key, VFloat (420%Z, 0));
                                     (VStr (bs "zero"), VFloat (0%Z, 0))];
                         VMap false [];
                         VMap false []];
           VPtr (VInt 3);
           VInt (-7);
           VFloat ((-1)%Z, 30);
           VPtr (VStr wit_str);
           VNilPtr;
           VFloat (0%Z, 0);
           VStruct [VInt 0];
           VArray [VFloat (1%Z, 21); VFloat ((-250000000000000000000)%Z, 0)]].

Lemma wit_fv_deep_eq : deep_eq d_feq wit_fv wit_fv' /\ wit_fv <> wit_fv'.
Proof.
  split; [|intros H; discriminate H]. unfold wit_fv, wit_fv'.
  repeat first [progress cbn [fst snd] | eapply EMap; [apply Permutation_refl|] | constructor].
Qed.

Definition fl_mk (c f g : string) (big : bool) : fl := mk_fl (bs c) (bs f) (bs g) big.

(* FormatFloat(x,'g',-1,64), FormatFloat(x,'f',-1,64), 'g' again, |x| >= 1e21 *)
Definition fl_tab64 : list fl :=
  [fl_mk "1.5" "1.5" "1.5" false;
   fl_mk "1e+21" "1000000000000000000000" "1e+21" true;
   fl_mk "-3.5e+22" "-35000000000000000000000" "-3.5e+22" true;
   fl_mk "0" "0" "0" false;
   fl_mk "-0" "-0" "-0" false;
   fl_mk "100" "100" "100" false;
   fl_mk "2.5e-07" "0.00000025" "2.5e-07" false;
   fl_mk "1.23456789e+08" "123456789" "1.23456789e+08" false;
   fl_mk "9.99999999999999e+20" "999999999999999000000" "9.99999999999999e+20" false;
   mk_fl (bs "1.7976931348623157e+308") max_float64_f (bs "1.7976931348623157e+308") true].

(* the same with bit size 32 *)
Definition fl_tab32 : list fl :=
  [fl_mk "1.5" "1.5" "1.5" false;
   fl_mk "1e+21" "1000000000000000000000" "1e+21" true;
   fl_mk "0" "0" "0" false;
   fl_mk "-0" "-0" "-0" false;
   fl_mk "100" "100" "100" false;
   fl_mk "0.1" "0.1" "0.1" false;
   fl_mk "3.4028235e+38" "340282350000000000000000000000000000000" "3.4028235e+38" true].

Definition fl_frep (k : fkind) (x : fl) : Prop :=
  In x match k with KF64 => fl_tab64 | KF32 => fl_tab32 end.
Definition fl_feq (x y : fl) : Prop := i_feqb x y = true.

(* ParseFloat of every text above, per bit size: the canonical text of the value it denotes *)
Definition fl_ptab : list (bytes * bytes) :=
  flat_map (fun x => [(ftag KF64 ++ fl_f x, fl_canon x); (ftag KF64 ++ fl_g x, fl_canon x)]) fl_tab64 ++
  flat_map (fun x => [(ftag KF32 ++ fl_f x, fl_canon x); (ftag KF32 ++ fl_g x, fl_canon x)]) fl_tab32.

(* the clauses of the hypotheses on the external components that speak of one value x of bit size k, decided *)
Definition fl_row_ok (ptab : list (bytes * bytes)) (k : fkind) (x : fl) : bool :=
  let back s := match i_fparse ptab k s with Some y => i_feqb x y | None => false end in
  back (fl_f x) && back (fl_g x) &&
  (if fl_big x then match parse_int (fl_g x) with None => true | Some _ => false end
   else match parse_int (fl_f x) with Some z => int_const_ok z | None => true end).

Lemma fl_row_ok_spec : forall ptab k x, fl_row_ok ptab k x = true ->
  (exists y, i_fparse ptab k (i_ffmt k x) = Some y /\ fl_feq x y) /\
  (exists y, i_fparse ptab k (i_gfmt k x) = Some y /\ fl_feq x y) /\
  (forall z, i_fbig x = false -> parse_int (i_ffmt k x) = Some z -> int_const_ok z = true) /\
  (i_fbig x = true -> parse_int (i_gfmt k x) = None).
Proof.
  unfold fl_row_ok, i_ffmt, i_gfmt, i_fbig, fl_feq. intros ptab k x H.
  apply andb_prop in H as [H H3]. apply andb_prop in H as [H1 H2].
  repeat split.
  - destruct (i_fparse ptab k (fl_f x)) as [y|]; [eauto | discriminate].
  - destruct (i_fparse ptab k (fl_g x)) as [y|]; [eauto | discriminate].
  - intros z Hb Hp. now rewrite Hb, Hp in H3.
  - intros Hb. rewrite Hb in H3. destruct (parse_int (fl_g x)); [discriminate | reflexivity].
Qed.

Lemma fl_rows_ok : forall k x, fl_frep k x -> fl_row_ok fl_ptab k x = true.
Proof.
  intros k. apply forallb_forall. destruct k; vm_compute; reflexivity.
Qed.

Lemma fl_instance :
  (forall x, i_fzero x = true -> fl_feq x i_f0) /\
  (forall k x, fl_frep k x -> exists y, i_fparse fl_ptab k (i_ffmt k x) = Some y /\ fl_feq x y) /\
  (forall k x, fl_frep k x -> exists y, i_fparse fl_ptab k (i_gfmt k x) = Some y /\ fl_feq x y) /\
  (forall k x z, fl_frep k x -> i_fbig x = false -> parse_int (i_ffmt k x) = Some z -> int_const_ok z = true) /\
  (forall k x, fl_frep k x -> i_fbig x = true -> parse_int (i_gfmt k x) = None).
Proof.
  split.
  { intros x H. unfold i_fzero in H. unfold fl_feq, i_feqb. rewrite H. apply orb_true_r. }
  pose proof (fun k x H => fl_row_ok_spec fl_ptab k x (fl_rows_ok k x H)) as R.
  repeat split; intros k x; [| |intros z|]; intros H; destruct (R k x H) as (H2 & H3 & H4 & H5); auto.
Qed.

(* every row of the 64-bit table as a slice of float64, in the domain and well typed *)
Definition fl_slice : goval fl := VSlice false (map VFloat fl_tab64).

Lemma fl_slice_typed : typed fl_frep (TSlice (TFloat KF64)) fl_slice.
Proof.
  eapply TySlice; [reflexivity | | intros H; discriminate H].
  apply Forall_forall. intros v Hin. apply in_map_iff in Hin. destruct Hin as (x & <- & Hx).
  eapply TyFloat; [reflexivity | exact Hx].
Qed.
