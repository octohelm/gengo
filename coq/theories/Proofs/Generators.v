(* Agreement of the two models of devpkg/deepcopygen/helper/copy_fields.go (C17: Model/DeepCopy.v, C18:
   Model/GenPartialStruct.v) through the adapter of Model/Generators.v, and the transfer of C17's heap-level theorems
   to the DeepCopyAs / DeepCopyIntoAs bodies partialstruct generates.
   [callees_as_ok], DEFINED here (what the transfer needs of the methods a generated body calls), is a hypothesis of
   theorems in Props/C17.v and Props/C18.v. *)
Require Import Gengo.Base.Bytes.
Require Import Gengo.Model.Generators.
Require Gengo.Proofs.DeepCopy Gengo.Proofs.DeepCopySem Gengo.Proofs.DeepCopyTop Gengo.Proofs.GenPartialStruct.
From Coq Require Import Lia ZArith.

Module PDS := Gengo.Proofs.DeepCopySem.
Module PP := Gengo.Proofs.GenPartialStruct.

Lemma nat_eqb_N : forall n k, Nat.eqb (N.to_nat n) k = N.eqb n (N.of_nat k).
Proof.
  intros n k. destruct (N.eqb_spec n (N.of_nat k)) as [->|H]; [rewrite Nat2N.id; apply Nat.eqb_refl|]. apply Nat.eqb_neq. lia.
Qed.

Lemma scan_step_agree : forall name np nr p0 r0 a b ptr,
  DC.scan_step (a, b, ptr) (msig17 (name, np, nr, p0, r0)) =
  (let hc := bytes_eqb name PS.dc_name && N.eqb nr 1 && N.eqb np 0 in
   let hi := bytes_eqb name PS.dc_into_name && N.eqb np 1 && N.eqb nr 0 in
   let ptr1 := if hc then (if r0 then ptr else false) else ptr in
   let ptr2 := if hi then (if p0 then ptr1 else false) else ptr1 in
   (hc, hi, ptr2)).
Proof.
  intros. unfold msig17, DC.scan_step.
  destruct (bytes_eqb name PS.dc_name) eqn:E1; [|destruct (bytes_eqb name PS.dc_into_name) eqn:E2];
    cbn [DC.ms_name DC.ms_params DC.ms_results DC.ms_ptr]; rewrite !nat_eqb_N.
  - apply bytes_eqb_spec in E1. subst name. reflexivity.
  - apply bytes_eqb_spec in E2. subst name. reflexivity.
  - (* a name that starts with an underscore is neither DeepCopy nor DeepCopyInto *) reflexivity.
Qed.

Lemma scan_agree_from : forall ms st, fold_left DC.scan_step (map msig17 ms) st = PS.scan_methods ms st.
Proof.
  induction ms as [|[[[[name np] nr] p0] r0] r IH]; intros [[a b] ptr]; [reflexivity|].
  cbn [map fold_left PS.scan_methods]. rewrite scan_step_agree. cbv zeta. apply IH.
Qed.

Lemma scan_agree : forall ms, DC.scan (map msig17 ms) = PS.scan_methods ms (false, false, true).
Proof. intros. apply scan_agree_from. Qed.

Lemma choose_agree : forall f hc hi ptr, stmt17 (PS.select_named f (hc, hi, ptr)) = DC.choose f hc hi ptr.
Proof.
  intros. unfold PS.select_named, DC.choose.
  destruct (ptr && hi); [reflexivity|]. destruct (negb ptr && hc); [reflexivity|]. destruct (ptr && hc); reflexivity.
Qed.

Section Agree.
  Variables (L : bytes -> bytes) (target : bytes) (c : PS.cfg).

  Lemma ety_text : forall e et, ety17 L target e = Some et -> DC.render_ety et = print_oty (fst (PS.type_lit L target c e)).
  Proof.
    intros e et H. destruct e as [n| | |pkg name u ms|e|e|n e|k v|txt|ap an ar]; cbn [ety17] in H; try discriminate.
    - inversion H. reflexivity.
    - destruct u; try discriminate. inversion H. cbn [PS.type_lit].
      destruct (bytes_eqb pkg target); reflexivity.
  Qed.

  (* the helper without callbacks: the two models select the same statement for every field of the common domain *)
  Lemma field_stmt_agree_fn : forall G f ft,
    fty17 L target c (PS.f_ty f) = Some ft ->
    agrees target G (PS.f_ty f) ->
    match PS.field_stmt L target c false f with
    | PS.GOk s _ => Gengo.Proofs.DeepCopy.stmt_of G [] (PS.f_name f, ft) = stmt17 s
    | _ => True
    end.
  Proof.
    intros G f ft Hft Hag. unfold PS.field_stmt, PS.field_stmt_gen, Gengo.Proofs.DeepCopy.stmt_of. cbv zeta.
    destruct (PS.f_ty f) as [n| | |pkg name u ms|e|e|n e|k v|txt|ap an ar] eqn:Et; cbn [fty17] in Hft; try discriminate;
      try injection Hft as <-; cbn [PS.switch_type PS.unalias PS.field_type_lit].
    - reflexivity.
    - reflexivity.
    - destruct (PS.fx_errnil c); [|exact I]. reflexivity.
    - cbn [agrees] in Hag. destruct (bytes_eqb pkg target) eqn:Ep; cbn [andb fst snd].
      + destruct (Hag eq_refl) as [[d [Hl [Hk Hh]]] Hif]. clear Hag.
        (* C17's side on the declaration d; nothing visible from an earlier run *)
        rewrite Hl, Gengo.Proofs.DeepCopy.is_iface_kind, Gengo.Proofs.DeepCopy.is_map_kind.
        cbn [DC.hand_of DC.sigs_of flat_map]. rewrite app_nil_r, Hh, scan_agree.
        destruct u, (DC.d_kind d); destruct Hk; cbn [PS.is_uiface PS.is_umap negb].
        3:{ rewrite (Hif eq_refl). reflexivity. }
        all: destruct (PS.scan_methods ms (false, false, true)) as [[hc hi] ptr].
        all: rewrite choose_agree; reflexivity.
      + rewrite scan_agree. destruct (PS.scan_methods ms (false, false, true)) as [[hc hi] ptr].
        rewrite choose_agree. reflexivity.
    - destruct (ety17 L target e) as [et|] eqn:Ee; [|discriminate]. injection Hft as <-.
      cbn [PS.type_lit fst snd]. rewrite (ety_text e et Ee).
      destruct (PS.type_lit L target c e) as [o i]. reflexivity.
    - destruct (ety17 L target v) as [et|] eqn:Ee; [|discriminate]. injection Hft as <-.
      cbn [PS.type_lit fst snd]. unfold text_of. rewrite (ety_text v et Ee).
      destruct (PS.type_lit L target c k) as [ok ik]. destruct (PS.type_lit L target c v) as [ov iv]. reflexivity.
    - reflexivity.
  Qed.

  Theorem field_stmt_agree : PS.fx_errnil c = true -> forall G f ft,
    fty17 L target c (PS.f_ty f) = Some ft ->
    agrees target G (PS.f_ty f) ->
    exists s18 i s17 dep,
      PS.field_stmt L target c false f = PS.GOk s18 i /\
      DC.field_stmt DC.all_fixed G [] (PS.f_name f) ft = Ok (s17, dep) /\
      stmt17 s18 = s17.
  Proof.
    intros Herr G f ft Hft Hag. pose proof (field_stmt_agree_fn G f ft Hft Hag) as H.
    destruct (PP.field_stmt_total L target c false f Herr) as [s [i Hs]]. rewrite Hs in H.
    exists s, i, (stmt17 s), (Gengo.Proofs.DeepCopy.dep_of G ft). rewrite Gengo.Proofs.DeepCopy.field_stmt_fixed, H. auto.
  Qed.

  (* outside the common domain the Go switch (and C18's model) looks at the top-level constructor only *)
  Theorem outside_domain_stmt : PS.fx_errnil c = true -> forall f b,
    fty17 L target c (PS.f_ty f) = None ->
    exists s i, PS.field_stmt L target c b f = PS.GOk s i /\
      match PS.f_ty f with
      | PS.TSlice _ => exists o, s = PS.SCopySlice (PS.f_name f) o
      | PS.TMap _ _ => exists o, s = PS.SCopyMap (PS.f_name f) o
      | PS.TAlias _ _ _ => True      (* alias types are outside C17's model altogether: see C18_copy_alias_* *)
      | _ => s = PS.SAssign (PS.f_name f)
      end.
  Proof.
    intros Herr f b H.
    destruct (PS.f_ty f) as [n| | |pkg name u ms|e|e|n e|k v|txt|ap an ar] eqn:Et; cbn [fty17] in H; try discriminate.
    5:{ destruct (PP.field_stmt_total L target c b f Herr) as [s [i Hs]]. exists s, i. split; [exact Hs|exact I]. }
    all: unfold PS.field_stmt, PS.field_stmt_gen; rewrite Et; cbn [PS.switch_type PS.unalias PS.field_type_lit].
    - do 2 eexists. split; reflexivity.
    - destruct (PS.type_lit L target c (PS.TSlice e)) as [o i]. do 2 eexists. split; [reflexivity|]. eauto.
    - do 2 eexists. split; reflexivity.
    - destruct (PS.type_lit L target c (PS.TMap k v)) as [o i]. do 2 eexists. split; [reflexivity|]. eauto.
  Qed.

  (* partialstruct's callbacks: the ONLY difference between the two uses of the helper *)

  (* FieldContext is consulted inside `case *types.Named` only (the predeclared error is a *types.Named), and there
     the context it returns (HasDeepCopy, HasDeepCopyInto, PtrResultOrParam; InSamePkg = false, so no "always gen", no
     OnLocalDep, no map-type refinement) selects in.F.DeepCopyIntoAs(&out.F), whatever the type *)
  Lemma callback_spec : forall b f,
    PS.field_stmt L target c b f =
    if b && is_named_ty (PS.f_ty f) then PS.GOk (PS.SCallInto (PS.f_name f) PS.dc_into_name) []
    else PS.field_stmt L target c false f.
  Proof.
    intros [|] f; [|reflexivity]. unfold PS.field_stmt, PS.field_stmt_gen, PS.switch_type, is_named_ty. cbv zeta.
    destruct (PS.unalias (PS.f_ty f)); reflexivity.
  Qed.

  Theorem callback_not_named : forall f,
    is_named_ty (PS.f_ty f) = false -> PS.field_stmt L target c true f = PS.field_stmt L target c false f.
  Proof. intros f H. rewrite callback_spec, H. reflexivity. Qed.

  Theorem callback_named : forall f,
    is_named_ty (PS.f_ty f) = true ->
    PS.field_stmt L target c true f = PS.GOk (PS.SCallInto (PS.f_name f) PS.dc_into_name) [].
  Proof. intros f H. rewrite callback_spec, H. reflexivity. Qed.

  (* one retained field of the generated struct, callbacks included *)
  Theorem field_stmt_agree_cb : forall G repl f n ft,
    field17 L target c repl f = Some (n, ft) ->
    agrees_field target G repl f ->
    n = PS.f_name f /\
    match PS.field_stmt L target c (replaced repl f) f with
    | PS.GOk s _ => Gengo.Proofs.DeepCopy.stmt_of G [] (n, ft) = stmt17 s
    | _ => True
    end.
  Proof.
    intros G repl f n ft Hf Hag. unfold field17 in Hf. unfold agrees_field in Hag. rewrite callback_spec.
    destruct (replaced repl f && is_named_ty (PS.f_ty f)).
    - inversion Hf; subst n ft. split; [reflexivity|]. destruct Hag as [d [Hl [Hk Hp]]].
      unfold Gengo.Proofs.DeepCopy.stmt_of. cbn [fst snd].
      rewrite Hl, Gengo.Proofs.DeepCopy.is_iface_kind, Gengo.Proofs.DeepCopy.is_map_kind.
      cbn [DC.hand_of DC.sigs_of flat_map]. rewrite app_nil_r, Hp.
      destruct Hk as [Hk|[tp [fs Hk]]]; rewrite Hk; reflexivity.
    - destruct (fty17 L target c (PS.f_ty f)) as [ft'|] eqn:Eft; [|discriminate]. cbn [option_map] in Hf.
      inversion Hf; subst n ft. split; [reflexivity|]. exact (field_stmt_agree_fn G f ft' Eft Hag).
  Qed.

  (* the loop, stated on C17's closed form of it ([map stmt_of], Proofs/DeepCopy.v's fields_copy_fixed): one statement
     per field *)
  Lemma fields_copy_agree : forall G repl l ss,
    Forall2 (fun f s => exists j, PS.field_stmt L target c (replaced repl f) f = PS.GOk s j) l ss ->
    (forall f, In f l -> agrees_field target G repl f) ->
    forall cfs, fields17 L target c repl l = Some cfs ->
    map fst cfs = map PS.f_name l /\ map (Gengo.Proofs.DeepCopy.stmt_of G []) cfs = map stmt17 ss.
  Proof.
    intros G repl l ss HF. induction HF as [|f s l ss [j Hfs] HF IH]; intros Hag cfs Hc; cbn [fields17] in Hc.
    - injection Hc as <-. split; reflexivity.
    - destruct (field17 L target c repl f) as [[n ft]|] eqn:Ef; [|discriminate].
      destruct (fields17 L target c repl l) as [xs|]; [|discriminate]. injection Hc as <-.
      destruct (field_stmt_agree_cb G _ f n ft Ef (Hag f (or_introl eq_refl))) as [Hn H2]. rewrite Hfs in H2.
      destruct (IH (fun f0 Hin => Hag f0 (or_intror Hin)) xs eq_refl) as [Hnames Hss].
      cbn [map fst]. rewrite H2, Hn, Hnames, Hss. split; reflexivity.
  Qed.

  (* Skip + the loop: the body of DeepCopyIntoAs is C17's fields_copy of the struct partialstruct emits *)
  Theorem stmts_agree : forall ti g i fs G cfs,
    PS.generate_type L target c ti = PS.TGen g i ->
    PS.ti_under ti = Some fs ->
    fields17 L target c (PS.replace_map (PS.ti_replace ti) []) (filter (keep (PS.ti_omit ti)) fs) = Some cfs ->
    (forall f, In f fs -> keep (PS.ti_omit ti) f = true ->
               agrees_field target G (PS.replace_map (PS.ti_replace ti) []) f) ->
    map fst cfs = map PS.f_name (filter (keep (PS.ti_omit ti)) fs) /\
    exists deps, DC.fields_copy DC.all_fixed G [] cfs = Ok (map stmt17 (PS.g_stmts g), deps).
  Proof.
    intros ti g i fs G cfs Hg Hu Hc Hag.
    apply PP.generate_type_gen_inv in Hg. destruct Hg as [_ [fs' [o [Hu' [_ [_ [_ [i3 Hs]]]]]]]].
    rewrite Hu in Hu'. injection Hu' as <-.
    apply PP.gen_stmts_loop_spec in Hs. destruct Hs as [ss [Hss HF]]. cbn [app] in Hss. subst ss.
    rewrite Gengo.Proofs.DeepCopy.fields_copy_fixed.
    destruct (fields_copy_agree G _ _ _ HF) with (cfs := cfs) as [Hn ->]; [|exact Hc|eauto].
    intros f Hin. apply filter_In in Hin. destruct Hin. apply Hag; assumption.
  Qed.
End Agree.

Lemma zero_fields_same : forall fin, zero_fields17 fin = PDS.zero_fields fin.
Proof. induction fin as [|[f x] r IH]; [reflexivity|]. cbn. unfold zero_fields17 in IH. rewrite IH. reflexivity. Qed.

Definition callees_as_ok (G : DC.pkg) (ms : list DC.method) (cfs : list (bytes * DC.fty)) : Prop :=
  forall f c0 args, In (f, DC.FNamed c0 args) cfs ->
    (DC.is_map (DC.lookup G c0) = true -> DC.has_map_methods ms c0 = true) /\
    (forall dc, DC.lookup G c0 = Some dc ->
       (DC.d_kind dc = DC.DScalar \/ exists tp' fs', DC.d_kind dc = DC.DStruct tp' fs') -> DC.find_into ms c0 <> None).

(* DeepCopyAs on a non-nil receiver: the result holds the same data in fresh cells only, and no write through it
   reaches the original *)
Definition unshared_copy (rec : bytes -> DC.value -> DC.value -> DC.heap -> res (DC.value * DC.heap))
    (G : DC.pkg) (ms : list DC.method) (g : PS.gtype) (h : DC.heap) (fin : list (bytes * DC.value)) : Prop :=
  exists fout t,
    deep_copy_as_heap rec G ms g (Some fin) h = Ok (Some (DC.VStruct fout), h ++ t) /\
    PDS.unshared h (DC.VStruct fin) (DC.VStruct fout) t.

Section Transfer.
  Variables (L : bytes -> bytes) (target : bytes) (c : PS.cfg).

  Theorem copy_as_transfer : forall ti g i fs G ms rec bound cfs d tp,
    PS.generate_type L target c ti = PS.TGen g i ->
    PS.ti_under ti = Some fs ->
    fields17 L target c (PS.replace_map (PS.ti_replace ti) []) (filter (keep (PS.ti_omit ti)) fs) = Some cfs ->
    (forall f, In f fs -> keep (PS.ti_omit ti) f = true ->
               agrees_field target G (PS.replace_map (PS.ti_replace ti) []) f) ->
    PDS.dom G ->
    DC.lookup G (PS.g_name g) = Some d -> DC.d_kind d = DC.DStruct tp cfs ->
    PDS.rec_spec G ms rec bound ->
    callees_as_ok G ms cfs ->
    forall h,
      deep_copy_as_heap rec G ms g None h = Ok (None, h) /\
      forall fin, PDS.wt_fields G h cfs fin -> PDS.depth_fields fin < bound -> unshared_copy rec G ms g h fin.
  Proof.
    intros ti g i fs G ms rec bound cfs d tp Hg Hu Hc Hag Hdom Hl Hk Hrec Hcal h. split; [reflexivity|].
    intros fin Hwt Hdep.
    destruct (stmts_agree L target c ti g i fs G cfs Hg Hu Hc Hag) as [_ [deps Hfc]].
    (* DeepCopyIntoAs is the DeepCopyInto body C17 generates for the struct [g_name g]: exec_struct_spec *)
    destruct (PDS.copy_ok_unshared h (DC.VStruct fin) _ (proj2 (PDS.wt_valid_both G h) _ _ Hwt)
                (PDS.exec_struct_spec G ms rec bound Hdom Hrec (PS.g_name g) d tp cfs _ deps h fin Hl Hk Hfc Hcal Hwt Hdep))
      as [v' [t [Hr Hrest]]].
    unfold unshared_copy, deep_copy_as_heap, as_body. cbn [option_map]. rewrite PDS.run_ptr_copy_body, PDS.zero_struct.
    unfold into_as. destruct (DC.exec_body _ _ _ _ _ _ _ _) as [[fout h']| |]; try discriminate Hr.
    injection Hr as <- ->. exists fout, t. split; [reflexivity|exact Hrest].
  Qed.

  (* without any assumption on methods: when no retained field is a call (no replaced named field, same-package named
     field types are interfaces) the body consists of assignments and container copies only *)
  Theorem copy_as_unshared_plain : forall ti g i fs G cfs d tp,
    PS.generate_type L target c ti = PS.TGen g i ->
    PS.ti_under ti = Some fs ->
    fields17 L target c (PS.replace_map (PS.ti_replace ti) []) (filter (keep (PS.ti_omit ti)) fs) = Some cfs ->
    (forall f, In f fs -> keep (PS.ti_omit ti) f = true ->
               agrees_field target G (PS.replace_map (PS.ti_replace ti) []) f) ->
    PDS.dom G ->
    DC.lookup G (PS.g_name g) = Some d -> DC.d_kind d = DC.DStruct tp cfs ->
    (forall f c0 args, In (f, DC.FNamed c0 args) cfs -> DC.is_iface (DC.lookup G c0) = true) ->
    forall rec h fin, PDS.wt_fields G h cfs fin -> unshared_copy rec G [] g h fin.
  Proof.
    intros ti g i fs G cfs d tp Hg Hu Hc Hag Hdom Hl Hk Hif rec h fin Hwt.
    refine (proj2 (copy_as_transfer ti g i fs G [] rec (S (PDS.depth_fields fin)) cfs d tp Hg Hu Hc Hag Hdom Hl Hk _ _ h)
              fin Hwt (le_n _)).
    - intros c0 args x h0 _ _ _ Hfi. exfalso. apply Hfi. reflexivity.
    - intros f c0 args Hin. specialize (Hif f c0 args Hin).
      destruct (DC.lookup G c0) as [[n k t0 i0 hd]|] eqn:El; [|discriminate]. destruct k; try discriminate.
      split; [intros Hm; discriminate|].
      intros dc Hdc [Hs|[tp' [fs' Hs]]]; inversion Hdc; subst dc; discriminate.
  Qed.
End Transfer.

(* non-vacuity: an origin with a scalar, a slice, a map of a foreign scalar, a replaced struct field, an error field,
   a same-package interface field and an omitted slice *)

Definition ex17_lib : bytes := bs "example.com/m/lib".
Definition ex17_fields : list PS.field :=
  [ PS.mk_field (bs "A") (PS.TBasic (bs "int")) [];
    PS.mk_field (bs "B") (PS.TSlice (PS.TBasic (bs "int"))) [];
    PS.mk_field (bs "S") (PS.TSlice (PS.TBasic (bs "string"))) [];
    PS.mk_field (bs "M") (PS.TMap (PS.TBasic (bs "string")) (PS.TNamed ex17_lib (bs "Code") PS.UOther [])) [];
    PS.mk_field (bs "I") (PS.TNamed PP.w_origin (bs "Inner") PS.UStruct []) [];
    PS.mk_field (bs "E") PS.TError [];
    PS.mk_field (bs "N") (PS.TNamed PP.w_target (bs "LIface") PS.UIface []) [] ].
Definition ex17_ti : PS.tinput :=
  PS.mk_tinput (bs "x") true [(bs "x", PS.RSel (Some (PP.w_origin, bs "T")))] (Some ex17_fields) [bs "B"] [bs "I:Y"].
Definition ex17_repl := PS.replace_map (PS.ti_replace ex17_ti) [].
Definition ex17_kept := filter (keep (PS.ti_omit ex17_ti)) ex17_fields.
Definition ex17_cfs : list (bytes * DC.fty) :=
  [ (bs "A", DC.FBasic (bs "int")); (bs "S", DC.FSlice (DC.EBasic (bs "string")));
    (bs "M", DC.FMap (bs "string") (DC.EForeign (bs "lib") (bs "Code")));
    (bs "I", DC.FNamed (bs "Y") []); (bs "E", DC.FError); (bs "N", DC.FNamed (bs "LIface") []) ].
Definition ex17_G : DC.pkg := graph17 PP.w_target ex17_repl (bs "X") ex17_cfs ex17_kept.

(* what is generated for ex17_ti: the omitted field is gone, the replaced one has the replacement type *)
Definition ex17_g : PS.gtype :=
  PS.mk_gtype (bs "X") (PS.OSel (bs "origin") (bs "T"))
    [ PS.mk_gfield (bs "A") (PS.OIdent (bs "int")) [];
      PS.mk_gfield (bs "S") (PS.OSlice (PS.OIdent (bs "string"))) [];
      PS.mk_gfield (bs "M") (PS.OMap (PS.OIdent (bs "string")) (PS.OSel (bs "lib") (bs "Code"))) [];
      PS.mk_gfield (bs "I") (PS.OText (bs "Y")) [];
      PS.mk_gfield (bs "E") (PS.OIdent (bs "error")) [];
      PS.mk_gfield (bs "N") (PS.OIdent (bs "LIface")) [] ]
    [ PS.SAssign (bs "A");
      PS.SCopySlice (bs "S") (PS.OSlice (PS.OIdent (bs "string")));
      PS.SCopyMap (bs "M") (PS.OMap (PS.OIdent (bs "string")) (PS.OSel (bs "lib") (bs "Code")));
      PS.SCallInto (bs "I") (bs "DeepCopyIntoAs");
      PS.SAssign (bs "E"); PS.SAssign (bs "N") ].

Lemma ex17_generated : exists g i,
  PS.generate_type PS.last_segment PP.w_target PS.all_fixed ex17_ti = PS.TGen g i /\ PS.g_name g = bs "X" /\
  map stmt17 (PS.g_stmts g) =
    [ DC.SAssign (bs "A"); DC.SCopySlice (bs "S") (bs "[]string"); DC.SCopyMap (bs "M") (bs "map[string]lib.Code");
      DC.SCallInto (bs "I"); DC.SAssign (bs "E"); DC.SAssign (bs "N") ] /\
  fields17 PS.last_segment PP.w_target PS.all_fixed ex17_repl ex17_kept = Some ex17_cfs /\
  helper17_body PS.last_segment PP.w_target PS.all_fixed ex17_ti (bs "X") = Some (Ok (map stmt17 (PS.g_stmts g))).
Proof. exists ex17_g. eexists. split; [vm_compute; reflexivity|]. repeat split; vm_compute; reflexivity. Qed.

Lemma ex17_agrees : forall f, In f ex17_fields -> keep (PS.ti_omit ex17_ti) f = true ->
  agrees_field PP.w_target ex17_G ex17_repl f.
Proof.
  intros f Hin Hk. unfold ex17_fields in Hin. cbn [In] in Hin.
  repeat (destruct Hin as [<-|Hin]; [try (vm_compute in Hk; discriminate)|]); try contradiction.
  - exact I.
  - exact I.
  - exact I.
  - unfold agrees_field. vm_compute. eexists. split; [reflexivity|]. split; [right; eauto|reflexivity].
  - exact I.
  - unfold agrees_field. cbn. intros _. split; [|reflexivity]. vm_compute. eexists. split; [reflexivity|]. split; [exact I|reflexivity].
Qed.

Lemma ex17_dom : PDS.dom ex17_G.
Proof. apply Gengo.Proofs.DeepCopyTop.dom_b_sound. vm_compute. reflexivity. Qed.

(* a value of X: a filled slice, a filled map, a struct in I; the replacement's DeepCopyIntoAs is taken to copy its
   scalar fields (here: the identity on a container-free value) *)
Definition ex17_heap : DC.heap := [DC.CSlice [1; 2]%N; DC.CMap [(3, 4)]%N].
Definition ex17_fin : list (bytes * DC.value) :=
  [ (bs "A", DC.VScalar 7); (bs "S", DC.VSlice (Some 0)); (bs "M", DC.VMap (Some 1));
    (bs "I", DC.VStruct []); (bs "E", DC.VIface 5); (bs "N", DC.VIface 6) ].

Lemma ex17_copy :
  match PS.generate_type PS.last_segment PP.w_target PS.all_fixed ex17_ti with
  | PS.TGen g _ =>
      match deep_copy_as_heap (fun _ v _ h => Ok (v, h)) ex17_G [] g (Some ex17_fin) ex17_heap with
      | Ok (Some v', h') =>
          DC.snapshot h' v' = DC.snapshot ex17_heap (DC.VStruct ex17_fin) /\ DC.locs v' = [2; 3] /\
          DC.snapshot (DC.write h' 2 (DC.CSlice [])) (DC.VStruct ex17_fin) = DC.snapshot ex17_heap (DC.VStruct ex17_fin)
      | _ => False
      end
  | _ => False
  end.
Proof. vm_compute. repeat split. Qed.
