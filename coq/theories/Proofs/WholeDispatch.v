(* Agreement of two models of the same Go code (pkg/gengo/context.go 108-116, 191-220, 268-345):
     Model/Dispatch.v  (C06: IsGeneratorEnabled, the type table, doGenerate, the Defer queue; a scripted recording generator)
     Model/Pipeline.v  (C07/C05/C02: the same loops with arbitrary generators and the file system)
   From ONE description of the packages (Model/Whole.v: wpkg) the pipeline under [whole_env], run with the recording
   generator as a state machine ([disp_gen]), makes position by position the calls Dispatch.execute lists.
   Props/C06.v and Props/Whole.v are stated with notions DEFINED here: [tr_call], [tr_defer] (the pipeline event of a
   Dispatch call / callback), [ev_match], [out_match] (events and outcomes of the two models that correspond), [P_of],
   [renders_on], [truncated], and the hypothesis [fuel_ok] (the bound handed to the recording generator covers the
   callback forests Dispatch's queue has to run). *)
Require Import Gengo.Base.Bytes Gengo.Model.Pipeline Gengo.Model.Whole.
Require Import Gengo.Proofs.Pipeline Gengo.Proofs.PipelinePkg Gengo.Proofs.WholeSum Gengo.Proofs.WholeTrace.
Require Gengo.Base.Order Gengo.Base.Assoc Gengo.Model.Dispatch Gengo.Proofs.Dispatch.
From Coq Require Import Permutation PeanoNat.

Module D := Gengo.Model.Dispatch.
Module DP := Gengo.Proofs.Dispatch.

Lemma table_nodup : forall sf defs, NoDup (D.keys (D.type_table sf defs)).
Proof. intros. unfold D.type_table. rewrite DP.type_table_sets. apply (Assoc.sets_NoDup _ Assoc.bytes_eqbP'). constructor. Qed.

Lemma table_key : forall sf defs kv, In kv (D.type_table sf defs) -> fst kv = D.td_name (snd kv).
Proof.
  intros sf defs [k d] H. unfold D.type_table in H. rewrite DP.type_table_sets in H.
  apply Assoc.In_sets in H. destruct H as [[x [_ [-> ->]]]|[]]. reflexivity.
Qed.

Lemma find_wp_in : forall wps wp, NoDup (map wp_path wps) -> In wp wps -> find_wp (wp_path wp) wps = Some wp.
Proof. apply (Assoc.find_unfold _ wp_path Assoc.bytes_eqbP' find_wp). intros k [|y r]; reflexivity. Qed.

Definition truncated (effs : list effect) : list path :=
  flat_map (fun e => match e with ETruncate q => [q] | _ => [] end) effs.

Lemma truncated_app : forall x y, truncated (x ++ y) = truncated x ++ truncated y.
Proof. intros. unfold truncated. apply flat_map_app. Qed.

Section Writes.
  Variable E : env.

  Lemma write_loop_truncated : forall a p gfs rem,
    snd (write_loop E a p gfs rem) = None ->
    truncated (fst (fst (write_loop E a p gfs rem)))
    = map (fun gf => gen_file a p (fst gf)) (filter (fun gf => negb (is_nil (snd gf))) gfs).
  Proof.
    intros a p. induction gfs as [|[n body] r IH]; intros rem; [reflexivity|]. rewrite write_loop_cons. cbv zeta.
    cbn [filter snd fst]. destruct (is_nil body); cbn [negb]; [apply IH|].
    destruct (e_fmt E (assemble (pk_name p) n body)) as [out|] eqn:Hf; [|discriminate].
    cbn [fst snd map]. intros Hn. rewrite truncated_app, (IH _ Hn). reflexivity.
  Qed.

  (* in a package that came back with Done the destinations opened are exactly the files of the generators whose
     buffer is not empty (in the order of the sync.Map) *)
  Lemma pkg_effects_truncated : order_ok E -> forall a gens p,
    snd (pkg_effects E a gens p) = Done ->
    Permutation (truncated (fst (fst (pkg_effects E a gens p))))
                (map (fun g => gen_file a p (g_name g)) (filter (fun g => negb (is_nil (go_body (gen_run E g p)))) gens)).
  Proof.
    intros Hord a gens p Hd. rewrite pkg_effects_eq in Hd |- *. cbv zeta in Hd |- *.
    destruct (gen_phase E gens p) as [[gfs tr] []] eqn:Hgp; cbn [fst snd] in Hd |- *; try discriminate Hd.
    destruct (snd (write_loop E a p (e_order E p gfs) (generated_files a p))) eqn:Hw; [discriminate Hd|]. cbn [fst snd].
    destruct (gen_phase_done E _ _ _ _ Hgp) as [Hgfs _].
    rewrite truncated_app, (write_loop_truncated _ _ _ _ Hw). generalize (snd (fst (write_loop E a p (e_order E p gfs) (generated_files a p)))). intros rem.
    assert (Hrm : truncated (map (fun f => ERemove (pk_dir p, f)) (removal_order E p rem)) = []).
    { clear. generalize (removal_order E p rem). intros l. induction l as [|x r IH]; [reflexivity | exact IH]. }
    rewrite Hrm, app_nil_r.
    eapply Permutation_trans.
    { apply Permutation_map, Order.Permutation_filter, Hord. }
    rewrite Hgfs, Order.filter_map_comm, map_map, Order.filter_filter. cbn [snd fst].
    assert (Hf : forall g, kept E g p && negb (is_nil (go_body (gen_run E g p))) = negb (is_nil (go_body (gen_run E g p)))).
    { intros g. unfold kept, is_zero. destruct (go_body (gen_run E g p)); cbn [is_nil negb andb]; [apply andb_false_r | reflexivity]. }
    rewrite (filter_ext _ _ Hf). apply Permutation_refl.
  Qed.

  Hypothesis Hfmt : forall src, e_fmt E src <> None.

  Lemma write_loop_total : forall a p gfs rem, snd (write_loop E a p gfs rem) = None.
  Proof.
    intros a p gfs rem. pose proof (write_loop_wrote E a p gfs rem) as Hw.
    destruct (snd (write_loop E a p gfs rem)); [|reflexivity].
    destruct (wrote_fail E Hw) as (n & body & _ & _ & Hf & _). destruct (Hfmt _ Hf).
  Qed.

  Lemma pkg_effects_trace : forall a gs p,
    snd (fst (pkg_effects E a gs p)) = snd (fst (gen_phase E gs p)) /\ snd (pkg_effects E a gs p) = snd (gen_phase E gs p).
  Proof.
    intros a gs p. rewrite pkg_effects_eq. cbv zeta. rewrite write_loop_total.
    destruct (snd (gen_phase E gs p)); split; reflexivity.
  Qed.
End Writes.

Section DispAgree.
  Variable fmt : bytes -> option bytes.
  Variable order : pkginfo -> list (bytes * bytes) -> list (bytes * bytes).
  Variable rk : pkginfo -> bytes -> nat.
  Variable G : tags.
  Variable wps : list wpkg.
  Variable fuel : nat.

  Let E := whole_env fmt order rk G.
  Notation gP := (disp_gen wps fuel).

  (* the call / callback events of the pipeline that correspond to Dispatch's *)
  Definition tr_call (wp : wpkg) (g : D.gen) (c : D.call) : event :=
    EvCall (D.g_name g) (wp_path wp) (D.td_name (snd c)) (body_of (D.td_action (snd c))) (res_of (D.td_action (snd c))).
  Definition dres (d : D.dspec) : gresult := match d with D.DS _ err _ => if err then RErr else RNil end.
  Definition dbody (d : D.dspec) : bytes := match d with D.DS _ err _ => if err then [] else mark end.
  Definition no_err_root (d : D.dspec) : bool := match d with D.DS _ err _ => negb err end.
  Definition tr_defer (wp : wpkg) (g : D.gen) (x : nat * D.dspec) : event :=
    EvDefer (D.g_name g) (wp_path wp) (fst x) (dbody (snd x)) (dres (snd x)).

  Definition P_of (wp : wpkg) : tags := D.pkg_tags (D.pk_filetags (wp_d wp)).

  (* the switch on the kind of the declaration, with IsGeneratorEnabled: which method is called, if any *)
  Definition call_kind (wp : wpkg) (g : D.gen) (d : D.tdef) : option D.ckind :=
    DP.call_kind g (D.is_generator_enabled (D.g_name g) (D.doc_tags G (P_of wp) d)) d.

  (* what the recording generator appends to c.defers when called for d *)
  Definition regs (d : D.tdef) : list D.dspec := if D.is_nil_action (D.td_action d) then D.td_defers d else [].

  Lemma should_call_kind : forall wp g n d,
    should_call E (gP g) (to_pkginfo wp) (ty_of (n, d)) = if call_kind wp g d then true else false.
  Proof.
    intros wp g n d. unfold should_call, call_kind, DP.call_kind.
    change (e_enabled E (g_name (gP g)) (to_pkginfo wp) (ty_of (n, d)))
      with (D.is_generator_enabled (D.g_name g) (D.doc_tags G (P_of wp) d)).
    cbn [ty_of ty_kind snd g_alias disp_gen].
    destruct (D.td_kind d), (D.is_generator_enabled (D.g_name g) (D.doc_tags G (P_of wp) d)); try reflexivity.
    destruct (D.g_alias g); reflexivity.
  Qed.

  (* what the pipeline's loop returns, run from a state in which c.defers holds [reg], as a function of Dispatch's
     result (calls made, left through `return err`); exact also when the loop is left early, because the recording
     generator registers nothing and sets no ignore flag in the call that fails *)
  Definition ro_calls (wp : wpkg) (g : D.gen) (tbl : list (bytes * D.tdef)) (reg : list D.dspec)
    (ce : list D.call * bool) : run_out dstate :=
    {| ro_state := (tbl, reg ++ D.registered (fst ce));
       ro_body := concat (map (fun c => body_of (D.td_action (snd c))) (fst ce));
       ro_ignore := existsb (fun c => sets_ignore E (kind_of (D.td_kind (snd c))) (res_of (D.td_action (snd c)))) (fst ce);
       ro_defers := seq (List.length reg) (List.length (D.registered (fst ce)));
       ro_trace := map (tr_call wp g) (fst ce);
       ro_out := if snd ce then Failed (EGen (D.g_name g) (wp_path wp)) else Done |}.

  Lemma call_loop_cons : forall wp g tbl d tys reg, D.lookup (D.td_name d) tbl = Some d ->
    call_loop E (gP g) (to_pkginfo wp) (tbl, reg) (ty_of (D.td_name d, d) :: tys)
    = match call_kind wp g d with
      | None => call_loop E (gP g) (to_pkginfo wp) (tbl, reg) tys
      | Some k =>
          let ev := tr_call wp g (k, d) in
          let ids := seq (List.length reg) (List.length (regs d)) in
          if D.is_err (D.td_action d) then ro_calls wp g tbl reg ([(k, d)], true)
          else
            let rest := call_loop E (gP g) (to_pkginfo wp) (tbl, reg ++ regs d) tys in
            {| ro_state := ro_state rest; ro_body := body_of (D.td_action d) ++ ro_body rest;
               ro_ignore := sets_ignore E (kind_of (D.td_kind d)) (res_of (D.td_action d)) || ro_ignore rest;
               ro_defers := ids ++ ro_defers rest; ro_trace := ev :: ro_trace rest; ro_out := ro_out rest |}
      end.
  Proof.
    intros wp g tbl d tys reg Hl. cbn [call_loop]. rewrite should_call_kind.
    destruct (call_kind wp g d) as [k|]; [|reflexivity].
    cbn [g_type disp_gen ty_of ty_name ty_kind fst snd]. rewrite Hl. unfold ro_calls, tr_call, regs.
    cbn [fst snd map concat existsb D.registered flat_map]. destruct (D.td_action d); reflexivity.
  Qed.

  Lemma call_loop_eq : forall wp g tbl entries,
    Forall (fun kv => D.lookup (fst kv) tbl = Some (snd kv) /\ fst kv = D.td_name (snd kv)) entries ->
    exists ce,
      D.gen_loop g G (P_of wp) tbl (map fst entries) = Ok ce
      /\ forall reg, call_loop E (gP g) (to_pkginfo wp) (tbl, reg) (map ty_of entries) = ro_calls wp g tbl reg ce.
  Proof.
    intros wp g tbl entries H. induction H as [|[n d] r [Hl Hn] _ [[cs e] [Hgl IH]]].
    { exists ([], false). split; [reflexivity|]. intros reg. unfold ro_calls. cbn. rewrite app_nil_r. reflexivity. }
    cbn [fst snd] in Hl, Hn. subst n. cbn [map fst]. rewrite DP.gen_loop_cons, Hl, Hgl. fold (call_kind wp g d).
    pose proof (fun reg => call_loop_cons wp g tbl d (map ty_of r) reg Hl) as HC.
    destruct (call_kind wp g d) as [k|]; [|exists (cs, e); split; [reflexivity|]; intros reg; rewrite HC; apply IH].
    destruct (D.is_err (D.td_action d)); eexists; (split; [reflexivity|]); intros reg; rewrite HC; [reflexivity|].
    rewrite IH. unfold ro_calls. cbn [fst snd map concat existsb D.registered flat_map ro_state ro_body ro_ignore ro_defers ro_trace ro_out].
    fold (regs d). fold (D.registered cs). rewrite <- app_assoc, !app_length, seq_app. reflexivity.
  Qed.

  Lemma call_loop_agree : forall wp g tbl entries,
    (forall kv, In kv entries -> D.lookup (fst kv) tbl = Some (snd kv)) ->
    (forall kv, In kv entries -> fst kv = D.td_name (snd kv)) ->
    exists cs e,
      D.gen_loop g G (P_of wp) tbl (map fst entries) = Ok (cs, e)
      /\ forall reg,
         let c := call_loop E (gP g) (to_pkginfo wp) (tbl, reg) (map ty_of entries) in
         ro_trace c = map (tr_call wp g) cs
         /\ ro_body c = concat (map (fun c => body_of (D.td_action (snd c))) cs)
         /\ (e = true -> ro_out c = Failed (EGen (D.g_name g) (wp_path wp)))
         /\ (e = false -> ro_out c = Done /\ ro_state c = (tbl, reg ++ D.registered cs)
                          /\ ro_defers c = seq (List.length reg) (List.length (D.registered cs))).
  Proof.
    intros wp g tbl entries Hlk Hkey. destruct (call_loop_eq wp g tbl entries) as [[cs e] [Hgl Hcl]].
    { apply Forall_forall. intros kv Hkv. exact (conj (Hlk kv Hkv) (Hkey kv Hkv)). }
    exists cs, e. split; [exact Hgl|]. intros reg c. subst c. rewrite Hcl.
    split; [reflexivity|]. split; [reflexivity|]. split; intros ->; repeat split.
  Qed.

  (* one turn of the loop: the pipeline knows a callback by its index i in c.defers = all *)
  Lemma defer_loop_cons : forall wp g tbl f all i id err nested ids,
    nth_error all i = Some (D.DS id err nested) ->
    defer_loop (S f) (gP g) (to_pkginfo wp) (tbl, all) (i :: ids)
    = let ev := tr_defer wp g (i, D.DS id err nested) in
      if err then
        {| ro_state := (tbl, all); ro_body := []; ro_ignore := false; ro_defers := []; ro_trace := [ev];
           ro_out := Failed (EDefer (D.g_name g) (wp_path wp)) |}
      else
        let rest := defer_loop f (gP g) (to_pkginfo wp) (tbl, all ++ nested) (ids ++ seq (List.length all) (List.length nested)) in
        {| ro_state := ro_state rest; ro_body := mark ++ ro_body rest; ro_ignore := false; ro_defers := [];
           ro_trace := ev :: ro_trace rest; ro_out := ro_out rest |}.
  Proof.
    intros wp g tbl f all i id err nested ids H. cbn [defer_loop g_defer disp_gen fst snd]. rewrite H.
    destruct err; reflexivity.
  Qed.

  (* the callbacks Dispatch ran (and whether the last one failed) against the pipeline's loop; k = the index of the first *)
  Definition queue_match (wp : wpkg) (g : D.gen) (k : nat) (ran : list D.dspec) (e : bool)
    (dl : run_out (g_state (gP g))) : Prop :=
    ro_trace dl = map (tr_defer wp g) (combine (seq k (List.length ran)) ran)
    /\ ro_out dl = (if e then Failed (EDefer (D.g_name g) (wp_path wp)) else Done)
    /\ ro_body dl = concat (map dbody ran)
    /\ (e = false -> forallb no_err_root ran = true).

  Lemma defer_agree : forall wp g tbl fuelP fuelD q done,
    D.qsize q <= fuelP -> D.qsize q <= fuelD ->
    exists ran e,
      D.run_defers_queue fuelD q = Ok (map D.root_id ran, e)
      /\ queue_match wp g (List.length done) ran e
           (defer_loop fuelP (gP g) (to_pkginfo wp) (tbl, done ++ q) (seq (List.length done) (List.length q))).
  Proof.
    intros wp g tbl. induction fuelP as [|fP IH]; intros fuelD q done HP HD; destruct q as [|[id err nested] r].
    1,3: exists [], false; split; [destruct fuelD; reflexivity | repeat split].
    { rewrite DP.qsize_cons in HP. lia. }
    rewrite DP.qsize_cons in HP, HD. destruct fuelD as [|fD]; [lia|].
    cbn [List.length seq]. erewrite defer_loop_cons by (rewrite nth_error_app2, Nat.sub_diag by apply le_n; reflexivity).
    destruct err.
    { exists [D.DS id true nested], true. split; [reflexivity|]. repeat split. discriminate. }
    destruct (IH fD (r ++ nested) (done ++ [D.DS id false nested])) as [ran [e [Hq Hm]]].
    { rewrite DP.qsize_app. lia. } { rewrite DP.qsize_app. lia. }
    exists (D.DS id false nested :: ran), e. split; [cbn [D.run_defers_queue]; rewrite Hq; reflexivity|].
    (* the same state and the same indices, written as the loop leaves them *)
    rewrite <- app_assoc, !app_length, seq_app, Nat.add_1_r in Hm. cbn [app] in Hm. destruct Hm as [H1 [H2 [H3 H4]]].
    unfold queue_match. rewrite <- app_assoc, app_length. cbn [ro_trace ro_out ro_body List.length app]. rewrite <- Nat.add_succ_comm.
    rewrite H1, H2, H3. repeat split. exact H4.
  Qed.

  Hypothesis Hpaths : NoDup (map wp_path wps).

  Definition session_out (e e2 : bool) (g : D.gen) (wp : wpkg) : outcome :=
    if e then Failed (EGen (D.g_name g) (wp_path wp))
    else if e2 then Failed (EDefer (D.g_name g) (wp_path wp)) else Done.
  Definition session_dout (e e2 : bool) : D.outcome :=
    if e then D.GenFailed else if e2 then D.DeferFailed else D.Done.

  (* the bound handed to the recording generator covers the callback forests Dispatch's queue has to run *)
  Definition fuel_ok (wp : wpkg) (g : D.gen) : Prop :=
    forall cs e, D.do_generate g G (P_of wp) (wp_table wp) (D.keys (wp_table wp)) = Ok (cs, e) ->
                 D.qsize (D.registered cs) <= fuel.

  Lemma gen_run_agree : forall wp g,
    In wp wps -> fuel_ok wp g ->
    exists cs e ran e2 ign,
      D.do_generate g G (P_of wp) (wp_table wp) (D.keys (wp_table wp)) = Ok (cs, e)
      /\ (forall c, In c cs -> In (snd c) (D.pk_defs (wp_d wp)))
      /\ (if e then ran = [] /\ e2 = false
          else D.run_defers_queue (D.qsize (D.registered cs)) (D.registered cs) = Ok (map D.root_id ran, e2))
      /\ (e2 = false -> forallb no_err_root ran = true)
      /\ gen_run E (gP g) (to_pkginfo wp)
         = {| go_body := concat (map (fun c => body_of (D.td_action (snd c))) cs) ++ concat (map dbody ran);
              go_ignore := ign;
              go_trace := map (tr_call wp g) cs ++ map (tr_defer wp g) (combine (seq 0 (List.length ran)) ran);
              go_out := session_out e e2 g wp |}.
  Proof.
    intros wp g Hin Hfuel. unfold gen_run. set (tbl := wp_table wp).
    replace (g_new (gP g) (to_pkginfo wp)) with ((tbl, []) : dstate)
      by (cbn [g_new disp_gen to_pkginfo pk_path]; rewrite (find_wp_in wps wp Hpaths Hin); reflexivity).
    replace (sort_by ty_name (pk_types (to_pkginfo wp))) with (map ty_of (D.isort_by fst tbl))
      by (cbn [pk_types to_pkginfo]; fold tbl; rewrite sort_by_eq, DP.isort_by_eq; symmetry; apply (Order.sort_by_map fst); reflexivity).
    destruct (call_loop_eq wp g tbl (D.isort_by fst tbl)) as [[cs e] [Hgl Hcl]].
    { apply Forall_forall. intros [n d] Hkv. apply (DP.isort_by_In fst tbl) in Hkv.
      split; [apply DP.lookup_In; [apply table_nodup | exact Hkv] | exact (table_key true _ _ Hkv)]. }
    assert (Hdg : D.do_generate g G (P_of wp) tbl (D.keys tbl) = Ok (cs, e)).
    { unfold D.do_generate. rewrite <- Hgl. f_equal. unfold D.keys. symmetry. apply DP.map_isort_by. }
    assert (Hdefs : forall c, In c cs -> In (snd c) (D.pk_defs (wp_d wp))).
    { intros x Hx. destruct (DP.gen_loop_calls_from_table _ _ _ _ _ _ _ Hgl x Hx) as [n Hn].
      apply DP.lookup_Some_In in Hn. eapply DP.type_table_entries. exact Hn. }
    rewrite Hcl. cbn [ro_calls fst snd ro_state ro_body ro_ignore ro_defers ro_trace ro_out app List.length].
    exists cs, e. destruct e.
    - exists [], false. eexists. cbn. rewrite !app_nil_r. repeat split; assumption.
    - destruct (defer_agree wp g tbl (g_fuel (gP g)) (D.qsize (D.registered cs)) (D.registered cs) [])
        as [ran [e2 [Hq [H1 [H2 [H3 H4]]]]]]; [exact (Hfuel cs false Hdg) | apply le_n|].
      cbn [app List.length] in H1, H2, H3. exists ran, e2. eexists. rewrite H1, H2, H3. repeat split; assumption.
  Qed.

  Variable gens : list D.gen.

  Inductive ev_match : event -> D.event -> Prop :=
  | em_call : forall wp g c, In wp wps -> In g gens -> In (snd c) (D.pk_defs (wp_d wp)) ->
      ev_match (tr_call wp g c) (D.event_of_call (D.pk_id (wp_d wp)) g G (P_of wp) c)
  | em_defer : forall wp g i d, In wp wps -> In g gens ->
      ev_match (tr_defer wp g (i, d)) (D.EDefer (D.pk_id (wp_d wp)) (D.g_idx g) (D.root_id d)).

  Definition out_match (o : outcome) (d : D.outcome) : Prop :=
    match o, d with
    | Done, D.Done => True
    | Failed (EGen _ _), D.GenFailed => True
    | Failed (EDefer _ _), D.DeferFailed => True
    | _, _ => False
    end.

  Lemma out_match_inv : forall o d, out_match o d ->
    match d with
    | D.Done => o = Done
    | D.GenFailed => exists g p, o = Failed (EGen g p)
    | D.DeferFailed => exists g p, o = Failed (EDefer g p)
    end.
  Proof. intros [|[]|] [] H; try contradiction; eauto. Qed.

  Lemma defers_match : forall wp g ran k, In wp wps -> In g gens ->
    Forall2 ev_match (map (tr_defer wp g) (combine (seq k (List.length ran)) ran))
            (map (D.EDefer (D.pk_id (wp_d wp)) (D.g_idx g)) (map D.root_id ran)).
  Proof.
    intros wp g ran. induction ran as [|d r IH]; intros k Hwp Hg; cbn; constructor.
    - apply (em_defer wp g k d); assumption.
    - apply IH; assumption.
  Qed.

  Definition renders_on (wp : wpkg) (g : D.gen) : bool :=
    negb (is_nil (go_body (gen_run E (gP g) (to_pkginfo wp)))).

  (* [out_match] makes both sides end alike; Dispatch's flag "the buffer is not empty" is the pipeline's IsZero test *)
  Lemma session_agree : forall wp g,
    In wp wps -> In g gens -> fuel_ok wp g ->
    exists devs o flag,
      D.session_default D.fixed_all (wp_d wp) g G = Ok (devs, o, flag)
      /\ Forall2 ev_match (go_trace (gen_run E (gP g) (to_pkginfo wp))) devs
      /\ out_match (go_out (gen_run E (gP g) (to_pkginfo wp))) o
      /\ (o = D.Done -> flag = renders_on wp g).
  Proof.
    intros wp g Hwp Hg Hfuel.
    destruct (gen_run_agree wp g Hwp Hfuel) as [cs [e [ran [e2 [ign [Hdg [Hdefs [Hq [Hne Hrun]]]]]]]]].
    unfold D.session_default, D.session, renders_on. cbn [D.fixed_all D.fx_scope D.fx_defer].
    fold (wp_table wp). fold (P_of wp). rewrite Hdg, Hrun. cbn [bind go_trace go_out go_body].
    assert (Hcalls : Forall2 ev_match (map (tr_call wp g) cs)
                       (map (D.event_of_call (D.pk_id (wp_d wp)) g G (P_of wp)) cs)).
    { apply Order.Forall2_map, Forall_forall. intros c Hc. apply em_call; [exact Hwp | exact Hg | apply Hdefs; exact Hc]. }
    destruct e.
    { destruct Hq as [-> ->]. eexists _, _, _. split; [reflexivity|]. cbn. rewrite app_nil_r.
      split; [exact Hcalls|]. split; [exact I | discriminate]. }
    rewrite Hq. cbn [bind].
    pose proof (Forall2_app Hcalls (defers_match wp g ran 0 Hwp Hg)) as Hev.
    destruct e2; (eexists _, _, _; split; [reflexivity|]; split; [exact Hev|]; split; [exact I|]); [discriminate|].
    (* the buffer is non-empty iff a call rendered or a callback ran (every callback that returns nil renders) *)
    intros _.
    assert (Hc : is_nil (concat (map (fun c => body_of (D.td_action (snd c))) cs)) = negb (D.rendered cs)).
    { unfold D.rendered. clear. induction cs as [|c r IH]; [reflexivity|]. cbn [map concat existsb].
      unfold body_of at 1. destruct (D.renders (D.td_action (snd c))); [reflexivity | exact IH]. }
    assert (Hd : is_nil (concat (map dbody ran)) = is_nil ran).
    { specialize (Hne eq_refl). destruct ran as [|[id [] nested] r]; [reflexivity | discriminate Hne | reflexivity]. }
    rewrite Order.is_nil_app, Hc, Hd. destruct ran; destruct (D.rendered cs); reflexivity.
  Qed.

  Lemma gen_phase_agree : forall wp l,
    In wp wps -> incl l gens -> (forall g, In g l -> fuel_ok wp g) ->
    exists devs o ws,
      D.pkg_gens D.fixed_all (wp_d wp) l G = Ok (devs, o, ws)
      /\ Forall2 ev_match (snd (fst (gen_phase E (map gP l) (to_pkginfo wp)))) devs
      /\ out_match (snd (gen_phase E (map gP l) (to_pkginfo wp))) o
      /\ (o = D.Done -> ws = map D.g_idx (filter (renders_on wp) l)).
  Proof.
    intros wp l Hwp. induction l as [|g r IH]; intros Hincl Hfuel.
    { exists [], D.Done, []. repeat split; constructor. }
    destruct (session_agree wp g Hwp (Hincl g (or_introl eq_refl)) (Hfuel g (or_introl eq_refl)))
      as [devs [o [flag [Hs [Hev [Hom Hflag]]]]]].
    destruct IH as [devs' [o' [ws' [Hs' [Hev' [Hom' Hws']]]]]].
    { intros x Hx. apply Hincl. right. exact Hx. } { intros x Hx. apply Hfuel. right. exact Hx. }
    pose proof (gen_phase_cons E (gP g) (map gP r) (to_pkginfo wp)) as Hgp. cbv zeta in Hgp.
    cbn [map D.pkg_gens]. rewrite Hs. cbn [bind].
    apply out_match_inv in Hom. destruct o; [|destruct Hom as [g' [p' Hom]]..]; rewrite Hom in Hgp.
    (* the session failed, either way: both loops stop here *)
    2,3: eexists _, _, _; split; [reflexivity|]; rewrite Hgp; split; [exact Hev|]; split; [exact I | discriminate].
    rewrite Hs'. cbn [bind]. eexists _, _, _. split; [reflexivity|]. rewrite Hgp. cbn [fst snd].
    split; [apply Forall2_app; assumption|]. split; [exact Hom'|].
    intros Ho'. rewrite (Hws' Ho'), (Hflag eq_refl). cbn [filter]. destruct (renders_on wp g); reflexivity.
  Qed.

  (* everything rendered parses: the formatter is outside Dispatch *)
  Hypothesis Hfmt : forall src, fmt src <> None.

  Lemma match_callbacks : forall tr devs, Forall2 ev_match tr devs -> filter DP.is_callback devs = devs.
  Proof.
    intros tr devs Hm. induction Hm as [|x y l l' Hxy Hm IH]; [reflexivity|]. cbn [filter].
    assert (Hc : DP.is_callback y = true).
    { destruct Hxy as [wp g [k d] _ _ _|]; [destruct k|]; reflexivity. }
    rewrite Hc, IH. reflexivity.
  Qed.

  Variable a : args.
  Variable modroot : bytes.
  Let w := to_world modroot wps.
  Variable prev : option (list (bytes * bytes)).
  (* no package is skipped through gengo.sum (Force, no previous sums, not All ...): Dispatch.execute has no cache *)
  Hypothesis Hchg : forall wp, In wp wps -> pkg_changed a w prev (to_pkginfo wp) = true.
  Hypothesis Hfuel : forall wp g, In wp wps -> In g gens -> fuel_ok wp g.

  Lemma selected_same : forall wp, In wp wps -> selected a w (to_pkginfo wp) = a_all a || D.pk_direct (wp_d wp).
  Proof.
    intros wp Hwp. unfold selected. f_equal. unfold is_direct. cbn [w_direct w to_world pk_path to_pkginfo].
    apply eq_true_iff_eq. rewrite mem_bytes_In, in_map_iff. split.
    - intros [wp' [Hp Hf]]. apply filter_In in Hf. destruct Hf as [Hin' Hd'].
      rewrite <- (Order.NoDup_map_inj_in wp_path wps wp' wp Hpaths Hin' Hwp Hp). exact Hd'.
    - intros Hd. exists wp. split; [reflexivity | apply filter_In; split; assumption].
  Qed.

  Lemma run_pkgs_agree : forall l, incl l wps ->
    exists devs o,
      D.execute D.fixed_all (a_all a) (map wp_d l) gens G = Ok (devs, o)
      /\ Forall2 ev_match (snd (fst (run_pkgs E a w (map gP gens) prev (map to_pkginfo l)))) (filter DP.is_callback devs)
      /\ out_match (snd (run_pkgs E a w (map gP gens) prev (map to_pkginfo l))) o.
  Proof.
    induction l as [|wp r IH]; intros Hincl.
    { exists [], D.Done. repeat split; constructor. }
    assert (Hwp : In wp wps) by (apply Hincl; left; reflexivity).
    destruct IH as [devs' [o' [Hex' [Hev' Hom']]]]. { intros x Hx. apply Hincl. right. exact Hx. }
    pose proof (run_pkgs_cons E a w (map gP gens) prev (to_pkginfo wp) (map to_pkginfo r)) as Hrun. cbv zeta in Hrun.
    destruct (pkg_effects_trace E Hfmt a (map gP gens) (to_pkginfo wp)) as [Htr Hout].
    rewrite (selected_same wp Hwp), (Hchg wp Hwp), andb_true_r, Htr, Hout in Hrun. clear Htr Hout.
    cbn [map D.execute].
    destruct (a_all a || D.pk_direct (wp_d wp)); [|exists devs', o'; rewrite Hrun; auto].
    destruct (gen_phase_agree wp gens Hwp (incl_refl _) (fun g Hg => Hfuel wp g Hwp Hg))
      as [devs [o [ws [Hpg [Hev [Hom _]]]]]].
    unfold D.pkg_execute. rewrite Hpg. cbn [bind].
    apply out_match_inv in Hom. destruct o; [|destruct Hom as [g' [p' Hom]]..]; rewrite Hom in Hrun; cbn [bind].
    2,3: eexists _, _; split; [reflexivity|]; rewrite Hrun, (match_callbacks _ _ Hev); split; [exact Hev | exact I].
    rewrite Hex'. cbn [bind]. eexists _, _. split; [reflexivity|]. rewrite Hrun. cbn [fst snd]. split; [|exact Hom'].
    rewrite !filter_app, (match_callbacks _ _ Hev).
    replace (filter DP.is_callback (if is_nil ws then [] else [D.EWrites (D.pk_id (wp_d wp)) ws])) with (@nil D.event)
      by (destruct (is_nil ws); reflexivity).
    rewrite app_nil_r. apply Forall2_app; assumption.
  Qed.
End DispAgree.

Lemma sorted_world : forall modroot wps, sorted_pkgs (to_world modroot wps) = map to_pkginfo (sort_wps wps).
Proof.
  intros. unfold sorted_pkgs, sort_wps. cbn [w_pkgs to_world]. rewrite !sort_by_eq. apply (Order.sort_by_map wp_path). reflexivity.
Qed.

(* Dispatch.execute, run on the packages in the order Execute visits them, lists exactly the GenerateType /
   GenerateAliasType / Defer-callback events of Pipeline.exec_trace, in the same order, and ends the same way. *)
Theorem dispatch_agree : forall fmt order rk G wps fuel gens a modroot s,
  NoDup (map wp_path wps) ->
  (forall src, fmt src <> None) ->
  let E := whole_env fmt order rk G in
  let w := to_world modroot wps in
  (forall wp, In wp wps -> pkg_changed a w (load_prev E a w s) (to_pkginfo wp) = true) ->
  (forall wp g, In wp wps -> In g gens -> fuel_ok G fuel wp g) ->
  exists devs o,
    D.execute D.fixed_all (a_all a) (disp_pkgs wps) gens G = Ok (devs, o)
    /\ Forall2 (ev_match G wps gens) (exec_trace E a w (map (disp_gen wps fuel) gens) s) (filter DP.is_callback devs)
    /\ out_match (exec_outcome E a w (map (disp_gen wps fuel) gens) s) o.
Proof.
  intros fmt order rk G wps fuel gens a modroot s Hnd Hfmt E w Hchg Hfuel.
  unfold exec_trace, exec_outcome, run_all. subst w. rewrite sorted_world. unfold disp_pkgs.
  apply (run_pkgs_agree fmt order rk G wps fuel Hnd gens Hfmt a modroot _ Hchg Hfuel).
  intros x Hx. unfold sort_wps in Hx. exact (proj1 (sort_by_In wp_path wps x) Hx).
Qed.

(* C06's exactly-once, OF the pipeline trace *)
(* In a successful run, for a processed package wp and a generator g of the run, the run's call log contains — as
   one contiguous segment — calls [cs] followed by the callbacks, where [cs] is characterised exactly as in
   C06_exactly_once (each enabled package-scope named type once with GenerateType; each enabled alias once with
   GenerateAliasType iff g is an AliasGenerator; nothing else), and every callback of the forest registered by
   those calls runs exactly once (the pipeline's callback indices are 0, 1, 2, ... in order). *)
Theorem pipeline_exactly_once : forall fmt order rk G wps fuel gens a modroot s wp g,
  NoDup (map wp_path wps) -> In wp wps -> In g gens ->
  NoDup (D.keys G) ->
  (forall d, In d (D.pk_defs (wp_d wp)) -> NoDup (D.keys (D.td_tags d))) ->
  NoDup (map D.td_name (filter D.td_pkgscope (D.pk_defs (wp_d wp)))) ->
  (forall d, In d (D.pk_defs (wp_d wp)) -> D.td_action d <> D.AErr) ->
  (forall d, In d (D.pk_defs (wp_d wp)) -> forallb D.no_err_tree (D.td_defers d) = true) ->
  fuel_ok G fuel wp g ->
  let E := whole_env fmt order rk G in
  let w := to_world modroot wps in
  let gs := map (disp_gen wps fuel) gens in
  exec_outcome E a w gs s = Done -> processed E a w s (to_pkginfo wp) = true ->
  exists cs ran pre post,
    NoDup cs
    /\ (forall k d, In (k, d) cs <->
          In d (D.pk_defs (wp_d wp)) /\ D.td_pkgscope d = true
          /\ DP.enabled_eff_spec (D.g_name g) G (P_of wp) (D.td_tags d) = true
          /\ ((k = D.CT /\ D.td_kind d = D.KNamed) \/ (k = D.CA /\ D.td_kind d = D.KAlias /\ D.g_alias g = true)))
    /\ Permutation (map D.root_id ran) (D.ids_all (D.registered cs))
    /\ exec_trace E a w gs s
       = pre ++ (map (tr_call wp g) cs ++ map (tr_defer wp g) (combine (seq 0 (List.length ran)) ran)) ++ post.
Proof.
  intros fmt order rk G wps fuel gens a modroot s wp g Hnd Hwp Hg HG Htags Hnames Hnoerr Hdefok Hfuel E w gs Hdone Hproc.
  destruct (gen_run_agree fmt order rk G wps fuel Hnd wp g Hwp Hfuel) as [cs [e [ran [e2 [ign [Hdg [Hdefs [Hq [_ Hrun]]]]]]]]].
  destruct (DP.exactly_once g G (P_of wp) (D.pk_defs (wp_d wp)) (D.pk_defs (wp_d wp))
              (D.keys (D.type_table true (D.pk_defs (wp_d wp)))) HG (DP.merge_nodup _) Htags Hnames
              (Permutation_refl _) (Permutation_refl _) Hnoerr) as [cs' [Hdg' [Hnd' Hiff]]].
  fold (wp_table wp) in Hdg'. rewrite Hdg in Hdg'. inversion Hdg'; subst cs' e. clear Hdg'.
  (* no callback fails: the queue runs the whole forest *)
  assert (Hreg : forallb D.no_err_tree (D.registered cs) = true).
  { apply forallb_forall. intros x Hx. apply in_flat_map in Hx. destruct Hx as [c [Hc Hx]].
    destruct (D.is_nil_action (D.td_action (snd c))); [|contradiction].
    exact (proj1 (forallb_forall _ _) (Hdefok _ (Hdefs c Hc)) x Hx). }
  destruct (DP.run_defers_queue_ok (D.qsize (D.registered cs)) (D.registered cs) (le_n _) Hreg) as [l [Hl [Hperm _]]].
  rewrite Hl in Hq. inversion Hq; subst l e2.
  destruct (exec_trace_segment E a w gs s (to_pkginfo wp) (disp_gen wps fuel g) Hdone) as [pre [post Hseg]].
  { cbn [w_pkgs w to_world]. apply in_map. exact Hwp. } { exact Hproc. } { unfold gs. apply in_map. exact Hg. }
  exists cs, ran, pre, post. split; [exact Hnd'|]. split; [exact Hiff|]. split; [exact Hperm|].
  rewrite Hseg. unfold E. rewrite Hrun. reflexivity.
Qed.

(* Dispatch's write event for a package (EWrites pid ws: the write phase, for the generators whose buffer is not
   empty) and the destinations Pipeline.pkg_effects opens (ETruncate) are the same set of generators. *)
Theorem dispatch_writes_agree : forall fmt order rk G wps fuel gens a wp,
  NoDup (map wp_path wps) -> (forall p l, Permutation (order p l) l) ->
  In wp wps -> (forall g, In g gens -> fuel_ok G fuel wp g) ->
  let E := whole_env fmt order rk G in
  let gs := map (disp_gen wps fuel) gens in
  snd (pkg_effects E a gs (to_pkginfo wp)) = Done ->
  exists devs ws,
    D.pkg_execute D.fixed_all (wp_d wp) gens G
    = Ok (devs ++ (if is_nil ws then [] else [D.EWrites (D.pk_id (wp_d wp)) ws]), D.Done)
    /\ ws = map D.g_idx (filter (renders_on fmt order rk G wps fuel wp) gens)
    /\ Permutation (truncated (fst (fst (pkg_effects E a gs (to_pkginfo wp)))))
                   (map (fun g => gen_file a (to_pkginfo wp) (D.g_name g)) (filter (renders_on fmt order rk G wps fuel wp) gens)).
Proof.
  intros fmt order rk G wps fuel gens a wp Hnd Hord Hwp Hfuel E gs Hd.
  destruct (gen_phase_agree fmt order rk G wps fuel Hnd gens wp gens Hwp (incl_refl _) Hfuel)
    as [devs [o [ws [Hpg [_ [Hom Hws]]]]]].
  assert (Hout : snd (gen_phase E gs (to_pkginfo wp)) = Done).
  { rewrite pkg_effects_eq in Hd. cbv zeta in Hd. destruct (snd (gen_phase E gs (to_pkginfo wp))); [reflexivity | discriminate Hd..]. }
  fold E in Hom. fold gs in Hom. rewrite Hout in Hom. destruct o; try contradiction. specialize (Hws eq_refl).
  exists devs, ws. split; [unfold D.pkg_execute; rewrite Hpg; reflexivity|]. split; [exact Hws|].
  eapply Permutation_trans; [apply (pkg_effects_truncated E Hord a gs (to_pkginfo wp) Hd)|].
  unfold gs. rewrite Order.filter_map_comm, map_map. apply Permutation_refl.
Qed.
