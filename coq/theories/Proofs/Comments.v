(* Lemmas for C12: the tag-extraction loop against its declarative specification, and the
   two comment indexes ("first writer wins") against the line-based attribution spec.
   Two small readings of a tag map DEFINED here occur in statements of Props/C12.v: [tag_values] (the values under a
   key, none when it is absent) and [total] (how many values the map holds). *)
Require Import Gengo.Base.Bytes Gengo.Base.Order.
Require Gengo.Base.Assoc.
From Coq Require Import ZArith.
Require Import Gengo.Model.Comments Gengo.Spec.Comments.

(* Spec/Comments.v writes the one-byte trimmer and the line cutter out again with the model's text: convertible *)
Lemma trim_left_sp_eq s : trim_left_sp s = drop_spaces s.
Proof. reflexivity. Qed.

Lemma trim_sp_strip s : trim_sp s = strip s.
Proof. reflexivity. Qed.

Lemma one_of_existsb ms c : one_of ms c = existsb (Ascii.eqb c) ms.
Proof. induction ms as [|m r IH]; cbn; [reflexivity|]. destruct (Ascii.eqb c m); cbn; auto. Qed.

Lemma is_sep_sep c : is_sep c = sep c.
Proof. reflexivity. Qed.

Lemma markers_default ms : (if is_nil ms then default_markers else ms) = markers_or_default ms.
Proof. destruct ms; reflexivity. Qed.

Lemma split_kv_cut_spec s : split_kv_cut s = (upto_sep s, after_sep s).
Proof.
  unfold split_kv_cut. induction s as [|c r IH]; cbn; [reflexivity|].
  rewrite is_sep_sep. destruct (sep c); cbn; [reflexivity|].
  destruct (index_sep r) as [i|]; cbn in *.
  - injection IH as H1 H2. rewrite H1, H2. reflexivity.
  - injection IH as H1 H2. rewrite <- H1 at 1. rewrite <- H2. reflexivity.
Qed.

Lemma split_kv_spec s : split_kv true s = (upto_sep s, after_sep s).
Proof. exact (split_kv_cut_spec s). Qed.

(* the cut position is inside the line: line[:i] and line[i+1:] cannot fail *)
Lemma index_sep_lt s i : index_sep s = Some i -> i < length s.
Proof.
  revert i. induction s as [|c r IH]; cbn; intros i H; [discriminate|].
  destruct (is_sep c); [injection H as <-; lia|].
  destruct (index_sep r) as [j|]; cbn in H; [|discriminate].
  injection H as <-. specialize (IH j eq_refl). lia.
Qed.

(* the key contains no separator, and key ++ separator ++ value is the payload *)
Lemma upto_sep_no_sep s : forallb (fun c => negb (sep c)) (upto_sep s) = true.
Proof. induction s as [|c r IH]; cbn; [reflexivity|]. destruct (sep c) eqn:E; cbn; [reflexivity|]. rewrite E. exact IH. Qed.

Lemma upto_after_sep s :
  (forallb (fun c => negb (sep c)) s = true /\ upto_sep s = s /\ after_sep s = []) \/
  (exists c, sep c = true /\ s = upto_sep s ++ c :: after_sep s).
Proof.
  induction s as [|c r IH]; cbn.
  - left. auto.
  - destruct (sep c) eqn:E; cbn.
    + right. exists c. auto.
    + destruct IH as [[H1 [H2 H3]]|[c' [H1 H2]]].
      * left. rewrite H1, H2, H3. auto.
      * right. exists c'. split; [exact H1|]. rewrite <- H2. reflexivity.
Qed.

Definition tag_values (k : bytes) (m : tagmap) : list bytes :=
  match tag_lookup k m with Some vs => vs | None => [] end.
Definition total (m : tagmap) : nat := length (concat (map snd m)).

(* [tag_lookup] is Base/Assoc.v's [get] as it stands; tags[k] = append(tags[k], v) is its [set] of the longer list *)
Lemma tag_append_set k v m : tag_append k v m = Assoc.set bytes_eqb k (tag_values k m ++ [v]) m.
Proof.
  unfold tag_values. induction m as [|[k2 vs] r IH]; cbn; [reflexivity|].
  destruct (bytes_eqbP k k2) as [<-|_]; [reflexivity|]. rewrite IH. reflexivity.
Qed.

Lemma tag_lookup_append k k' v m :
  tag_lookup k (tag_append k' v m) =
    if bytes_eqb k k' then Some (tag_values k m ++ [v]) else tag_lookup k m.
Proof.
  rewrite tag_append_set. pose proof (Assoc.get_set _ bytes_eqbP m k k' (tag_values k' m ++ [v])) as H.
  destruct (bytes_eqbP k k') as [<-|_]; exact H.
Qed.

Lemma tag_values_append k k' v m :
  tag_values k (tag_append k' v m) = if bytes_eqb k k' then tag_values k m ++ [v] else tag_values k m.
Proof.
  unfold tag_values at 1. rewrite tag_lookup_append. destruct (bytes_eqb k k'); reflexivity.
Qed.

Lemma tag_lookup_none k m : tag_lookup k m = None <-> ~ In k (map fst m).
Proof. exact (Assoc.get_None _ bytes_eqbP m k). Qed.

Lemma tag_append_keys k v m :
  (In k (map fst m) -> map fst (tag_append k v m) = map fst m) /\
  (~ In k (map fst m) -> map fst (tag_append k v m) = map fst m ++ [k]).
Proof.
  rewrite tag_append_set, (Assoc.set_keys _ bytes_eqbP). change (Assoc.get bytes_eqb k m) with (tag_lookup k m).
  destruct (tag_lookup k m) eqn:E; [|apply tag_lookup_none in E; tauto].
  rewrite app_nil_r, <- tag_lookup_none. split; congruence.
Qed.

Lemma tag_append_nodup k v m : NoDup (map fst m) -> NoDup (map fst (tag_append k v m)).
Proof. rewrite tag_append_set. apply (Assoc.set_NoDup _ bytes_eqbP). Qed.

Lemma total_append k v m : total (tag_append k v m) = S (total m).
Proof.
  unfold total. induction m as [|[k2 vs] r IH]; cbn; [reflexivity|].
  destruct (bytes_eqb k k2); cbn.
  - rewrite ?app_length. cbn. rewrite ?app_length. cbn. lia.
  - rewrite ?app_length. rewrite IH. lia.
Qed.

Lemma extract_loop_cons ms line0 ls tags others :
  extract_loop true ms (line0 :: ls) tags others =
    if is_tag ms (strip line0)
    then extract_loop true ms ls (tag_append (tag_key (strip line0)) (tag_value (strip line0)) tags) others
    else extract_loop true ms ls tags (others ++ [strip line0]).
Proof.
  cbn [extract_loop]. rewrite trim_sp_strip. destruct (strip line0) as [|c payload]; cbn [is_tag].
  - reflexivity.
  - rewrite one_of_existsb. destruct (existsb (Ascii.eqb c) ms); [|reflexivity].
    rewrite split_kv_spec. reflexivity.
Qed.

Lemma spec_others_cons ms line0 ls :
  spec_others ms (line0 :: ls) =
    if is_tag ms (strip line0) then spec_others ms ls else strip line0 :: spec_others ms ls.
Proof. unfold spec_others. cbn. destruct (is_tag ms (strip line0)); reflexivity. Qed.

Lemma spec_values_cons ms line0 ls k :
  spec_values ms (line0 :: ls) k =
    if is_tag ms (strip line0) && bytes_eqb (tag_key (strip line0)) k
    then tag_value (strip line0) :: spec_values ms ls k else spec_values ms ls k.
Proof.
  unfold spec_values. cbn.
  destruct (is_tag ms (strip line0) && bytes_eqb (tag_key (strip line0)) k); reflexivity.
Qed.

Lemma extract_loop_others ms ls : forall tags others,
  snd (extract_loop true ms ls tags others) = others ++ spec_others ms ls.
Proof.
  induction ls as [|line0 ls IH]; intros tags others.
  - cbn. rewrite app_nil_r. reflexivity.
  - rewrite extract_loop_cons, spec_others_cons. destruct (is_tag ms (strip line0)).
    + apply IH.
    + rewrite IH, <- app_assoc. reflexivity.
Qed.

Lemma extract_loop_lookup ms ls : forall tags others k,
  tag_lookup k (fst (extract_loop true ms ls tags others)) =
    match spec_values ms ls k with [] => tag_lookup k tags | vs => Some (tag_values k tags ++ vs) end.
Proof.
  induction ls as [|line0 ls IH]; intros tags others k; [reflexivity|].
  rewrite extract_loop_cons, spec_values_cons. destruct (is_tag ms (strip line0)); cbn [andb]; [|apply IH].
  rewrite IH, tag_lookup_append, tag_values_append, (bytes_eqb_sym k).
  destruct (bytes_eqb (tag_key (strip line0)) k); [|reflexivity].
  destruct (spec_values ms ls k); [reflexivity|]. rewrite <- app_assoc. reflexivity.
Qed.

Lemma extract_loop_nodup ms ls : forall tags others,
  NoDup (map fst tags) -> NoDup (map fst (fst (extract_loop true ms ls tags others))).
Proof.
  induction ls as [|line0 ls IH]; intros tags others H; [exact H|].
  rewrite extract_loop_cons. destruct (is_tag ms (strip line0)); apply IH; [apply tag_append_nodup|]; exact H.
Qed.

Lemma extract_loop_count ms ls : forall tags others,
  length (snd (extract_loop true ms ls tags others)) + total (fst (extract_loop true ms ls tags others))
  = length others + total tags + length ls.
Proof.
  induction ls as [|line0 ls IH]; intros tags others; [cbn [extract_loop fst snd length]; lia|].
  rewrite extract_loop_cons. destruct (is_tag ms (strip line0)); rewrite IH.
  - rewrite total_append. cbn [length]. lia.
  - rewrite app_length. cbn [length]. lia.
Qed.

(* the statement of C12's last sentence, for every marker set and every list of lines *)
Lemma extract_tags_spec markers lines :
  let ms := markers_or_default markers in
  let tags := fst (extract_tags true markers lines) in
  let others := snd (extract_tags true markers lines) in
  others = spec_others ms lines
  /\ (forall k, tag_values k tags = spec_values ms lines k)
  /\ (forall k, tag_lookup k tags = None <-> spec_values ms lines k = [])
  /\ NoDup (map fst tags)
  /\ length others + total tags = length lines.
Proof.
  unfold extract_tags. rewrite markers_default. cbn zeta.
  set (ms := markers_or_default markers).
  pose proof (fun k => extract_loop_lookup ms lines [] [] k) as Hl. cbn [tag_lookup] in Hl.
  repeat split.
  - rewrite extract_loop_others. reflexivity.
  - intros k. unfold tag_values. rewrite Hl. destruct (spec_values ms lines k); reflexivity.
  - intros H. rewrite Hl in H. destruct (spec_values ms lines k); [reflexivity|discriminate].
  - intros H. rewrite Hl, H. reflexivity.
  - apply extract_loop_nodup. constructor.
  - rewrite extract_loop_count. reflexivity.
Qed.

Lemma split_nl_acc_cut s : forall cur, split_nl_acc s cur = cut_lines s cur.
Proof. reflexivity. Qed.

Lemma has_prefix_go l : has_prefix go_colon l = starts_with_go l.
Proof.
  destruct l as [|a [|c [|d r]]]; unfold go_colon, b; cbn [has_prefix starts_with_go];
    rewrite ?andb_false_r; try reflexivity.
  rewrite (Ascii.eqb_sym (ascii_of_N 103) a), (Ascii.eqb_sym (ascii_of_N 111) c),
    (Ascii.eqb_sym (ascii_of_N 58) d), andb_true_r, andb_assoc. reflexivity.
Qed.

Lemma group_lines_spec text : group_lines true text = spec_lines text.
Proof.
  unfold group_lines, spec_lines, split_nl. cbn [andb]. destruct (trim_space text) as [|c r] eqn:E; cbn [is_nil].
  - reflexivity.
  - rewrite split_nl_acc_cut. apply filter_ext. intros l. rewrite has_prefix_go. reflexivity.
Qed.

Lemma key_eqb_spec (a c : key) : key_eqb a c = true <-> a = c.
Proof.
  destruct a as [f1 l1], c as [f2 l2]. unfold key_eqb. cbn.
  rewrite andb_true_iff, N.eqb_eq, Z.eqb_eq. split.
  - intros [-> ->]. reflexivity.
  - intros H. injection H. auto.
Qed.
Lemma key_eqb_refl a : key_eqb a a = true.
Proof. apply key_eqb_spec. reflexivity. Qed.

Lemma pos_eqb_spec a c : pos_eqb a c = true <-> a = c.
Proof.
  destruct a as [f1 l1 c1], c as [f2 l2 c2]. unfold pos_eqb. cbn.
  rewrite !andb_true_iff, !N.eqb_eq, Z.eqb_eq. split.
  - intros [[-> ->] ->]. reflexivity.
  - intros H. injection H. auto.
Qed.
Lemma pos_eqb_refl a : pos_eqb a a = true.
Proof. apply pos_eqb_spec. reflexivity. Qed.

Lemma group_eqb_spec a c : group_eqb a c = true <-> a = c.
Proof.
  destruct a as [p1 e1 t1], c as [p2 e2 t2]. unfold group_eqb. cbn.
  rewrite !andb_true_iff, pos_eqb_spec, Z.eqb_eq, bytes_eqb_spec. split.
  - intros [[-> ->] ->]. reflexivity.
  - intros H. injection H. auto.
Qed.

Lemma gmem_spec g l : gmem g l = true <-> In g l.
Proof.
  induction l as [|x r IH]; cbn.
  - split; [discriminate|intros []].
  - rewrite orb_true_iff, group_eqb_spec, IH. split; intros [H|H]; auto.
Qed.

Lemma key_eqbP a c : reflect (a = c) (key_eqb a c).
Proof. apply iff_reflect. symmetry. apply key_eqb_spec. Qed.

(* [glookup] is Base/Assoc.v's [get] as it stands, [gset] its [set] but for keeping the stored copy of the key *)
Lemma glookup_gset k k' v m :
  glookup k (gset k' v m) = if key_eqb k k' then Some v else glookup k m.
Proof.
  rewrite (Assoc.set_unfold _ key_eqbP gset (fun _ k2 => k2) (fun _ => eq_refl)) by (intros ? ? [|[]]; reflexivity).
  exact (Assoc.get_set _ key_eqbP m k k' v).
Qed.

Lemma gget_gset k k' v m : gget k (gset k' v m) = if key_eqb k k' then v else gget k m.
Proof. unfold gget. rewrite glookup_gset. destruct (key_eqb k k'); reflexivity. Qed.

Lemma gget_some_lookup k m g : gget k m = Some g -> glookup k m = Some (Some g).
Proof. unfold gget. destruct (glookup k m) as [[x|]|]; intros H; try discriminate. congruence. Qed.

(* if cc := m[fl]; cc == nil { m[fl] = c } *)
Definition put (m : gmap) (w : key * option group) : gmap :=
  match gget (fst w) m with
  | None => gset (fst w) (snd w) m
  | Some _ => m
  end.

Fixpoint first_some (k : key) (ws : list (key * option group)) : option group :=
  match ws with
  | [] => None
  | (k', v) :: r =>
      if key_eqb k k' then match v with Some g => Some g | None => first_some k r end
      else first_some k r
  end.

Lemma glookup_put k m w :
  glookup k (put m w) =
    if key_eqb k (fst w) then Some (match gget k m with Some g => Some g | None => snd w end) else glookup k m.
Proof.
  unfold put. destruct (key_eqb k (fst w)) eqn:E.
  - apply key_eqb_spec in E. subst k. unfold gget.
    destruct (glookup (fst w) m) as [[g|]|] eqn:El; cbv iota; rewrite ?glookup_gset, ?key_eqb_refl, ?El; reflexivity.
  - destruct (gget (fst w) m); [reflexivity|]. rewrite glookup_gset, E. reflexivity.
Qed.

Lemma fold_put_gget ws : forall m k,
  gget k (fold_left put ws m) = match gget k m with Some g => Some g | None => first_some k ws end.
Proof.
  induction ws as [|[k' v] ws IH]; intros m k; cbn [fold_left first_some].
  - destruct (gget k m); reflexivity.
  - rewrite IH. unfold gget at 1. rewrite glookup_put. cbn [fst snd].
    destruct (key_eqb k k'); [destruct (gget k m), v; reflexivity|reflexivity].
Qed.

Lemma put_present k m w : glookup k m <> None -> glookup k (put m w) <> None.
Proof. intros H. rewrite glookup_put. destruct (key_eqb k (fst w)); [discriminate|exact H]. Qed.

Lemma put_present_self m w : glookup (fst w) (put m w) <> None.
Proof. rewrite glookup_put, key_eqb_refl. discriminate. Qed.

Lemma fold_put_present ws : forall m k,
  (glookup k m <> None \/ exists v, In (k, v) ws) -> glookup k (fold_left put ws m) <> None.
Proof.
  induction ws as [|w ws IH]; intros m k H; cbn [fold_left].
  - destruct H as [H|[v []]]. exact H.
  - apply IH. destruct H as [H|[v [H|H]]].
    + left. apply put_present. exact H.
    + left. subst w. apply (put_present_self m (k, v)).
    + right. exists v. exact H.
Qed.

Lemma first_some_in k ws g : first_some k ws = Some g -> In (k, Some g) ws.
Proof.
  induction ws as [|[k' v] r IH]; cbn; [discriminate|].
  destruct (key_eqb k k') eqn:E.
  - apply key_eqb_spec in E. subst k'. destruct v as [g'|].
    + intros H. injection H as ->. left. reflexivity.
    + intros H. right. auto.
  - intros H. right. auto.
Qed.

Lemma first_some_exists k ws g : In (k, Some g) ws -> first_some k ws <> None.
Proof.
  induction ws as [|[k' v] r IH]; cbn; [intros []|].
  intros [H|H].
  - injection H as -> ->. rewrite key_eqb_refl. discriminate.
  - destruct (key_eqb k k'); [destruct v; [discriminate|]|]; auto.
Qed.

(* The walk writes to each index in a fixed order: the index is the fold of [put] over the list of its writes
   ([build_from]), so a lookup returns the first non-nil write under the key ([fold_put_gget]). *)
Fixpoint lead_writes (fx : bool) (seen : list group) (evs : list event) : list (key * option group) :=
  match evs with
  | [] => []
  | EGroup g :: r =>
      if fx && gmem g seen then lead_writes fx seen r
      else (key_for (Some g) false (g_pos g), Some g) :: lead_writes fx seen r
  | EDecl d :: r =>
      (key_for (d_doc d) false (d_pos d), d_doc d) ::
      lead_writes fx (match d_cmt d with Some c => if fx then c :: seen else seen | None => seen end) r
  end.

Definition trail_writes (evs : list event) : list (key * option group) :=
  map (fun d => (key_for (d_cmt d) true (d_pos d), d_cmt d)) (decls_of evs).

Lemma collect_lead fx ix c stmt :
  collect fx ix c false stmt = mk_index (put (ix_lead ix) (key_for c false stmt, c)) (ix_trail ix) (ix_seen ix).
Proof.
  unfold collect, put. cbn [fst snd]. rewrite andb_false_r.
  destruct (gget (key_for c false stmt) (ix_lead ix)); destruct c, ix; reflexivity.
Qed.

Lemma collect_trail fx ix c stmt :
  collect fx ix c true stmt =
    mk_index (ix_lead ix) (put (ix_trail ix) (key_for c true stmt, c))
      (match c with Some g => if fx then g :: ix_seen ix else ix_seen ix | None => ix_seen ix end).
Proof.
  unfold collect, put. cbn [fst snd]. rewrite andb_true_r.
  destruct (gget (key_for c true stmt) (ix_trail ix)); destruct c, ix; reflexivity.
Qed.

Lemma build_from fx evs : forall ix,
  ix_lead (fold_left (step fx) evs ix) = fold_left put (lead_writes fx (ix_seen ix) evs) (ix_lead ix)
  /\ ix_trail (fold_left (step fx) evs ix) = fold_left put (trail_writes evs) (ix_trail ix).
Proof.
  induction evs as [|e evs IH]; intros ix; cbn [fold_left]; [auto|].
  destruct (IH (step fx ix e)) as [-> ->].
  destruct e as [g|d]; cbn [step lead_writes trail_writes decls_of flat_map app map].
  - destruct (fx && gmem g (ix_seen ix)); [|rewrite collect_lead]; auto.
  - rewrite collect_trail, collect_lead. auto.
Qed.

Lemma build_lead fx evs k :
  gget k (ix_lead (build fx evs)) = first_some k (lead_writes fx [] evs).
Proof. unfold build. destruct (build_from fx evs empty_index) as [H _]. rewrite H, fold_put_gget. reflexivity. Qed.

Lemma build_trail fx evs k :
  gget k (ix_trail (build fx evs)) = first_some k (trail_writes evs).
Proof. unfold build. destruct (build_from fx evs empty_index) as [_ H]. rewrite H, fold_put_gget. reflexivity. Qed.

Lemma build_trail_present fx evs k v :
  In (k, v) (trail_writes evs) -> glookup k (ix_trail (build fx evs)) <> None.
Proof.
  intros H. unfold build. destruct (build_from fx evs empty_index) as [_ H2]. rewrite H2.
  apply fold_put_present. right. exists v. exact H.
Qed.

Lemma decls_of_app a c : decls_of (a ++ c) = decls_of a ++ decls_of c.
Proof. unfold decls_of. apply flat_map_app. Qed.

Lemma in_decls_of d evs : In d (decls_of evs) <-> In (EDecl d) evs.
Proof.
  unfold decls_of. rewrite in_flat_map. split.
  - intros [[g|d'] [H1 H2]]; cbn in H2; [destruct H2|]. destruct H2 as [<-|[]]. exact H1.
  - intros H. exists (EDecl d). split; [exact H|left; reflexivity].
Qed.

Lemma key_for_group g : key_for (Some g) false (g_pos g) = (p_file (g_pos g), g_end g).
Proof. unfold key_for. rewrite pos_eqb_refl. reflexivity. Qed.

Lemma trail_writes_in evs k v : In (k, v) (trail_writes evs) ->
  exists d, In d (decls_of evs) /\ k = key_for (d_cmt d) true (d_pos d) /\ v = d_cmt d.
Proof. intros H. apply in_map_iff in H. destruct H as (d & E & Hd). injection E as <- <-. exists d. auto. Qed.

Lemma trail_writes_decl evs d : In d (decls_of evs) ->
  In (key_for (d_cmt d) true (d_pos d), d_cmt d) (trail_writes evs).
Proof. exact (in_map _ _ d). Qed.

Lemma doc_group_first fx evs f l :
  prior (build fx evs) f l (-1) = first_some (f, (l - 1)%Z) (lead_writes fx [] evs).
Proof. exact (build_lead fx evs (f, (l - 1)%Z)). Qed.

Lemma lead_ending_some leads f l g :
  lead_ending leads f l = Some g -> In g leads /\ p_file (g_pos g) = f /\ g_end g = l.
Proof.
  intros H. apply find_some in H. destruct H as [Hg Hk]. apply andb_true_iff in Hk. destruct Hk as [Hf He].
  apply N.eqb_eq in Hf. apply Z.eqb_eq in He. auto.
Qed.

Section Layout.
  Variable evs : list event.
  Variable leads : list group.
  Hypothesis WF : wf evs leads.

  Lemma key_for_doc d g : In d (decls_of evs) -> d_doc d = Some g ->
    key_for (Some g) false (d_pos d) = (p_file (g_pos g), g_end g) /\ In g leads.
  Proof.
    intros Hd Hg. destruct (wf_doc _ _ WF d g Hd Hg) as [H1 [H2 [H3 H4]]].
    unfold key_for. rewrite H4. cbn. rewrite H2, H3. auto.
  Qed.

  Lemma key_for_cmt d : In d (decls_of evs) ->
    key_for (d_cmt d) true (d_pos d) = (p_file (d_pos d), p_line (d_pos d)).
  Proof.
    intros Hd. unfold key_for. destruct (d_cmt d) as [c|] eqn:E; [|reflexivity].
    destruct (wf_cmt _ _ WF d c Hd E) as [_ H]. rewrite H. reflexivity.
  Qed.

  (* What the repaired walk enters in the leading index: it skips a group registered as trailing, and on a
     well-formed layout those are the groups that do not stand alone. *)
  Definition lead_write (e : event) : list (key * option group) :=
    match e with
    | EGroup g => if gmem g leads then [((p_file (g_pos g), g_end g), Some g)] else []
    | EDecl d => [(key_for (d_doc d) false (d_pos d), d_doc d)]
    end.

  Lemma lead_writes_from : forall post pre seen,
    evs = pre ++ post ->
    (forall d c, In d (decls_of pre) -> d_cmt d = Some c -> In c seen) ->
    (forall c, In c seen -> ~ In c leads) ->
    lead_writes true seen post = flat_map lead_write post.
  Proof.
    induction post as [|e post IH]; intros pre seen Hev Hpre Hseen; [reflexivity|].
    assert (Hev' : evs = (pre ++ [e]) ++ post) by (rewrite <- app_assoc; exact Hev).
    destruct e as [g|d]; cbn [lead_writes flat_map lead_write andb].
    - rewrite (IH _ seen Hev'), key_for_group; [| |exact Hseen].
      + destruct (gmem g seen) eqn:Es, (gmem g leads) eqn:El; try reflexivity; exfalso.
        * apply gmem_spec in Es, El. exact (Hseen g Es El).
        * destruct (wf_group _ _ WF pre g post Hev) as [H|(d & Hd & Hc)].
          -- apply gmem_spec in H. congruence.
          -- apply (Hpre d g Hd), gmem_spec in Hc. congruence.
      + intros d c. rewrite decls_of_app, app_nil_r. apply Hpre.
    - cbn [app]. f_equal. apply (IH _ _ Hev').
      + intros d' c Hd'. rewrite decls_of_app in Hd'. apply in_app_or in Hd'.
        destruct Hd' as [Hd'|[<-|[]]]; intros Hc.
        * specialize (Hpre d' c Hd' Hc). destruct (d_cmt d); [right|]; exact Hpre.
        * rewrite Hc. left. reflexivity.
      + intros c Hc. destruct (d_cmt d) as [c0|] eqn:E; [|exact (Hseen c Hc)].
        destruct Hc as [<-|Hc]; [|exact (Hseen c Hc)].
        refine (proj1 (wf_cmt _ _ WF d c0 _ E)). rewrite Hev, decls_of_app. apply in_or_app. right. left. reflexivity.
  Qed.

  Lemma lead_writes_wf : lead_writes true [] evs = flat_map lead_write evs.
  Proof. apply (lead_writes_from evs [] []); [reflexivity|intros d c []|intros c []]. Qed.

  (* every non-nil write to the leading index is a stand-alone group under its own end line *)
  Lemma lead_writes_sound k g : In (k, Some g) (lead_writes true [] evs) ->
    In g leads /\ k = (p_file (g_pos g), g_end g).
  Proof.
    rewrite lead_writes_wf, in_flat_map. intros ([g0|d] & He & Hw); cbn [lead_write] in Hw.
    - destruct (gmem g0 leads) eqn:El; [|destruct Hw]. destruct Hw as [Hw|[]].
      injection Hw as <- <-. apply gmem_spec in El. auto.
    - destruct Hw as [Hw|[]]. injection Hw as <- Hg. apply in_decls_of in He.
      destruct (key_for_doc d g He Hg) as [H1 H2]. rewrite Hg. auto.
  Qed.

  (* a stand-alone group that the walk reaches, by itself or as the Doc of a declaration, is written *)
  Lemma lead_writes_complete g : In g leads ->
    In (EGroup g) evs \/ (exists d, In d (decls_of evs) /\ d_doc d = Some g) ->
    In ((p_file (g_pos g), g_end g), Some g) (lead_writes true [] evs).
  Proof.
    intros Hg H. rewrite lead_writes_wf, in_flat_map. destruct H as [H|(d & Hd & Hdoc)].
    - exists (EGroup g). split; [exact H|]. cbn [lead_write]. apply gmem_spec in Hg. rewrite Hg. left. reflexivity.
    - exists (EDecl d). split; [apply in_decls_of; exact Hd|]. cbn [lead_write].
      rewrite Hdoc, (proj1 (key_for_doc d g Hd Hdoc)). left. reflexivity.
  Qed.

  (* the group Doc reads, at any position: always a stand-alone group that ends on the line above *)
  Lemma doc_group_sound f l g :
    prior (build true evs) f l (-1) = Some g ->
    In g leads /\ p_file (g_pos g) = f /\ g_end g = (l - 1)%Z.
  Proof.
    rewrite doc_group_first. intros H. apply first_some_in, lead_writes_sound in H.
    destruct H as [H1 H2]. injection H2 as -> ->. auto.
  Qed.

  (* ... hence never the trailing comment of any declaration *)
  Lemma doc_group_no_steal f l g :
    prior (build true evs) f l (-1) = Some g ->
    forall d, In d (decls_of evs) -> d_cmt d <> Some g.
  Proof.
    intros H d Hd Hc. apply doc_group_sound in H. destruct H as [H _].
    exact (proj1 (wf_cmt _ _ WF d g Hd Hc) H).
  Qed.

  Lemma lead_ending_unique g : In g leads -> lead_ending leads (p_file (g_pos g)) (g_end g) = Some g.
  Proof.
    intros Hg. destruct (lead_ending leads _ _) as [g'|] eqn:E.
    - apply lead_ending_some in E. destruct E as (Hg' & Hf & He). f_equal. exact (wf_lead_unique _ _ WF g' g Hg' Hg Hf He).
    - apply (find_none _ _ E) in Hg. rewrite N.eqb_refl, Z.eqb_refl in Hg. discriminate.
  Qed.

  (* at any line such that the stand-alone group ending on the line above, if there is one, is reached by the walk:
     exactly that group.  [wf_attached] says that the line of a declaration is such a line. *)
  Lemma doc_group_own f l :
    (forall g, In g leads -> p_file (g_pos g) = f -> g_end g = (l - 1)%Z ->
       In (EGroup g) evs \/ exists d, In d (decls_of evs) /\ d_doc d = Some g) ->
    prior (build true evs) f l (-1) = lead_ending leads f (l - 1).
  Proof.
    intros Hv. destruct (prior _ _ _ _) as [g|] eqn:Ep.
    - apply doc_group_sound in Ep. destruct Ep as (Hg & <- & <-). symmetry. exact (lead_ending_unique g Hg).
    - destruct (lead_ending leads _ _) as [g|] eqn:E; [exfalso|reflexivity].
      apply lead_ending_some in E. destruct E as (Hg & Hf & He).
      rewrite doc_group_first, <- Hf, <- He in Ep. refine (first_some_exists _ _ _ _ Ep).
      apply lead_writes_complete; [exact Hg|]. exact (Hv g Hg Hf He).
  Qed.

  (* Comment at the line of a declaration reads the trailing index, never the leading one *)
  Lemma comment_group_trail d : In d (decls_of evs) ->
    prior (build true evs) (p_file (d_pos d)) (p_line (d_pos d)) 0
    = first_some (p_file (d_pos d), p_line (d_pos d)) (trail_writes evs).
  Proof.
    intros Hd. unfold prior. cbn [Z.eqb]. rewrite Z.add_0_r.
    pose proof (trail_writes_decl evs d Hd) as Hw. rewrite (key_for_cmt d Hd) in Hw.
    pose proof (build_trail_present true evs _ _ Hw) as Hp.
    rewrite <- (build_trail true). unfold gget.
    destruct (glookup _ (ix_trail (build true evs))); [reflexivity|congruence].
  Qed.

  Lemma comment_group_own d c : In d (decls_of evs) -> d_cmt d = Some c ->
    prior (build true evs) (p_file (d_pos d)) (p_line (d_pos d)) 0 = Some c.
  Proof.
    intros Hd Hc. rewrite (comment_group_trail d Hd).
    pose proof (trail_writes_decl evs d Hd) as Hw. rewrite (key_for_cmt d Hd), Hc in Hw.
    destruct (first_some _ (trail_writes evs)) as [c'|] eqn:E.
    - apply first_some_in, trail_writes_in in E. destruct E as [d' [Hd' [Hk Hv]]].
      rewrite (key_for_cmt d' Hd') in Hk. injection Hk as Hk1 Hk2. f_equal.
      apply (wf_cmt_line _ _ WF d' d c' c Hd' Hd); [split; congruence|congruence|exact Hc].
    - exfalso. exact (first_some_exists _ _ _ Hw E).
  Qed.

  Lemma comment_group_none d : In d (decls_of evs) ->
    (forall d', In d' (decls_of evs) -> same_line (d_pos d') (d_pos d) -> d_cmt d' = None) ->
    prior (build true evs) (p_file (d_pos d)) (p_line (d_pos d)) 0 = None.
  Proof.
    intros Hd Hnone. rewrite (comment_group_trail d Hd).
    destruct (first_some _ (trail_writes evs)) as [c'|] eqn:E; [|reflexivity].
    exfalso. apply first_some_in, trail_writes_in in E. destruct E as [d' [Hd' [Hk Hv]]].
    rewrite (key_for_cmt d' Hd') in Hk. injection Hk as Hk1 Hk2.
    rewrite (Hnone d' Hd') in Hv; [discriminate|]. split; congruence.
  Qed.
End Layout.

Lemma lines_of_spec g : lines_of true g = match g with Some g => spec_lines (g_text g) | None => [] end.
Proof. destruct g; cbn; [apply group_lines_spec|reflexivity]. Qed.

Lemma doc_own evs leads : wf evs leads -> forall d, In d (decls_of evs) ->
  doc_of true true (build true evs) (p_file (d_pos d)) (p_line (d_pos d))
  = extract_tags true [] (doc_lines_above leads (p_file (d_pos d)) (p_line (d_pos d))).
Proof.
  intros WF d Hd. unfold doc_of, doc_lines_above.
  rewrite (doc_group_own evs leads WF _ _ (fun g => wf_attached _ _ WF d g Hd)), lines_of_spec. reflexivity.
Qed.

Lemma comment_own evs leads : wf evs leads -> forall d c, In d (decls_of evs) -> d_cmt d = Some c ->
  comment_of true (build true evs) (p_file (d_pos d)) (p_line (d_pos d)) = spec_lines (g_text c).
Proof.
  intros WF d c Hd Hc. unfold comment_of.
  rewrite (comment_group_own evs leads WF d c Hd Hc), lines_of_spec. reflexivity.
Qed.

Lemma comment_none evs leads : wf evs leads -> forall d, In d (decls_of evs) ->
  (forall d', In d' (decls_of evs) -> same_line (d_pos d') (d_pos d) -> d_cmt d' = None) ->
  comment_of true (build true evs) (p_file (d_pos d)) (p_line (d_pos d)) = [].
Proof.
  intros WF d Hd Hn. unfold comment_of.
  rewrite (comment_group_none evs leads WF d Hd Hn). reflexivity.
Qed.

Lemma wf_group_b_sound leads pre g post : forall seen,
  wf_group_b leads seen (pre ++ EGroup g :: post) = true ->
  In g leads \/ In g seen \/ exists d, In d (decls_of pre) /\ d_cmt d = Some g.
Proof.
  induction pre as [|[g0|d] pre IH]; cbn [app wf_group_b]; intros seen Hb.
  - apply andb_true_iff in Hb. destruct Hb as [Hb _].
    apply orb_true_iff in Hb. destruct Hb as [Hb|Hb]; apply gmem_spec in Hb; auto.
  - apply andb_true_iff in Hb. exact (IH seen (proj2 Hb)).
  - destruct (IH _ Hb) as [H|[H|(d' & H1 & H2)]]; auto.
    + destruct (d_cmt d) as [c|] eqn:E; auto.
      destruct H as [<-|H]; auto.
      right. right. exists d. split; [left; reflexivity|exact E].
    + right. right. exists d'. split; [right; exact H1|exact H2].
Qed.

Lemma visited_b_sound evs g : visited_b evs g = true ->
  In (EGroup g) evs \/ exists d', In d' (decls_of evs) /\ d_doc d' = Some g.
Proof.
  unfold visited_b. rewrite existsb_exists. intros [e [He Hb]]. destruct e as [g'|d].
  - apply group_eqb_spec in Hb. subst g'. left. exact He.
  - destruct (d_doc d) as [g'|] eqn:E; [|discriminate]. apply group_eqb_spec in Hb. subst g'.
    right. exists d. split; [apply in_decls_of; exact He|exact E].
Qed.

Lemma wf_b_sound evs leads : wf_b evs leads = true -> wf evs leads.
Proof.
  unfold wf_b. intros H. repeat (apply andb_true_iff in H; destruct H as [H ?]).
  rename H into Hg, H0 into Hatt, H1 into Huniq, H2 into Hline, H3 into Hcmt, H4 into Hdoc.
  rewrite forallb_forall in Hdoc, Hcmt.
  constructor.
  - intros pre g post ->. destruct (wf_group_b_sound leads pre g post [] Hg) as [Hl|[[]|Hd]]; auto.
  - intros d g Hd Hdg. specialize (Hdoc d Hd). unfold wf_doc_b in Hdoc. rewrite Hdg in Hdoc.
    repeat (apply andb_true_iff in Hdoc; destruct Hdoc as [Hdoc ?]).
    apply gmem_spec in Hdoc. apply N.eqb_eq in H1. apply Z.eqb_eq in H0. apply negb_true_iff in H. auto.
  - intros d c Hd Hdc. specialize (Hcmt d Hd). unfold wf_cmt_b in Hcmt. rewrite Hdc in Hcmt.
    apply andb_true_iff in Hcmt. destruct Hcmt as [H1 H2]. apply negb_true_iff in H1, H2.
    split; [|exact H2]. intros Hin. apply gmem_spec in Hin. congruence.
  - intros d1 d2 c1 c2 H1 H2 [Hf Hl] Hc1 Hc2. unfold wf_cmt_line_b in Hline.
    rewrite forallb_forall in Hline. specialize (Hline d1 H1). rewrite forallb_forall in Hline.
    specialize (Hline d2 H2). rewrite Hc1, Hc2 in Hline. unfold same_line_b in Hline.
    rewrite Hf, Hl, N.eqb_refl, Z.eqb_refl in Hline. apply group_eqb_spec. exact Hline.
  - intros g1 g2 H1 H2 Hf He. unfold wf_lead_unique_b in Huniq.
    rewrite forallb_forall in Huniq. specialize (Huniq g1 H1). rewrite forallb_forall in Huniq.
    specialize (Huniq g2 H2). rewrite Hf, He, N.eqb_refl, Z.eqb_refl in Huniq. apply group_eqb_spec. exact Huniq.
  - intros d g Hd Hgl Hf He. unfold wf_attached_b in Hatt.
    rewrite forallb_forall in Hatt. specialize (Hatt d Hd). rewrite forallb_forall in Hatt.
    specialize (Hatt g Hgl). rewrite Hf, He, N.eqb_refl, Z.eqb_refl in Hatt. apply visited_b_sound. exact Hatt.
Qed.

(* `A int // trailing A` on line 4, `B int` on line 5 of file 0 *)
Definition w_trail : group := mk_group (mk_pos 0 4 8) 4 (bs "trailing A" ++ [c_nl]).
Definition w_a : decl := mk_decl (mk_pos 0 4 2) [4%Z] None (Some w_trail).
Definition w_b : decl := mk_decl (mk_pos 0 5 2) [5%Z] None None.
Definition w_events : list event := [EDecl w_a; EGroup w_trail; EDecl w_b].

Lemma w_wf : wf w_events [].
Proof. apply wf_b_sound. vm_compute. reflexivity. Qed.

Lemma doc_own_old_refuted :
  exists evs leads d, wf evs leads /\ In d (decls_of evs) /\
    doc_of true true (build false evs) (p_file (d_pos d)) (p_line (d_pos d))
    <> extract_tags true [] (doc_lines_above leads (p_file (d_pos d)) (p_line (d_pos d))).
Proof.
  exists w_events, [], w_b. split; [exact w_wf|]. split; [right; left; reflexivity|].
  vm_compute. discriminate.
Qed.

Lemma no_steal_old_refuted :
  exists evs leads f l g d, wf evs leads /\ prior (build false evs) f l (-1) = Some g /\
    In d (decls_of evs) /\ d_cmt d = Some g.
Proof.
  exists w_events, [], 0%N, 5%Z, w_trail, w_a. split; [exact w_wf|].
  split; [vm_compute; reflexivity|]. split; [left; reflexivity|reflexivity].
Qed.

(* the repaired code on the same layout *)
Lemma doc_own_witness_fixed :
  doc_of true true (build true w_events) 0 5 = ([], [])
  /\ comment_of true (build true w_events) 0 4 = [bs "trailing A"].
Proof. vm_compute. split; reflexivity. Qed.

(* a group whose Text() is empty (only a //go: directive): one empty line before the repair *)
Lemma empty_text_old_refuted : exists text, group_lines false text <> spec_lines text.
Proof. exists []. vm_compute. discriminate. Qed.

(* the payload "k=\xff" of a line "+k=\xff": the value came back as U+FFFD before the repair *)
Lemma split_kv_old_refuted : exists s, split_kv false s <> (upto_sep s, after_sep s).
Proof. exists [ascii_of_N 107; ascii_of_N 61; ascii_of_N 255]. vm_compute. discriminate. Qed.

Lemma names_on_first_line evs : name_on_continuation_line evs = false ->
  forall d l, In d (decls_of evs) -> In l (d_names d) -> l = p_line (d_pos d).
Proof.
  unfold name_on_continuation_line. intros H d l Hd Hl. apply Z.eqb_eq.
  destruct (Z.eqb l (p_line (d_pos d))) eqn:E; [reflexivity|]. rewrite <- H.
  apply existsb_exists. exists d. split; [exact Hd|]. apply existsb_exists. exists l. split; [exact Hl|].
  rewrite E. reflexivity.
Qed.

Lemma names_partial evs leads : wf evs leads -> name_on_continuation_line evs = false ->
  forall d l, In d (decls_of evs) -> In l (d_names d) ->
    doc_of true true (build true evs) (p_file (d_pos d)) l
    = extract_tags true [] (doc_lines_above leads (p_file (d_pos d)) (p_line (d_pos d)))
    /\ (forall c, d_cmt d = Some c ->
          comment_of true (build true evs) (p_file (d_pos d)) l = spec_lines (g_text c)).
Proof.
  intros WF Hn d l Hd Hl. rewrite (names_on_first_line evs Hn d l Hd Hl). split.
  - apply doc_own; assumption.
  - intros c Hc. apply (comment_own evs leads WF d c Hd Hc).
Qed.

(* `// doc` / `F,` / `G int // trailing FG`: G is on line 5, the declaration starts on line 4 *)
Definition n_doc : group := mk_group (mk_pos 0 3 2) 3 (bs "doc" ++ [c_nl]).
Definition n_trail : group := mk_group (mk_pos 0 5 8) 5 (bs "trailing FG" ++ [c_nl]).
Definition n_fg : decl := mk_decl (mk_pos 0 4 2) [4%Z; 5%Z] (Some n_doc) (Some n_trail).
Definition n_events : list event := [EDecl n_fg; EGroup n_doc; EGroup n_trail].

Lemma names_refuted :
  exists evs leads d l c, wf evs leads /\ In d (decls_of evs) /\ In l (d_names d) /\ d_cmt d = Some c /\
    comment_of true (build true evs) (p_file (d_pos d)) l <> spec_lines (g_text c) /\
    doc_of true true (build true evs) (p_file (d_pos d)) l
    <> extract_tags true [] (doc_lines_above leads (p_file (d_pos d)) (p_line (d_pos d))).
Proof.
  exists n_events, [n_doc], n_fg, 5%Z, n_trail.
  split; [apply wf_b_sound; vm_compute; reflexivity|].
  split; [left; reflexivity|]. split; [right; left; reflexivity|]. split; [reflexivity|].
  split; vm_compute; discriminate.
Qed.
