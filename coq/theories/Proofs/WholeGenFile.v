(* Agreement of two models of the same Go code (pkg/gengo/genfile.go 60-144 and the write loop context.go 223-231):
     Model/GenFile.v   (C01: Render, writeImports, assemble, the formatter as fmt1 + settle fmt2, write_file / write_all)
     Model/Pipeline.v  (C07/C05/C02: assemble without import block, e_fmt, write_loop_fs on the module tree)
   The pipeline's write step is the [imports = []] instance of GenFile's: same assembled source, same decision
   (nothing / error / write), same file name, same bytes; the write loops leave the same directory.
   [dir_rel], DEFINED here (GenFile's directory holds under a name what the pipeline's file system holds at that name
   in the package directory), relates the two file systems in the statements of Props/C01.v and Props/Whole.v. *)
Require Import Gengo.Base.Bytes Gengo.Model.Pipeline Gengo.Model.Whole.
Require Import Gengo.Proofs.Pipeline.
Require Gengo.Model.GenFile.

(* the two sources differ by where the parentheses stand around the package name and the generator name *)
Lemma assemble_same : forall pkg gen body, assemble pkg gen body = GenFile.assemble pkg gen [] body.
Proof.
  intros pkg gen body.
  assert (Hre : forall h1 h2 h3 h4 h5 : bytes,
             (h1 ++ pkg ++ h2 ++ gen ++ h3) ++ h4 ++ (h5 ++ pkg ++ h4) ++ body
             = h1 ++ pkg ++ h2 ++ gen ++ h3 ++ h4 ++ h5 ++ pkg ++ h4 ++ body)
    by (intros; rewrite <- !app_assoc; reflexivity).
  exact (eq_sym (Hre (bs "/*" ++ [GenFile.nl] ++ bs "Package ") (bs " GENERATED BY gengo:")
                     (bs " " ++ [GenFile.nl] ++ bs "DON'T EDIT THIS FILE" ++ [GenFile.nl] ++ bs "*/")
                     [GenFile.nl] (bs "package "))).
Qed.

Lemma fname_same : forall a n, fname a n = GenFile.filename (a_base a) n.
Proof. reflexivity. Qed.

Lemma body_of_block : forall body, GenFile.body_of [GenFile.SBlock body] = body.
Proof.
  intros body. unfold GenFile.body_of, GenFile.render_all. cbn [flat_map GenFile.render GenFile.is_nil_snip GenFile.frag].
  destruct body; cbn; [reflexivity|]. rewrite app_nil_r. reflexivity.
Qed.

Section WriteAgree.
  Variable E : env.
  Variables fmt1 fmt2 : bytes -> option bytes.
  Hypothesis Hfmt : e_fmt E = genfile_fmt fmt1 fmt2.
  Variable a : args.
  Variable p : pkginfo.

  (* one WriteToFile *)
  Lemma write_file_same : forall gf,
    GenFile.write_file fmt1 fmt2 true (a_base a) (pk_name p) (genfile_of gf)
    = if is_nil (snd gf) then GenFile.WNothing
      else match e_fmt E (assemble (pk_name p) (fst gf) (snd gf)) with
           | None => GenFile.WErr
           | Some out => GenFile.WWrite (fname a (fst gf)) out
           end.
  Proof.
    intros [n body]. unfold GenFile.write_file, genfile_of. cbn [fst snd GenFile.gf_snips GenFile.gf_name GenFile.gf_imports].
    rewrite body_of_block. destruct (is_nil body); [reflexivity|].
    rewrite Hfmt, assemble_same. unfold genfile_fmt. reflexivity.
  Qed.

  Definition dir_rel (fsys : GenFile.fsys) (s : fs) : Prop :=
    forall name, GenFile.fs_get fsys name = fs_lookup (pk_dir p, name) s.

  Lemma dir_rel_write : forall fsys s n out, dir_rel fsys s ->
    dir_rel (GenFile.fs_set fsys (fname a n) out) (write_file_fs (gen_file a p n) out s).
  Proof.
    intros fsys s n out Hrel name. unfold GenFile.fs_set, write_file_fs, gen_file. cbn [GenFile.fs_get].
    destruct (Order.bytes_eqbP name (fname a n)) as [->|Hne].
    - rewrite lookup_set_same. reflexivity.
    - rewrite !lookup_set_other by congruence. apply Hrel.
  Qed.

  (* the write loop: same error behaviour, same directory afterwards (files written before an error stay) *)
  Theorem write_all_same : forall gfs rem fsys s,
    dir_rel fsys s ->
    match GenFile.write_all fmt1 fmt2 true (a_base a) (pk_name p) (map genfile_of gfs) fsys,
          write_loop_fs E a p gfs rem s with
    | None, (_, _, Some (EParse _)) => True
    | Some fsys', (s', _, None) => dir_rel fsys' s'
    | _, _ => False
    end.
  Proof.
    induction gfs as [|[n body] r IH]; intros rem fsys s Hrel; cbn [map GenFile.write_all write_loop_fs].
    - exact Hrel.
    - rewrite write_file_same. cbn [fst snd]. destruct (is_nil body); [apply IH; exact Hrel|].
      destruct (e_fmt E (assemble (pk_name p) n body)) as [out|]; [|exact I].
      apply IH. apply dir_rel_write. exact Hrel.
  Qed.
End WriteAgree.
