(* Non-vacuity witness for C13_imports (Props/C13.v): a universe of five packages whose import graph,
   rank and root order satisfy ALL hypotheses of the theorem.  The hypotheses are decidable on concrete
   data: [imports_hyps_b] checks them and [imports_hyps_sound] turns the check into the five hypotheses. *)
Require Import Gengo.Base.Bytes Gengo.Model.Universe Gengo.Proofs.Universe.
From Coq Require Import Sorting.Sorted PeanoNat.

Fixpoint nodup_b (l : list bytes) : bool :=
  match l with
  | [] => true
  | x :: r => negb (existsb (bytes_eqb x) r) && nodup_b r
  end.

Lemma nodup_b_sound : forall l, nodup_b l = true -> NoDup l.
Proof. intros l. apply Order.nodup_bytes_NoDup. Qed.

Fixpoint sorted_b (rk : path -> nat) (l : list path) : bool :=
  match l with
  | [] => true
  | a :: r => forallb (fun b => Nat.ltb (rk a) (rk b)) r && sorted_b rk r
  end.

Lemma sorted_b_sound : forall rk l, sorted_b rk l = true -> StronglySorted (fun a b => rk a < rk b) l.
Proof.
  intros rk. induction l as [|a r IH]; cbn; intros H; [constructor|].
  apply andb_true_iff in H. destruct H as [H1 H2]. constructor; [apply IH; exact H2|].
  apply Forall_forall. intros b Hb. rewrite forallb_forall in H1. apply Nat.ltb_lt. apply H1. exact Hb.
Qed.

Definition is_some {A} (o : option A) : bool := match o with Some _ => true | None => false end.

Lemma is_some_true : forall {A} (o : option A), is_some o = true -> o <> None.
Proof. intros A o. destruct o; discriminate. Qed.

Definition node_ok_b (g : graph) (rk : path -> nat) (nd : gnode) : bool :=
  forallb (fun kt => Nat.ltb (rk (snd kt)) (rk (g_path nd)) && is_some (g_find (snd kt) g)) (g_imports nd)
  && nodup_b (map fst (g_imports nd)).

Definition imports_hyps_b (g : graph) (rk : path -> nat) (roots : list path) : bool :=
  forallb (node_ok_b g rk) g
  && forallb (fun r => is_some (g_find r g)) roots
  && sorted_b rk roots.

Lemma imports_hyps_sound : forall g rk roots,
  imports_hyps_b g rk roots = true ->
  (forall p nd k t, g_find p g = Some nd -> In (k, t) (g_imports nd) -> rk t < rk p) /\
  (forall p nd k t, g_find p g = Some nd -> In (k, t) (g_imports nd) -> g_find t g <> None) /\
  (forall p nd, g_find p g = Some nd -> NoDup (map fst (g_imports nd))) /\
  (forall r, In r roots -> g_find r g <> None) /\
  StronglySorted (fun a b => rk a < rk b) roots.
Proof.
  intros g rk roots H. unfold imports_hyps_b in H.
  apply andb_true_iff in H. destruct H as [H Hs]. apply andb_true_iff in H. destruct H as [Hg Hr].
  rewrite forallb_forall in Hg, Hr.
  assert (Hnode : forall p nd, g_find p g = Some nd ->
            (forall k t, In (k, t) (g_imports nd) -> rk t < rk p /\ g_find t g <> None)
            /\ NoDup (map fst (g_imports nd))).
  { intros p nd Hf. destruct (g_find_some _ _ _ Hf) as [<- Hin].
    apply Hg, andb_true_iff in Hin. destruct Hin as [He Hn]. rewrite forallb_forall in He.
    split; [|apply nodup_b_sound, Hn]. intros k t Hkt. apply He, andb_true_iff in Hkt.
    destruct Hkt as [H1 H2]. split; [apply Nat.ltb_lt, H1|apply is_some_true, H2]. }
  split; [intros p nd k t Hf Hin; apply (proj1 (Hnode p nd Hf) k t Hin)|].
  split; [intros p nd k t Hf Hin; apply (proj1 (Hnode p nd Hf) k t Hin)|].
  split; [intros p nd Hf; apply (Hnode p nd Hf)|].
  split; [intros r Hin; apply is_some_true, Hr, Hin|apply sorted_b_sound, Hs].
Qed.

(* The universe:   m  imports a, b and (as std packages do) "x/dns" -> vendor/x/dns;
                   a  imports b and c;   b  imports c;   c and vendor/x/dns import nothing.
   Roots: all five, in go list -deps order (dependencies first). *)
Definition wg : graph :=
  [ mk_gnode (bs "m") [(bs "a", bs "a"); (bs "b", bs "b"); (bs "x/dns", bs "vendor/x/dns")];
    mk_gnode (bs "a") [(bs "b", bs "b"); (bs "c", bs "c")];
    mk_gnode (bs "b") [(bs "c", bs "c")];
    mk_gnode (bs "c") [];
    mk_gnode (bs "vendor/x/dns") [] ].

(* rank = position in go list -deps *)
Definition wg_roots : list path := [bs "c"; bs "b"; bs "a"; bs "vendor/x/dns"; bs "m"].

Fixpoint index_of (p : path) (l : list path) : nat :=
  match l with
  | [] => 0
  | x :: r => if bytes_eqb p x then 0 else S (index_of p r)
  end.
Definition wg_rk (p : path) : nat := index_of p wg_roots.

Lemma wg_hyps_b : imports_hyps_b wg wg_rk wg_roots = true.
Proof. vm_compute. reflexivity. Qed.

Definition wg_hyps := imports_hyps_sound wg wg_rk wg_roots wg_hyps_b.

Lemma wg_imports_instance :
  exists n, forall fuel, n <= fuel ->
    exists s, load all_fixed wg fuel wg_roots = Ok s
      /\ (forall r, In r wg_roots -> universe_package s r <> None)
      /\ forall p nd k t, universe_package s p <> None -> g_find p wg = Some nd -> In (k, t) (g_imports nd) ->
           imports_entry s p k = Some (universe_package s t) /\ universe_package s t <> None.
Proof.
  destruct wg_hyps as (H1 & H2 & H3 & H4 & H5).
  exact (imports_total wg wg_rk H1 H2 H3 all_fixed eq_refl eq_refl wg_roots H4 H5).
Qed.
