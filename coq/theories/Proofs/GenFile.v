(* Lemmas for C01 (Model/GenFile.v): the assembled source opens with the header comment and the package clause gengo
   wrote and ends with the body; the import block is the sorted listing of the import map, the same for every order of
   the map ([imports_claim]); the settle loop ends on a fixed point of fmt2 or exhausts its rounds
   ([settle_stable_or_exhausted]); what write_all leaves at each file name (section Written).
   Section Claim DEFINES the four hypotheses on the external Go formatters that C01_written (Props/C01.v) is stated
   under — [H0], [H1], [H2a], [H2b], over the parameters [gofmt], [go_parses], [go_pkg], [go_decls] — and proves
   [written_ok] from them; [iter], [le], [id_fmt], [pkg_clause_of] occur in statements of Props/C01.v too.
   [hypotheses_satisfiable] is the trivial instance (Proofs/GenFileToyWitness.v has one that formats). *)
Require Import Gengo.Base.Bytes Gengo.Base.Order Gengo.Model.GenFile.
Require Gengo.Base.Assoc.
From Coq Require Import PeanoNat.

Lemma render_nil : render SNil = [].
Proof. reflexivity. Qed.

Lemma render_block : forall s, render (SBlock s) = if is_nil s then [] else [s].
Proof. intros s. unfold render. cbn. destruct s; reflexivity. Qed.

Lemma render_all_app : forall a b, render_all (a ++ b) = render_all a ++ render_all b.
Proof. intros a b. unfold render_all. apply flat_map_app. Qed.

Lemma body_of_app : forall a b, body_of (a ++ b) = body_of a ++ body_of b.
Proof. intros a b. unfold body_of. rewrite render_all_app. apply concat_app. Qed.

Lemma body_of_cons : forall s l, body_of (s :: l) = concat (render s) ++ body_of l.
Proof. intros s l. unfold body_of, render_all. cbn [flat_map]. apply concat_app. Qed.

(* a script of Blocks leaves exactly the concatenation of the blocks: nothing added, dropped or reordered *)
Lemma body_of_blocks : forall bl, body_of (map SBlock bl) = concat bl.
Proof.
  induction bl as [|b bl IH]; [reflexivity|].
  cbn [map]. rewrite body_of_cons, render_block, IH.
  destruct b; cbn; [reflexivity|]. now rewrite app_nil_r.
Qed.

(* nil snippets and snippets whose IsNil() is true write nothing *)
Lemma render_isnil : forall s, is_nil_snip s = true -> render s = [].
Proof. intros s H. destruct s; cbn in *; try reflexivity; try discriminate; now rewrite H. Qed.

Lemma upto_close_cons2 : forall c d r,
  upto_close (c :: d :: r)
  = if Ascii.eqb c star && Ascii.eqb d slash then Some [c; d]
    else match upto_close (d :: r) with Some t => Some (c :: t) | None => None end.
Proof. reflexivity. Qed.

Lemma upto_close_app : forall a r,
  no_slash a = true -> upto_close (a ++ star :: slash :: r) = Some (a ++ [star; slash]).
Proof.
  induction a as [|c a IH]; intros r H; [reflexivity|].
  cbn [no_slash forallb] in H. apply andb_true_iff in H as [_ Ha]. specialize (IH r Ha).
  destruct a as [|d a]; cbn [app] in *; rewrite upto_close_cons2, IH.
  - change (Ascii.eqb star slash) with false. now rewrite andb_false_r.
  - cbn [no_slash forallb] in Ha. apply andb_true_iff in Ha as [Hd _]. apply negb_true_iff in Hd.
    now rewrite Hd, andb_false_r.
Qed.

Lemma no_slash_app : forall a b, no_slash (a ++ b) = no_slash a && no_slash b.
Proof. intros. unfold no_slash. apply forallb_app. Qed.

Definition header_mid (pkg gen : bytes) : bytes :=
  [nl] ++ bs "Package " ++ pkg ++ bs " GENERATED BY gengo:" ++ gen ++ bs " " ++ [nl]
  ++ bs "DON'T EDIT THIS FILE" ++ [nl].

(* the literals are generalised first: reassociating under them would copy them at every step *)
Lemma header_comment_split : forall pkg gen,
  header_comment pkg gen = slash :: star :: header_mid pkg gen ++ [star; slash].
Proof.
  intros. unfold header_comment, header_mid.
  generalize (bs "Package "), (bs " GENERATED BY gengo:"), (bs "DON'T EDIT THIS FILE"). intros a b c.
  rewrite <- !app_assoc. reflexivity.
Qed.

Lemma no_slash_app_true : forall a b, no_slash a = true -> no_slash b = true -> no_slash (a ++ b) = true.
Proof. intros a b Ha Hb. now rewrite no_slash_app, Ha. Qed.

Lemma header_mid_no_slash : forall pkg gen,
  no_slash pkg = true -> no_slash gen = true -> no_slash (header_mid pkg gen) = true.
Proof.
  intros pkg gen Hp Hg. unfold header_mid.
  repeat (apply no_slash_app_true; [assumption || reflexivity|]). reflexivity.
Qed.

Lemma lead_comment_header : forall pkg gen rest,
  no_slash pkg = true -> no_slash gen = true ->
  lead_comment (header_comment pkg gen ++ rest) = Some (header_comment pkg gen).
Proof.
  intros pkg gen rest Hp Hg. rewrite header_comment_split.
  cbn [app lead_comment].
  replace (Ascii.eqb slash slash && Ascii.eqb star star) with true by reflexivity.
  rewrite <- app_assoc. cbn [app].
  rewrite upto_close_app by (now apply header_mid_no_slash). reflexivity.
Qed.

Lemma infix_app_l : forall w a s, infix w s -> infix w (a ++ s).
Proof. intros w a s (x & y & ->). exists (a ++ x), y. apply app_assoc. Qed.

Lemma header_names_generator : forall pkg gen, infix (bs "gengo:" ++ gen) (header_comment pkg gen).
Proof.
  intros pkg gen. unfold header_comment. do 4 apply infix_app_l.
  exists (bs " GENERATED BY "), (bs " " ++ [nl] ++ bs "DON'T EDIT THIS FILE" ++ [nl] ++ bs "*/"). reflexivity.
Qed.

Lemma assemble_shape : forall pkg gen m body,
  assemble pkg gen m body
  = header_comment pkg gen ++ ([nl] ++ bs "package " ++ pkg ++ [nl]) ++ import_block m ++ body.
Proof. intros. unfold assemble, package_clause. now rewrite <- !app_assoc. Qed.

Lemma assemble_ends_with_body : forall pkg gen m l,
  exists pre, assemble pkg gen m (body_of l) = pre ++ concat (render_all l).
Proof. intros. unfold assemble, body_of. rewrite !app_assoc. now eexists. Qed.

Lemma forallb_avoids : forall (f : ascii -> bool) x w,
  f x = false -> forallb f w = true -> forallb (fun c => negb (Ascii.eqb c x)) w = true.
Proof.
  intros f x w Hx. rewrite !forallb_forall. intros H c Hc. specialize (H c Hc).
  destruct (Ascii.eqb_spec c x) as [->|]; [congruence|reflexivity].
Qed.

Lemma plain_app : forall a b, plain (a ++ b) = plain a && plain b.
Proof. intros. unfold plain. apply forallb_app. Qed.

Lemma plain_no_slash : forall w, plain w = true -> no_slash w = true.
Proof. intros w. now apply forallb_avoids. Qed.

Lemma ident_no_slash : forall w, ident w = true -> no_slash w = true.
Proof. intros w. now apply forallb_avoids. Qed.

Lemma ident_no_nl : forall w c, ident w = true -> In c w -> Ascii.eqb c nl = false.
Proof.
  intros w c H Hc. apply (forallb_avoids _ nl) in H; [|reflexivity].
  rewrite forallb_forall in H. now apply negb_true_iff, H.
Qed.

(* Go's < is the strict part of the order of Base/Order.v *)
Lemma ltb_leb : forall a b, bytes_ltb a b = negb (Order.bytes_leb b a).
Proof.
  induction a as [|x a IH]; destruct b as [|y b]; cbn; try reflexivity.
  destruct (N.ltb_spec (N_of_ascii x) (N_of_ascii y)), (N.ltb_spec (N_of_ascii y) (N_of_ascii x));
    try reflexivity; [lia|apply IH].
Qed.

Lemma leb_eq : forall a b, bytes_leb a b = Order.bytes_leb a b.
Proof. intros a b. unfold bytes_leb. rewrite ltb_leb. apply negb_involutive. Qed.

Lemma leb_total : forall a b, bytes_leb a b = true \/ bytes_leb b a = true.
Proof. intros a b. rewrite !leb_eq. apply Order.bytes_leb_total. Qed.

Lemma leb_antisym : forall a b, bytes_leb a b = true -> bytes_leb b a = true -> a = b.
Proof. intros a b. rewrite !leb_eq. apply Order.bytes_leb_antisym. Qed.

Lemma leb_trans : forall a b c, bytes_leb a b = true -> bytes_leb b c = true -> bytes_leb a c = true.
Proof. intros a b c. rewrite !leb_eq. apply Order.bytes_leb_trans. Qed.

Lemma leb_refl : forall a, bytes_leb a a = true.
Proof. intros a. rewrite leb_eq. apply Order.bytes_leb_refl. Qed.

Definition le (a b : bytes) : Prop := bytes_leb a b = true.

Lemma insert_sorted_eq : forall p l, insert_sorted p l = insert_by (fun p => p) bytes_leb p l.
Proof. intros p. induction l as [|q r IH]; cbn; [|rewrite IH]; reflexivity. Qed.

Lemma insert_perm : forall p l, Permutation (insert_sorted p l) (p :: l).
Proof. intros p l. rewrite insert_sorted_eq. symmetry. apply insert_by_perm. Qed.

Lemma insert_sorted_sorted : forall p l, StronglySorted le l -> StronglySorted le (insert_sorted p l).
Proof. intros p l. rewrite insert_sorted_eq. exact (insert_by_sorted (fun p => p) bytes_leb leb_total leb_trans p l). Qed.

Lemma sort_paths_eq : forall l, sort_paths l = sort_by (fun p => p) bytes_leb l.
Proof. apply (sort_by_unfold (fun p => p) bytes_leb insert_sorted); intros; destruct l; reflexivity. Qed.

Lemma sort_perm : forall l, Permutation (sort_paths l) l.
Proof. intros l. rewrite sort_paths_eq. symmetry. apply sort_by_perm. Qed.

Lemma sort_sorted : forall l, StronglySorted le (sort_paths l).
Proof. intros l. rewrite sort_paths_eq. exact (sort_by_sorted (fun p => p) bytes_leb leb_total leb_trans l). Qed.

(* [lookup], the table first and [[]] for a missing key, is Base/Assoc.v's [get] on byte-string keys *)
Lemma lookup_eq : forall m k, lookup m k = match Assoc.get bytes_eqb k m with Some v => v | None => [] end.
Proof. intros m k. induction m as [|[k0 v] r IH]; cbn; [reflexivity|]. rewrite IH. now destruct (bytes_eqb k k0). Qed.

Lemma lookup_in : forall m k v, NoDup (map fst m) -> In (k, v) m -> lookup m k = v.
Proof. intros m k v Hnd Hin. rewrite lookup_eq. now rewrite (Assoc.get_In _ bytes_eqbP m k v Hnd Hin). Qed.

Lemma lookup_notin : forall m k, ~ In k (map fst m) -> lookup m k = [].
Proof. intros m k H. rewrite lookup_eq. now rewrite (proj2 (Assoc.get_None _ bytes_eqbP m k) H). Qed.

Lemma lookup_perm : forall m m' k,
  NoDup (map fst m) -> Permutation m m' -> lookup m k = lookup m' k.
Proof. intros m m' k Hnd HP. rewrite !lookup_eq. now rewrite (Assoc.get_perm _ bytes_eqbP m m' k Hnd HP). Qed.

Lemma import_block_nil : import_block [] = [].
Proof. reflexivity. Qed.

Lemma import_entries : forall m, NoDup (map fst m) ->
  map (fun p => (p, lookup m p)) (sort_paths (map fst m)) = sort_by fst bytes_leb m.
Proof. intros m Hnd. rewrite sort_paths_eq. apply sort_by_entries. intros k v. apply lookup_in, Hnd. Qed.

Lemma import_block_sorted : forall m, NoDup (map fst m) ->
  import_block m
  = let entries := sort_by fst bytes_leb m in
    if is_nil entries then []
    else nl :: bs "import (" ++ [nl]
         ++ flat_map (fun e => tab :: snd e ++ bs " " ++ [dquote] ++ fst e ++ [dquote; nl]) entries
         ++ bs ")" ++ [nl].
Proof.
  intros m Hnd. rewrite <- (import_entries m Hnd). unfold import_block. cbv zeta.
  rewrite (flat_map_concat_map _ (map _ _)), map_map, <- flat_map_concat_map.
  now destruct (sort_paths (map fst m)).
Qed.

(* sorting erases the order in which the map was iterated *)
Lemma import_block_perm : forall m m',
  NoDup (map fst m) -> Permutation m m' -> import_block m = import_block m'.
Proof.
  intros m m' Hnd HP. rewrite (import_block_sorted m Hnd).
  rewrite (import_block_sorted m') by (eapply Permutation_NoDup; [apply Permutation_map, HP|exact Hnd]).
  rewrite (sort_by_perm_eq fst bytes_leb leb_total leb_trans m m' HP); [reflexivity|].
  intros x y Hx Hy Hxy Hyx. apply (NoDup_map_inj_in fst m x y Hnd Hx Hy), leb_antisym; assumption.
Qed.

Lemma imports_claim :
  import_block [] = []
  /\ forall m, m <> [] -> NoDup (map fst m) ->
     exists entries,
       Permutation entries m /\ StronglySorted le (map fst entries) /\
       import_block m
       = nl :: bs "import (" ++ [nl]
         ++ flat_map (fun e => tab :: snd e ++ bs " " ++ [dquote] ++ fst e ++ [dquote; nl]) entries
         ++ bs ")" ++ [nl].
Proof.
  split; [exact import_block_nil|].
  intros m Hne Hnd. exists (sort_by fst bytes_leb m). split; [symmetry; apply sort_by_perm|]. split.
  - rewrite <- (sort_by_map fst (fun p => p) bytes_leb fst), <- sort_paths_eq by reflexivity. apply sort_sorted.
  - rewrite (import_block_sorted m Hnd). cbv zeta. destruct (sort_by fst bytes_leb m) eqn:E; [|reflexivity].
    exfalso. apply Hne, Permutation_nil. rewrite <- E. symmetry. apply sort_by_perm.
Qed.

Section Written.
  Variables fmt1 fmt2 : bytes -> option bytes.

  Fixpoint iter (k : nat) (s : bytes) : option bytes :=
    match k with
    | O => Some s
    | S k' => match fmt2 s with Some t => iter k' t | None => None end
    end.

  (* when the loop ends by its equality test, what it returns is a fixed point of fmt2 — no assumption *)
  Lemma settle_stable_or_exhausted : forall n s out,
    settle fmt2 n s = Some out -> fmt2 out = Some out \/ iter n s = Some out.
  Proof.
    induction n as [|n IH]; intros s out H; cbn in *.
    - right. exact H.
    - destruct (fmt2 s) as [next|] eqn:E; [|discriminate].
      destruct (bytes_eqb next s) eqn:Eq.
      + apply bytes_eqb_spec in Eq. subst next. inversion H; subst. now left.
      + now apply IH.
  Qed.

  Lemma settle_inv : forall P : bytes -> Prop,
    (forall x y, P x -> fmt2 x = Some y -> P y) -> forall n s out, P s -> settle fmt2 n s = Some out -> P out.
  Proof.
    intros P Hstep. induction n as [|n IH]; intros s out Hs H; cbn [settle] in H.
    - now injection H as <-.
    - destruct (fmt2 s) as [next|] eqn:E; [|discriminate].
      destruct (bytes_eqb next s); [now injection H as <-|]. apply (IH next); [now apply (Hstep s)|exact H].
  Qed.

  Lemma settle_fixed : forall n s, fmt2 s = Some s -> settle fmt2 (S n) s = Some s.
  Proof. intros n s H. cbn [settle]. now rewrite H, bytes_eqb_refl. Qed.

  Lemma settle_step : forall n s t, fmt2 s = Some t -> t <> s -> settle fmt2 (S n) s = settle fmt2 n t.
  Proof. intros n s t H Hne. cbn [settle]. apply bytes_eqb_neq in Hne. now rewrite H, Hne. Qed.

  (* a formatter whose output is stable needs no loop: two rounds return what one application returns *)
  Lemma settle_idem : (forall x y, fmt2 x = Some y -> fmt2 y = Some y) ->
    forall n s, settle fmt2 (S (S n)) s = fmt2 s.
  Proof.
    intros Hid n s. destruct (fmt2 s) as [t|] eqn:E; [|cbn [settle]; now rewrite E].
    destruct (bytes_eqbP t s) as [->|Hne]; [now apply settle_fixed|].
    rewrite (settle_step (S n) s t E Hne). apply settle_fixed, (Hid s t E).
  Qed.

  (* if some iterate reached before the rounds run out is stable, the loop returns a stable text *)
  Lemma settle_converges : forall n s k q,
    k < n -> iter k s = Some q -> fmt2 q = Some q ->
    exists out, settle fmt2 n s = Some out /\ fmt2 out = Some out.
  Proof.
    intros n s k. revert n s.
    induction k as [|k IH]; intros n s q Hk Hi Hq; (destruct n as [|n]; [lia|]); cbn [iter] in Hi.
    - injection Hi as ->. exists q. now rewrite settle_fixed.
    - destruct (fmt2 s) as [t|] eqn:E; [|discriminate].
      destruct (bytes_eqbP t s) as [->|Hne].
      + exists s. now rewrite settle_fixed.
      + rewrite (settle_step n s t E Hne). apply (IH n t q); [lia|assumption..].
  Qed.

  Lemma filename_inj : forall base a b, filename base a = filename base b -> a = b.
  Proof.
    unfold filename. intros base a b H. apply app_inv_head in H. apply app_inv_head in H.
    now apply app_inv_tail in H.
  Qed.

  Lemma write_file_some : forall fixed base pkg g out,
    body_of (gf_snips g) <> [] ->
    fmt_src fmt1 fmt2 fixed (assemble pkg (gf_name g) (gf_imports g) (body_of (gf_snips g))) = Some out ->
    write_file fmt1 fmt2 fixed base pkg g = WWrite (filename base (gf_name g)) out.
  Proof.
    intros fixed base pkg g out Hb Hf. unfold write_file. rewrite Hf.
    destruct (body_of (gf_snips g)); [now contradiction Hb|reflexivity].
  Qed.

  Lemma write_file_name : forall fixed base pkg g n d,
    write_file fmt1 fmt2 fixed base pkg g = WWrite n d -> n = filename base (gf_name g).
  Proof.
    unfold write_file. intros fixed base pkg g n d H. destruct (is_nil _); [discriminate|].
    destruct (fmt_src _ _ _ _); [now injection H as <- _|discriminate].
  Qed.

  Lemma fs_get_set_same : forall fs n d, fs_get (fs_set fs n d) n = Some d.
  Proof. intros fs n d. cbn [fs_set fs_get]. now rewrite bytes_eqb_refl. Qed.

  Lemma fs_get_set_other : forall fs n n0 d, n <> n0 -> fs_get (fs_set fs n0 d) n = fs_get fs n.
  Proof. intros fs n n0 d H. cbn [fs_set fs_get]. apply bytes_eqb_neq in H. now rewrite H. Qed.

  Lemma write_all_frame : forall fixed base pkg gfs fs fs' n,
    (forall g, In g gfs -> filename base (gf_name g) <> n) ->
    write_all fmt1 fmt2 fixed base pkg gfs fs = Some fs' -> fs_get fs' n = fs_get fs n.
  Proof.
    induction gfs as [|g r IH]; intros fs fs' n Hn H; cbn [write_all] in H; [now injection H as <-|].
    assert (Hr : forall g', In g' r -> filename base (gf_name g') <> n) by (intros g' Hg'; apply Hn; now right).
    destruct (write_file fmt1 fmt2 fixed base pkg g) as [| |n0 d] eqn:E; [now apply (IH fs)|discriminate|].
    rewrite (IH _ _ _ Hr H). apply fs_get_set_other. rewrite (write_file_name _ _ _ _ _ _ E).
    intros ->. now apply (Hn g); [left|].
  Qed.

  (* every retained genfile with a non-empty body ends up on disk as the formatter's output for its assembly *)
  Lemma write_all_get : forall fixed base pkg gfs fs fs' g,
    NoDup (map gf_name gfs) ->
    write_all fmt1 fmt2 fixed base pkg gfs fs = Some fs' ->
    In g gfs -> body_of (gf_snips g) <> [] ->
    exists out,
      fmt_src fmt1 fmt2 fixed (assemble pkg (gf_name g) (gf_imports g) (body_of (gf_snips g))) = Some out
      /\ fs_get fs' (filename base (gf_name g)) = Some out.
  Proof.
    induction gfs as [|g0 r IH]; intros fs fs' g Hnd H Hin Hbody; [contradiction|].
    cbn in Hnd. apply NoDup_cons_iff in Hnd as [Hnotin Hnd']. cbn [write_all] in H.
    destruct Hin as [->|Hin].
    - destruct (fmt_src fmt1 fmt2 fixed _) as [out|] eqn:Ef.
      + rewrite (write_file_some _ _ _ _ _ Hbody Ef) in H. exists out. split; [reflexivity|].
        assert (Hfr : forall g', In g' r -> filename base (gf_name g') <> filename base (gf_name g)).
        { intros g' Hg' Heq. apply filename_inj in Heq. apply Hnotin. rewrite <- Heq. now apply in_map. }
        rewrite (write_all_frame _ _ _ _ _ _ _ Hfr H). apply fs_get_set_same.
      + unfold write_file in H. rewrite Ef in H. now destruct (body_of (gf_snips g)).
    - destruct (write_file fmt1 fmt2 fixed base pkg g0) as [| |n0 d]; [|discriminate|].
      + now apply (IH fs fs' g).
      + now apply (IH (fs_set fs n0 d) fs' g).
  Qed.
End Written.

(* The claim about written files, under the named hypotheses on the Go formatter stack *)
Section Claim.
  (* the two stages of the pipeline (see Model/GenFile.v); fmt2 is ALSO the property's "gofumpt for the
     module's language version": gofumpt's format.Source with LangVersion/ModulePath of the module *)
  Variables fmt1 fmt2 : bytes -> option bytes.
  Variable gofmt : bytes -> option bytes.                       (* go/format.Source *)
  Variable go_parses : bytes -> bool.                           (* go/parser accepts the text *)
  Variable go_pkg : bytes -> option bytes.                      (* name in its package clause *)
  Variable go_decls : bool -> bytes -> option (list bytes).     (* its declarations modulo formatting; true = after
                                                                   the leading import declaration *)

  (* H0: go/parser reads, from the text gengo assembles, the package clause gengo wrote *)
  Definition H0 : Prop := forall pkg gen m body,
    ident pkg = true -> plain gen = true ->
    fmt1 (assemble pkg gen m body) <> None -> go_pkg (assemble pkg gen m body) = Some pkg.

  (* H1: when the pipeline produces an output, the output parses, and keeps the package name, the declaration
     sequence modulo formatting and — unless the source mentions a build constraint — the plain words of the
     comment the source opens with *)
  Definition H1 : Prop := forall s out,
    fmt_src fmt1 fmt2 true s = Some out ->
    go_parses out = true
    /\ go_pkg out = go_pkg s
    /\ (forall b, go_decls b out = go_decls b s)
    /\ (mentions_build s = false ->
        forall w c, plain w = true -> lead_comment s = Some c -> infix w c ->
                    exists c', lead_comment out = Some c' /\ infix w c').

  (* H2a: what gofumpt returns is a fixed point of gofmt *)
  Definition H2a : Prop := forall x y, fmt2 x = Some y -> gofmt y = Some y.

  (* H2b: gofumpt needs fewer rounds than the loop allows: the last iterate of a printed source is stable *)
  Definition H2b : Prop := forall s p out,
    fmt1 s = Some p -> iter fmt2 rounds p = Some out -> fmt2 out = Some out.

  Lemma written_ok :
    H0 -> H1 -> H2a -> H2b ->
    forall base pkg gfs fs fs',
      NoDup (map gf_name gfs) ->
      write_all fmt1 fmt2 true base pkg gfs fs = Some fs' ->
      forall g, In g gfs -> body_of (gf_snips g) <> [] ->
        let src := assemble pkg (gf_name g) (gf_imports g) (body_of (gf_snips g)) in
        exists out,
          fs_get fs' (filename base (gf_name g)) = Some out
          /\ go_parses out = true
          /\ (ident pkg = true -> plain (gf_name g) = true -> mentions_build src = false ->
              exists c, lead_comment out = Some c /\ infix (bs "gengo:" ++ gf_name g) c)
          /\ (ident pkg = true -> plain (gf_name g) = true -> go_pkg out = Some pkg)
          /\ (forall b, go_decls b out = go_decls b src)
          /\ gofmt out = Some out
          /\ fmt2 out = Some out.
  Proof.
    intros h0 h1 h2a h2b base pkg gfs fs fs' Hnd Hw g Hin Hbody src.
    destruct (write_all_get fmt1 fmt2 true base pkg gfs fs fs' g Hnd Hw Hin Hbody) as (out & Hf & Hget).
    fold src in Hf.
    destruct (h1 src out Hf) as (Hp & Hpk & Hd & Hc).
    unfold fmt_src in Hf. destruct (fmt1 src) as [p|] eqn:Hp1; [|discriminate].
    assert (Hstable : fmt2 out = Some out).
    { destruct (settle_stable_or_exhausted fmt2 rounds p out Hf) as [H|H]; [exact H|exact (h2b src p out Hp1 H)]. }
    refine (ex_intro _ out (conj Hget (conj Hp (conj _ (conj _ (conj Hd (conj (h2a out out Hstable) Hstable))))))).
    - intros Hpkg Hplain Hnb.
      apply (Hc Hnb (bs "gengo:" ++ gf_name g) (header_comment pkg (gf_name g))).
      + rewrite plain_app, Hplain. reflexivity.
      + unfold src. rewrite assemble_shape.
        apply lead_comment_header; [now apply ident_no_slash|now apply plain_no_slash].
      + apply header_names_generator.
    - intros Hpkg Hplain. rewrite Hpk. apply h0; try assumption. fold src. rewrite Hp1. discriminate.
  Qed.
End Claim.

Fixpoint until_nl (s : bytes) : bytes :=
  match s with
  | [] => []
  | c :: r => if Ascii.eqb c nl then [] else c :: until_nl r
  end.

(* the name in "package <name>" on the line after the leading comment *)
Definition pkg_clause_of (s : bytes) : option bytes :=
  match lead_comment s with
  | Some c =>
      match skipn (List.length c) s with
      | n :: r => if Ascii.eqb n nl && prefix_b (bs "package ") r then Some (until_nl (skipn 8 r)) else None
      | [] => None
      end
  | None => None
  end.

Lemma until_nl_app : forall w t, ident w = true -> until_nl (w ++ nl :: t) = w.
Proof.
  induction w as [|c w IH]; intros t H; cbn [app until_nl].
  - reflexivity.
  - rewrite (ident_no_nl (c :: w) c H (or_introl eq_refl)). f_equal. apply IH.
    unfold ident in *. cbn in H. now apply andb_true_iff in H.
Qed.

Lemma pkg_clause_of_build : forall c name rest,
  (forall t, lead_comment (c ++ t) = Some c) -> ident name = true ->
  pkg_clause_of (c ++ nl :: bs "package " ++ name ++ nl :: rest) = Some name.
Proof.
  intros c name rest Hc Hid. unfold pkg_clause_of. rewrite Hc, skipn_app_exact.
  cbn -[until_nl]. now rewrite until_nl_app.
Qed.

Lemma pkg_clause_of_assemble : forall pkg gen m body,
  ident pkg = true -> plain gen = true -> pkg_clause_of (assemble pkg gen m body) = Some pkg.
Proof.
  intros pkg gen m body Hp Hg. unfold assemble, package_clause. rewrite <- !app_assoc.
  apply pkg_clause_of_build; [|exact Hp].
  intros t. apply lead_comment_header; [now apply ident_no_slash|now apply plain_no_slash].
Qed.

Definition id_fmt (s : bytes) : option bytes := Some s.

Lemma id_fmt_src : forall s, fmt_src id_fmt id_fmt true s = Some s.
Proof. intros s. unfold fmt_src, id_fmt, rounds. cbn. now rewrite bytes_eqb_refl. Qed.

(* The hypotheses are jointly satisfiable: the formatter that finds its input already canonical, with [pkg_clause_of]
   as the reader of the package clause *)
Lemma hypotheses_satisfiable :
  H0 id_fmt pkg_clause_of
  /\ H1 id_fmt id_fmt (fun _ => true) pkg_clause_of (fun _ _ => None)
  /\ H2a id_fmt id_fmt
  /\ H2b id_fmt id_fmt.
Proof.
  split; [|split; [|split]].
  - intros pkg gen m body Hp Hg _. now apply pkg_clause_of_assemble.
  - intros s out H. rewrite id_fmt_src in H. inversion H; subst out.
    repeat split; try reflexivity. intros _ w c _ Hc Hw. now exists c.
  - intros x y _. reflexivity.
  - intros s p out _ _. reflexivity.
Qed.

(* Finite tables as formatter functions (witnesses recorded from the real tools) *)
Fixpoint table (t : list (bytes * option bytes)) (k : bytes) : option bytes :=
  match t with
  | [] => None
  | (k', v) :: r => if bytes_eqb k k' then v else table r k
  end.

(* texts of different length differ: needs the spine of a long literal only, where comparing bytes would decode it *)
Lemma length_neq : forall a b : bytes, List.length a <> List.length b -> a <> b.
Proof. congruence. Qed.

Lemma table_hd : forall k v t, table ((k, v) :: t) k = v.
Proof. intros k v t. cbn [table]. now rewrite bytes_eqb_refl. Qed.

Lemma table_tl : forall k k' v t, k <> k' -> table ((k', v) :: t) k = table t k.
Proof. intros k k' v t H. cbn [table]. apply bytes_eqb_neq in H. now rewrite H. Qed.
