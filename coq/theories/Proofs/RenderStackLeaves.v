(* RenderStack, part 3: the leaves are stable and register exactly what they say.
   ID / %T / PkgExpose leaves: by induction over C11's model (any tracker that always finds a name).
   Value / %v leaves: the literal of C10's model mentions only packages its rendering registers. *)
Require Import Gengo.Base.Bytes Gengo.Base.Order.
Require Import Gengo.Model.RenderStack Gengo.Proofs.RenderStackTracker Gengo.Proofs.RenderStackSnippet.
Require Gengo.Model.TypeLit Gengo.Proofs.TypeLit.
Require Gengo.Model.ValueLit Gengo.Proofs.ValueLitBase Gengo.Proofs.ValueLit.
Require Gengo.Base.Assoc.

Scheme tyview_mind := Induction for TL.tyview Sort Prop
  with vfields_mind := Induction for TL.vfields Sort Prop.
Combined Scheme tyview_mutind from tyview_mind, vfields_mind.

Notation ext := Proofs.TypeLit.ext.

Lemma ext_antisym : forall a b : TL.renv, ext a b -> ext b a -> a = b.
Proof.
  intros a b [x Hx] [y Hy]. subst b. rewrite <- app_assoc, <- (app_nil_r a) in Hy at 1.
  apply app_inv_head, eq_sym, app_eq_nil in Hy. rewrite (proj1 Hy). apply eq_sym, app_nil_r.
Qed.

Section Tracker.
  Variable pick : bytes -> TL.renv -> option bytes.
  Hypothesis pick_total : forall p e, TL.alookup p e = None -> pick p e <> None.

  Notation tr_add := (TL.tr_add pick).
  Notation add_all := (add_all pick).

  Lemma add_all_ext : forall ps e, ext e (add_all ps e).
  Proof.
    intros ps e. apply (add_all_inv pick (ext e)); [|apply Proofs.TypeLit.ext_refl].
    intros p e1 n _ _ X. exact (Proofs.TypeLit.ext_trans _ _ _ X (ex_intro _ _ eq_refl)).
  Qed.

  Lemma tr_add_ext : forall p e, ext e (tr_add p e).
  Proof. intros p. exact (add_all_ext [p]). Qed.

  Lemma tr_add_paths : forall p e q, In q (map fst (tr_add p e)) <-> In q (map fst e) \/ p = q.
  Proof.
    intros p e q. unfold TL.tr_add. destruct (TL.alookup p e) as [n|] eqn:E.
    - split; [left; assumption|]. intros [H|<-]; [exact H|]. apply Proofs.TypeLit.alookup_in in E.
      exact (in_map fst _ _ E).
    - destruct (pick p e) as [n|] eqn:P; [|exfalso; exact (pick_total p e E P)].
      rewrite map_app, in_app_iff. apply or_iff_compat_l. split; [intros [H|[]]; exact H|left; assumption].
  Qed.

  Lemma tr_add_bound : forall p e, exists n, TL.alookup p (tr_add p e) = Some n.
  Proof.
    intros p e. rewrite Proofs.TypeLit.alookup_eq. apply (Assoc.get_Some_keys _ bytes_eqbP), tr_add_paths. right. reflexivity.
  Qed.

  Lemma tr_add_registered : forall p e n, TL.alookup p e = Some n -> tr_add p e = e.
  Proof. intros p e n H. unfold TL.tr_add. rewrite H. reflexivity. Qed.

  Lemma add_all_app : forall a b e, add_all (a ++ b) e = add_all b (add_all a e).
  Proof. intros a b e. unfold RenderStack.add_all. apply fold_left_app. Qed.

  Lemma add_all_cons : forall p ps e, add_all (p :: ps) e = add_all ps (tr_add p e).
  Proof. reflexivity. Qed.

  Lemma add_all_paths : forall ps e q, In q (map fst (add_all ps e)) <-> In q (map fst e) \/ In q ps.
  Proof.
    induction ps as [|p r IH]; intros e q; [split; [left; assumption|intros [H|[]]; exact H]|]. rewrite add_all_cons.
    exact (iff_trans (IH _ q) (iff_trans (or_iff_compat_r _ (tr_add_paths p e q)) (or_assoc _ _ _))).
  Qed.

  (* re-adding what is registered changes nothing *)
  Lemma add_all_known : forall ps e, (forall p, In p ps -> In p (map fst e)) -> add_all ps e = e.
  Proof.
    induction ps as [|p r IH]; intros e H; [reflexivity|].
    destruct (proj1 (Assoc.get_Some_keys _ bytes_eqbP e p) (H p (or_introl eq_refl))) as [n L].
    rewrite <- Proofs.TypeLit.alookup_eq in L. rewrite add_all_cons, (tr_add_registered p e n L).
    apply IH. intros q Hq. exact (H q (or_intror Hq)).
  Qed.

  Lemma add_all_fix : forall ps e e2, ext (add_all ps e) e2 -> add_all ps e2 = e2.
  Proof.
    intros ps e e2 [x ->]. apply add_all_known. intros p H. rewrite map_app, in_app_iff, add_all_paths. auto.
  Qed.

  Lemma add_all_bound : forall ps e p, In p ps -> exists n, TL.alookup p (add_all ps e) = Some n.
  Proof.
    intros ps e p H. rewrite Proofs.TypeLit.alookup_eq. apply (Assoc.get_Some_keys _ bytes_eqbP), add_all_paths. right. exact H.
  Qed.

  (* a registered foreign package keeps its qualifier *)
  Lemma add_all_local : forall ps e e2 p, In p ps -> ext (add_all ps e) e2 ->
    TL.local_name_of p e2 = TL.local_name_of p (add_all ps e).
  Proof.
    intros ps e e2 p Hin X. destruct (add_all_bound ps e p Hin) as [n L].
    unfold TL.local_name_of. rewrite L, (Proofs.TypeLit.ext_alookup _ _ _ _ X L). reflexivity.
  Qed.

  (* the step AddType; LocalNameOf is stable *)
  Lemma step_stable : forall p e e2, ext (tr_add p e) e2 ->
    tr_add p e2 = e2 /\ TL.local_name_of p e2 = TL.local_name_of p (tr_add p e).
  Proof. intros p e e2 X. exact (conj (add_all_fix [p] e e2 X) (add_all_local [p] e e2 p (or_introl eq_refl) X)). Qed.

  Section Id.
    Variable parse : bytes -> option TL.tref.
    Variable self : bytes.
    Variable cbq : bytes -> bool.
    Variables fe ft : bool.

    Notation walk := (TL.walk pick self).
    Notation walks := (TL.walks pick self).
    Notation tref_regs := (tref_regs self).
    Notation trefs_regs := (trefs_regs self).
    Notation name_regs := (name_regs self parse).
    Notation view_regs := (RenderStack.view_regs self parse).
    Notation fields_regs := (RenderStack.fields_regs self parse).

    Lemma tref_regs_eq : forall pkg name args,
      tref_regs (TL.TRef pkg name args) =
      (if is_nil pkg then [] else if bytes_eqb pkg self then [] else [pkg]) ++ trefs_regs args.
    Proof. reflexivity. Qed.

    Lemma trefs_regs_cons : forall t r, trefs_regs (TL.TRCons t r) = tref_regs t ++ trefs_regs r.
    Proof. reflexivity. Qed.

    Definition res_spec {A} (f : TL.renv -> res (A * TL.renv)) (regs : list bytes) : Prop :=
      forall e a e1, f e = Ok (a, e1) ->
        e1 = add_all regs e /\ forall e2, ext e1 e2 -> f e2 = Ok (a, e2).

    Lemma res_spec_ret : forall {A} (a : A), res_spec (fun e => Ok (a, e)) [].
    Proof. intros A a e b e1 H. injection H as <- <-. split; [reflexivity|]. intros; reflexivity. Qed.

    Lemma res_spec_panic : forall {A} regs, res_spec (fun _ => Panic : res (A * TL.renv)) regs.
    Proof. intros A regs e a e1 H. discriminate. Qed.

    Lemma res_spec_bind : forall {A B} (f : TL.renv -> res (A * TL.renv)) (g : A -> TL.renv -> res (B * TL.renv)) r1 r2,
      res_spec f r1 -> (forall a, res_spec (g a) r2) -> res_spec (fun e => let! (a, e1) := f e in g a e1) (r1 ++ r2).
    Proof.
      intros A B f g r1 r2 Sf Sg e b e2 H. destruct (f e) as [[a e1]| |] eqn:E; cbn [bind] in H; try discriminate.
      destruct (Sf _ _ _ E) as [A1 S1]. destruct (Sg a _ _ _ H) as [A2 S2].
      split; [rewrite add_all_app, <- A1; exact A2|]. intros e3 X.
      assert (X1 : ext e1 e3). { eapply Proofs.TypeLit.ext_trans; [|exact X]. rewrite A2. apply add_all_ext. }
      rewrite (S1 e3 X1). exact (S2 e3 X).
    Qed.

    Lemma res_spec_map1 : forall {A B} (f : TL.renv -> res (A * TL.renv)) (g : A -> B) regs,
      res_spec f regs -> res_spec (fun e => let! (a, e1) := f e in Ok (g a, e1)) regs.
    Proof.
      intros A B f g regs S. rewrite <- (app_nil_r regs).
      exact (res_spec_bind _ _ _ _ S (fun a => res_spec_ret (g a))).
    Qed.

    Lemma res_spec_add : forall {A} p (g : bytes -> A),
      res_spec (fun e => let e1 := tr_add p e in Ok (g (TL.local_name_of p e1), e1)) [p].
    Proof.
      intros A p g e a e1 H. cbv zeta in H. injection H as <- <-. split; [reflexivity|]. intros e2 X. cbv zeta.
      destruct (step_stable p e e2 X) as [Ea Eb]. rewrite Ea, Eb. reflexivity.
    Qed.

    Lemma res_spec_ext : forall {A} (f g : TL.renv -> res (A * TL.renv)) regs,
      (forall e, f e = g e) -> res_spec g regs -> res_spec f regs.
    Proof.
      intros A f g regs H S e a e1 E. rewrite H in E. destruct (S e a e1 E) as [E1 S1]. split; [exact E1|].
      intros e2 X. rewrite H. exact (S1 e2 X).
    Qed.

    (* two total steps and a constructor, written with [let '(a, e1) := .. in] as [walk] and [walks] are *)
    Lemma res_spec_let2 : forall {A B C} (f : TL.renv -> A * TL.renv) (g : TL.renv -> B * TL.renv) (c : A -> B -> C) r1 r2,
      res_spec (fun e => Ok (f e)) r1 -> res_spec (fun e => Ok (g e)) r2 ->
      res_spec (fun e => Ok (let '(a, e1) := f e in let '(b, e2) := g e1 in (c a b, e2))) (r1 ++ r2).
    Proof.
      intros A B C f g c r1 r2 Sf Sg.
      refine (res_spec_ext _ _ _ _ (res_spec_bind _ _ _ _ Sf (fun a => res_spec_map1 _ (c a) _ Sg))).
      intros e. cbn [bind]. destruct (f e) as [a e1]. destruct (g e1). reflexivity.
    Qed.

    Lemma walk_spec :
      (forall t, res_spec (fun e => Ok (walk t e)) (tref_regs t)) /\
      (forall l, res_spec (fun e => Ok (walks l e)) (trefs_regs l)).
    Proof.
      apply tref_mutind.
      - intros pkg name args IH. refine (res_spec_let2 _ _ (fun pkg' => TL.TRef pkg' name) _ _ _ IH).
        destruct (is_nil pkg); [apply res_spec_ret|]. destruct (bytes_eqb pkg self); [apply res_spec_ret|].
        exact (res_spec_add pkg (fun q => q)).
      - apply res_spec_ret.
      - intros t IHt r IHr. exact (res_spec_let2 _ _ TL.TRCons _ _ IHt IHr).
    Qed.

    Definition pn_regs (name : bytes) : list bytes :=
      match parse name with
      | None => []
      | Some (TL.TRef _ _ TL.TRNil) => []
      | Some t => tref_regs t
      end.

    Lemma process_name_spec : forall name, res_spec (TL.process_name pick parse self name) (pn_regs name).
    Proof.
      intros name. unfold TL.process_name, pn_regs. destruct (parse name) as [[p n [|a0 r0]]|].
      - apply res_spec_ret.
      - apply (proj1 walk_spec).
      - apply res_spec_panic.
    Qed.

    Definition self_ast (pkg name : bytes) (tps : list bytes) (t : TL.tref) : TL.tyast :=
      match t, tps with
      | TL.TRef [] [] TL.TRNil, [] => TL.ARaw (pkg ++ [TL.dot] ++ name)
      | _, _ => TL.named_ast false [] t tps
      end.

    Lemma self_branch_eq : forall pkg name tps t (e : TL.renv),
      (match t, tps with
       | TL.TRef [] [] TL.TRNil, [] => Ok (TL.ARaw (pkg ++ [TL.dot] ++ name), e)
       | _, _ => Ok (TL.named_ast false [] t tps, e)
       end) = Ok (self_ast pkg name tps t, e).
    Proof. intros pkg name tps [[|? ?] [|? ?] [|? ?]] e; destruct tps; reflexivity. Qed.

    Lemma namer_name_spec : forall pkg name tps,
      res_spec (TL.namer_name pick parse self pkg name tps) (name_regs pkg name).
    Proof.
      intros pkg name tps.
      refine (res_spec_bind _ _ _ _ (process_name_spec name) _).
      intros t. destruct (bytes_eqb pkg self).
      - exact (res_spec_ext _ _ _ (self_branch_eq pkg name tps t) (res_spec_ret _)).
      - exact (res_spec_add pkg (fun q => TL.named_ast true q t tps)).
    Qed.

    Notation type_lit := (TL.type_lit pick parse self cbq fe ft).
    Notation fields_lit := (TL.fields_lit pick parse self cbq fe ft).

    Lemma type_lit_map_eq : forall k x e,
      type_lit (TL.VMap k x) e =
      (let! (ak, e1) := type_lit k e in let! (ax, e2) := type_lit x e1 in Ok (TL.AMap ak ax, e2)).
    Proof. reflexivity. Qed.

    Lemma fields_lit_cons_eq : forall name anon t tag rest e,
      fields_lit (TL.VFCons name anon t tag rest) e =
      (let! (a, e1) := type_lit t e in
       let! (r, e2) := fields_lit rest e1 in
       Ok (TL.AFCons (if anon then [] else name) anon a (TL.tag_lit cbq ft tag) r, e2)).
    Proof. reflexivity. Qed.

    Lemma view_regs_map_eq : forall k x, view_regs (TL.VMap k x) = view_regs k ++ view_regs x.
    Proof. reflexivity. Qed.

    Lemma fields_regs_cons_eq : forall name anon t tag rest,
      fields_regs (TL.VFCons name anon t tag rest) = view_regs t ++ fields_regs rest.
    Proof. reflexivity. Qed.

    Lemma type_lit_spec :
      (forall v, res_spec (type_lit v) (view_regs v)) /\
      (forall fs, res_spec (fields_lit fs) (fields_regs fs)).
    Proof.
      apply tyview_mutind.
      - intros pkg name. apply namer_name_spec.
      - intros x IH. exact (res_spec_map1 _ TL.AStar _ IH).
      - intros x IH. exact (res_spec_map1 _ TL.AChan _ IH).
      - intros fs IH. exact (res_spec_map1 _ TL.AStruct _ IH).
      - intros n x IH. exact (res_spec_map1 _ (TL.AArray n) _ IH).
      - intros x IH. exact (res_spec_map1 _ TL.ASlice _ IH).
      - intros k IHk x IHx. exact (res_spec_bind _ _ _ _ IHk (fun ak => res_spec_map1 _ (TL.AMap ak) _ IHx)).
      - intros name. cbn [TL.type_lit RenderStack.view_regs]. destruct (fe && bytes_eqb name (bs "error")); apply res_spec_ret.
      - intros s. apply res_spec_ret.
      - apply res_spec_ret.
      - intros name anon t IHt tag rest IHr.
        exact (res_spec_bind _ _ _ _ IHt
                 (fun a => res_spec_map1 _ (TL.AFCons (if anon then [] else name) anon a (TL.tag_lit cbq ft tag)) _ IHr)).
    Qed.

    Lemma ident_frag_spec : forall x,
      res_spec (TL.ident_frag pick parse self cbq fe ft x) (idarg_regs self parse x).
    Proof.
      intros [s|s|p n tps|v|v|]; unfold TL.ident_frag; cbn [RenderStack.idarg_regs].
      1-2: destruct (TL.parse_ref s) as [[p n]|]; [apply namer_name_spec|apply res_spec_ret].
      2-3: exact (proj1 type_lit_spec v).
      - apply namer_name_spec.
      - apply res_spec_panic.
    Qed.
  End Id.
End Tracker.

Lemma insert_kv_eq : forall {A} (e : bytes * A) l, insert_kv e l = insert_by fst VL.bytes_leb e l.
Proof.
  intros A e l. induction l as [|y r IH]; [reflexivity|]. cbn [insert_kv insert_by]. rewrite IH. reflexivity.
Qed.

Lemma sort_kv_eq : forall {A} (l : list (bytes * A)), sort_kv l = sort_by fst VL.bytes_leb l.
Proof.
  intros A l. induction l as [|y r IH]; [reflexivity|]. unfold sort_kv, sort_by in *. cbn [fold_right].
  rewrite IH. apply insert_kv_eq.
Qed.

Lemma in_sort_kv : forall {A} (x : bytes * A) l, In x (sort_kv l) <-> In x l.
Proof. intros A x l. rewrite sort_kv_eq. apply sort_by_In. Qed.

Lemma assoc_last_some_in : forall {A} k (v : A) l, VL.assoc_last k l = Some v -> In (k, v) l.
Proof.
  intros A k v l H. rewrite Proofs.ValueLitBase.assoc_last_eq in H. apply (Assoc.get_Some_In _ bytes_eqbP) in H. now apply in_rev.
Qed.

Lemma all2_combine : forall {A B} (f : A -> B -> bool) ts vs,
  all2 f ts vs = forallb (fun p => f (fst p) (snd p)) (combine ts vs).
Proof.
  intros A B f ts vs. revert ts. induction vs as [|x vr IH]; intros [|t tr]; try reflexivity.
  cbn. rewrite <- IH. reflexivity.
Qed.

Lemma cat2_combine : forall {A B C} (f : A -> B -> list C) ts vs,
  cat2 f ts vs = flat_map (fun p => f (fst p) (snd p)) (combine ts vs).
Proof.
  intros A B C f ts vs. revert ts. induction vs as [|x vr IH]; intros [|t tr]; try reflexivity.
  cbn. rewrite <- IH. reflexivity.
Qed.

Lemma map2r_cons : forall {A B C} (f : A -> B -> res C) t tr x vr,
  VL.map2r f (t :: tr) (x :: vr) =
  match f t x with Ok y => match VL.map2r f tr vr with Ok ys => Ok (y :: ys) | _ => Panic end | _ => Panic end.
Proof. reflexivity. Qed.

Lemma map2r_ok : forall {A B C} {f : A -> B -> res C} {ts vs outs},
  VL.map2r f ts vs = Ok outs -> Forall2 (fun p o => f (fst p) (snd p) = Ok o) (combine ts vs) outs.
Proof.
  intros A B C f ts vs. revert ts. induction vs as [|x vr IH]; intros [|t tr] outs H; try discriminate.
  - injection H as <-. constructor.
  - rewrite map2r_cons in H. destruct (f t x) as [y| |] eqn:E; try discriminate.
    destruct (VL.map2r f tr vr) as [ys| |] eqn:Er; try discriminate. injection H as <-.
    constructor; [exact E|apply IH, Er].
Qed.

Lemma map2r_ext : forall {A B C} (f g : A -> B -> res C) ts vs,
  (forall t x, In (t, x) (combine ts vs) -> f t x = g t x) -> VL.map2r f ts vs = VL.map2r g ts vs.
Proof.
  intros A B C f g ts vs. revert ts. induction vs as [|x vr IH]; intros [|t tr] H; try reflexivity.
  rewrite !map2r_cons, (H t x (or_introl eq_refl)), IH; [reflexivity|]. intros t' x' Hp. apply H. right. exact Hp.
Qed.

Lemma mapr_ext : forall {A B} (f g : A -> res B) l, Forall (fun x => f x = g x) l -> VL.mapr f l = VL.mapr g l.
Proof.
  intros A B f g l H. induction H as [|x r E _ IH]; [reflexivity|]. cbn [VL.mapr]. rewrite E, IH. reflexivity.
Qed.

Lemma Forall_combine_r : forall {A B} {P : B -> Prop} (ts : list A) vs,
  Forall P vs -> Forall (fun p => P (snd p)) (combine ts vs).
Proof.
  intros A B P ts vs H. rewrite Forall_forall in *. intros [t x] Hin. exact (H x (in_combine_r _ _ _ _ Hin)).
Qed.

Lemma Forall2_Forall_impl : forall {A B} {P : A -> Prop} {R Q : A -> B -> Prop} {l1 l2},
  Forall P l1 -> Forall2 R l1 l2 -> (forall x y, P x -> R x y -> Q x y) -> Forall2 Q l1 l2.
Proof.
  intros A B P R Q l1 l2 HP HR HQ. induction HR as [|x y r1 r2 Hxy _ IH]; [constructor|].
  inversion HP; subst. constructor; auto.
Qed.

Lemma flat_map_somes : forall {A B} (g : A -> list B) os,
  flat_map g (VL.somes os) = flat_map (fun o => match o with Some e => g e | None => [] end) os.
Proof.
  intros A B g os. induction os as [|[e|] r IH]; [reflexivity| |exact IH]. cbn [VL.somes flat_map]. rewrite IH. reflexivity.
Qed.

Lemma forallb_somes : forall {A B} (g : A -> bool) ps (os : list (option B)),
  Forall2 (fun p o => g p = match o with None => true | Some _ => false end) ps os ->
  forallb g ps = is_nil (VL.somes os).
Proof.
  intros A B g ps os H. induction H as [|p o rp ro Hpo _ IH]; [reflexivity|]. cbn [forallb]. rewrite Hpo.
  destruct o; [reflexivity|exact IH].
Qed.

(* the registrations of a map, as a set: those of every key and of every value *)
Lemma in_map_regs : forall {X} (key : X -> bytes) (rk rv : X -> list bytes) m p,
  In p (flat_map rk m ++ concat (map snd (sort_kv (map (fun kv => (key kv, rv kv)) m)))) <->
  In p (flat_map (fun kv => rk kv ++ rv kv) m).
Proof.
  intros X key rk rv m p.
  (* sorting permutes the rows *)
  rewrite sort_kv_eq, <- (sort_by_perm _ _ _), map_map, <- !flat_map_concat_map, in_app_iff, !in_flat_map. split.
  - intros [(kv & A & B)|(kv & A & B)]; exists kv; auto using in_or_app.
  - intros (kv & A & B). apply in_app_or in B. destruct B; eauto.
Qed.

Section Value.
  Context {F : Type}.
  Variable fzero : F -> bool.
  Variables ffmt gfmt : VL.fkind -> F -> bytes.
  Variable fbig : F -> bool.
  Variable quote : bytes -> bytes.
  Variable fx6 : bool.

  Notation goval := (VL.goval F).
  Notation vlit := (vlit fzero ffmt gfmt fbig quote).
  Notation value_regs := (value_regs fzero ffmt gfmt fbig quote fx6).
  Notation renders_nothing := (renders_nothing fzero).
  Notation key_text := (key_text fzero ffmt gfmt fbig quote).
  Notation keys_distinct := (keys_distinct fzero ffmt gfmt fbig quote).
  Notation ktext := (ktext fzero ffmt gfmt fbig quote).

  Lemma lit_pkgs_composite_eq : forall ty es,
    lit_pkgs (VL.LComposite ty es) = ty_pkgs ty ++ flat_map (fun e => lit_pkgs (fst e) ++ lit_pkgs (snd e)) es.
  Proof. reflexivity. Qed.

  Notation fld local := (Proofs.ValueLit.srow fzero ffmt gfmt fbig quote local).
  Notation kvrow local := (Proofs.ValueLit.row fzero ffmt gfmt fbig quote local true false).

  Lemma vlit_ptr_eq : forall local sub t x,
    vlit local sub t (VL.VPtr x) =
    match VL.under t with
    | VL.TPtr e =>
        if VL.basic_kind true (VL.under e) then
          let! a := vlit local sub e x in Ok (VL.LPtrClosure (VL.type_lit e) a)
        else let! a := vlit local false e x in Ok (VL.LAddr a)
    | _ => Panic
    end.
  Proof. reflexivity. Qed.

  Lemma vlit_struct_eq : forall local sub t vs,
    vlit local sub t (VL.VStruct vs) =
    match VL.under t with
    | VL.TStruct fs =>
        let! outs := VL.map2r (fld local) fs vs in
        let es := VL.somes outs in
        if sub && is_nil es then Ok VL.LEmpty else Ok (VL.LComposite (VL.type_lit t) es)
    | _ => Panic
    end.
  Proof. reflexivity. Qed.

  Lemma vlit_map_eq : forall local sub t n m,
    vlit local sub t (VL.VMap n m) =
    match VL.under t with
    | VL.TMap kt et =>
        let! tbl := VL.mapr (kvrow local kt et) m in
        let keys := VL.isort (map fst tbl) in
        Ok (VL.LComposite (VL.type_lit t)
              (map (fun k => match VL.assoc_last k tbl with Some e => e | None => (VL.LOther, VL.LOther) end) keys))
    | _ => Panic
    end.
  Proof. reflexivity. Qed.

  Lemma vlit_slice_eq : forall local sub t n l,
    vlit local sub t (VL.VSlice n l) =
    match VL.under t with
    | VL.TSlice e => let! ls := VL.mapr (vlit local false e) l in Ok (VL.LComposite (VL.type_lit t) (map (fun x => (VL.LKNone, x)) ls))
    | _ => Panic
    end.
  Proof. reflexivity. Qed.

  Lemma vlit_array_eq : forall local sub t l,
    vlit local sub t (VL.VArray l) =
    match VL.under t with
    | VL.TArray _ e => let! ls := VL.mapr (vlit local false e) l in Ok (VL.LComposite (VL.type_lit t) (map (fun x => (VL.LKNone, x)) ls))
    | _ => Panic
    end.
  Proof. reflexivity. Qed.

  Definition regfld (f : bytes * VL.gotype) (x : goval) : list bytes :=
    if VL.is_exported (fst f) && negb (VL.is_empty fzero x) then value_regs true (snd f) x else [].

  Lemma regs_struct_eq : forall sub t vs,
    value_regs sub t (VL.VStruct vs) =
    match VL.under t with
    | VL.TStruct fs =>
        if fx6 && sub && renders_nothing t (VL.VStruct vs) then []
        else ty_pkgs (VL.type_lit t) ++ cat2 regfld fs vs
    | _ => []
    end.
  Proof. reflexivity. Qed.

  Lemma regs_map_eq : forall sub t n m,
    value_regs sub t (VL.VMap n m) =
    match VL.under t with
    | VL.TMap kt et =>
        ty_pkgs (VL.type_lit t)
        ++ flat_map (fun kv => value_regs false kt (fst kv)) m
        ++ concat (map snd (sort_kv (map (fun kv => (key_text kt (fst kv), value_regs false et (snd kv))) m)))
    | _ => []
    end.
  Proof. reflexivity. Qed.

  Lemma rn_struct_eq : forall t vs,
    renders_nothing t (VL.VStruct vs) =
    match VL.under t with
    | VL.TStruct fs =>
        all2 (fun (f : bytes * VL.gotype) (x : goval) =>
                negb (VL.is_exported (fst f)) || VL.is_empty fzero x || renders_nothing (snd f) x) fs vs
    | _ => false
    end.
  Proof. reflexivity. Qed.

  (* ---- below another value ([sub]) the empty text is the literal of exactly the values that render nothing, whatever the
     qualifiers; at the top it is no value's literal ---- *)
  Lemma fld_none : forall local f x o,
    (forall sub t local l, vlit local sub t x = Ok l -> sub && renders_nothing t x = VL.is_lempty l) ->
    fld local f x = Ok o ->
    negb (VL.is_exported (fst f)) || VL.is_empty fzero x || renders_nothing (snd f) x
    = match o with None => true | Some _ => false end.
  Proof.
    intros local f x o IH H. unfold Proofs.ValueLit.srow in H. fold (vlit local) in H.
    destruct (VL.is_exported (fst f)); cbn [andb negb orb] in *; [|injection H as <-; reflexivity].
    destruct (VL.is_empty fzero x); cbn [andb negb orb] in *; [injection H as <-; reflexivity|].
    destruct (vlit local true (snd f) x) as [lx| |] eqn:E; try discriminate. cbn [bind] in H. injection H as <-.
    rewrite <- (IH true _ _ _ E). destruct (renders_nothing (snd f) x); reflexivity.
  Qed.

  Lemma renders_nothing_spec : forall v sub t local l,
    vlit local sub t v = Ok l -> sub && renders_nothing t v = VL.is_lempty l.
  Proof.
    induction v as [b|z|x|s| |v IH|n l0 IH|l0 IH|n m IH|vs IH] using Proofs.ValueLit.goval_ind';
      intros sub t local l H.
    1-9: destruct l; try apply andb_false_r;
      destruct (proj2 (Proofs.ValueLit.lempty_shape fzero ffmt gfmt fbig quote local true sub t _ H)) as [vs' E]; discriminate E.
    rewrite vlit_struct_eq in H. rewrite rn_struct_eq. destruct (VL.under t) as [| | | | | | | | |fs]; try discriminate.
    destruct (VL.map2r (fld local) fs vs) as [outs| |] eqn:M; cbn [bind] in H; try discriminate.
    assert (E : VL.is_lempty l = sub && is_nil (VL.somes outs)) by (destruct (sub && is_nil (VL.somes outs)); injection H as <-; reflexivity).
    rewrite E, all2_combine. f_equal. apply forallb_somes.
    exact (Forall2_Forall_impl (Forall_combine_r fs vs IH) (map2r_ok M)
             (fun p o => fld_none local (fst p) (snd p) o)).
  Qed.

  (* ---- the packages a literal mentions [lp] against the packages handed to the namer [rp]: none is missing;
     with the repair, and if no two keys of a map have the same text [kd], none is unused ---- *)
  Definition same_pkgs (kd : bool) (lp rp : list bytes) : Prop :=
    incl lp rp /\ (fx6 = true -> kd = true -> incl rp lp).

  Lemma same_pkgs_refl : forall kd a, same_pkgs kd a a.
  Proof. intros kd a. split; [apply incl_refl|intros _ _; apply incl_refl]. Qed.

  Lemma same_pkgs_app : forall k1 k2 a b c d,
    same_pkgs k1 a b -> same_pkgs k2 c d -> same_pkgs (k1 && k2) (a ++ c) (b ++ d).
  Proof.
    intros k1 k2 a b c d [A1 B1] [A2 B2]. split; [apply incl_app_app; assumption|].
    intros Hf K. apply andb_true_iff in K. destruct K as [K1 K2]. apply incl_app_app; auto.
  Qed.

  Lemma same_pkgs_flat_map : forall {X Y} (k : X -> bool) (f : X -> list bytes) (g : Y -> list bytes) xs ys,
    Forall2 (fun x y => same_pkgs (k x) (g y) (f x)) xs ys ->
    same_pkgs (forallb k xs) (flat_map g ys) (flat_map f xs).
  Proof.
    intros X Y k f g xs ys H. induction H as [|x y rx ry Hxy _ IH]; [apply same_pkgs_refl|].
    cbn [forallb flat_map]. apply same_pkgs_app; assumption.
  Qed.

  Lemma same_pkgs_trans : forall k1 k2 a b c, same_pkgs k1 a b -> same_pkgs k2 b c -> same_pkgs (k1 && k2) a c.
  Proof.
    intros k1 k2 a b c [A1 B1] [A2 B2]. split; [exact (incl_tran A1 A2)|]. intros Hf K. apply andb_true_iff in K.
    exact (incl_tran (B2 Hf (proj2 K)) (B1 Hf (proj1 K))).
  Qed.

  Lemma same_pkgs_set : forall kd a b c, (forall p, In p b <-> In p c) -> same_pkgs kd a b -> same_pkgs kd a c.
  Proof.
    intros kd a b c E [A B]. split; [intros p Hp; apply E, A, Hp|]. intros Hf K p Hp. apply (B Hf K), E, Hp.
  Qed.

  (* the entries of a map literal are rows of its table (or the filler); with distinct keys every row is an entry *)
  Lemma entries_rows : forall {A} (g : A -> list bytes) d (tbl : list (bytes * A)), g d = [] ->
    same_pkgs (nodupb (map fst tbl))
      (flat_map g (map (fun k => match VL.assoc_last k tbl with Some e => e | None => d end) (VL.isort (map fst tbl))))
      (flat_map (fun row => g (snd row)) tbl).
  Proof.
    intros A g d tbl Hd. split.
    - intros p Hp. apply in_flat_map in Hp. destruct Hp as (e & He & Hp). apply in_map_iff in He. destruct He as (k & <- & _).
      destruct (VL.assoc_last k tbl) as [e|] eqn:E; [|rewrite Hd in Hp; destruct Hp].
      apply in_flat_map. exists (k, e). split; [exact (assoc_last_some_in _ _ _ E)|exact Hp].
    - intros _ ND p. apply Order.nodup_bytes_NoDup in ND.
      rewrite <- (Proofs.ValueLitBase.isort_perm _), (Proofs.ValueLit.look_own d tbl ND), !flat_map_concat_map, map_map. exact (fun H => H).
  Qed.

  Notation epkgs := (fun e : VL.lit * VL.lit => lit_pkgs (fst e) ++ lit_pkgs (snd e)).

  Section Cases.
    Variable local : bytes -> bytes.
    Notation covered x :=
      (forall sub t l, vlit local sub t x = Ok l -> same_pkgs (keys_distinct local t x) (lit_pkgs l) (value_regs sub t x)).

    Lemma elems_regs : forall e ty xs l, Forall (fun x => covered x) xs ->
      (let! ls := VL.mapr (vlit local false e) xs in Ok (VL.LComposite ty (map (fun x => (VL.LKNone, x)) ls))) = Ok l ->
      same_pkgs (forallb (keys_distinct local e) xs) (lit_pkgs l) (ty_pkgs ty ++ flat_map (value_regs false e) xs).
    Proof.
      intros e ty xs l IH H. destruct (VL.mapr (vlit local false e) xs) as [ls| |] eqn:M; try discriminate. injection H as <-.
      rewrite lit_pkgs_composite_eq, flat_map_concat_map, map_map, <- flat_map_concat_map.
      apply (same_pkgs_app true); [apply same_pkgs_refl|]. apply same_pkgs_flat_map.
      exact (Forall2_Forall_impl IH (Proofs.ValueLitBase.mapr_ok_Forall2 _ _ _ M) (fun x y Hx Hxy => Hx _ _ _ Hxy)).
    Qed.

    (* a field whose literal is empty is dropped from the struct literal; only with the repair does it register nothing *)
    Lemma fld_regs : forall f x o, covered x -> fld local f x = Ok o ->
      same_pkgs (keys_distinct local (snd f) x) (match o with Some e => epkgs e | None => [] end) (regfld f x).
    Proof.
      intros f x o IH H. unfold Proofs.ValueLit.srow in H. fold (vlit local) in H. unfold regfld.
      destruct (VL.is_exported (fst f) && negb (VL.is_empty fzero x)); [|injection H as <-; apply same_pkgs_refl].
      destruct (vlit local true (snd f) x) as [lx| |] eqn:E; try discriminate. cbn [bind] in H. injection H as <-.
      specialize (IH _ _ _ E). destruct lx; exact IH.
    Qed.

    Lemma kvrow_regs : forall kt et kv row, covered (fst kv) /\ covered (snd kv) -> kvrow local kt et kv = Ok row ->
      same_pkgs (keys_distinct local kt (fst kv) && keys_distinct local et (snd kv)) (epkgs (snd row))
        (value_regs false kt (fst kv) ++ value_regs false et (snd kv)) /\
      fst row = ktext local kt (fst kv).
    Proof.
      intros kt et kv row [Hk Hv] H. unfold Proofs.ValueLit.row in H. fold (vlit local) in H. unfold RenderStack.ktext.
      destruct (vlit local false kt (fst kv)) as [kl| |] eqn:Ek; try discriminate.
      destruct (vlit local false et (snd kv)) as [vl| |] eqn:Ev; try discriminate. cbn [bind] in H. injection H as <-.
      split; [|reflexivity]. exact (same_pkgs_app _ _ _ _ _ _ (Hk _ _ _ Ek) (Hv _ _ _ Ev)).
    Qed.

    Lemma map_regs : forall n m, Forall (fun kv => covered (fst kv) /\ covered (snd kv)) m -> covered (VL.VMap n m).
    Proof.
      intros n m IH sub t l H. rewrite vlit_map_eq in H. rewrite regs_map_eq. cbn [RenderStack.keys_distinct].
      destruct (VL.under t) as [| | | | | | | |kt et|]; try discriminate.
      destruct (VL.mapr (kvrow local kt et) m) as [tbl| |] eqn:M; try discriminate. cbn [bind] in H. injection H as <-.
      rewrite lit_pkgs_composite_eq. apply (same_pkgs_app true); [apply same_pkgs_refl|].
      pose proof (Forall2_Forall_impl IH (Proofs.ValueLitBase.mapr_ok_Forall2 _ _ _ M)
                    (kvrow_regs kt et)) as Rows.
      replace (map (fun kv => ktext local kt (fst kv)) m) with (map fst tbl)
        by (clear - Rows; induction Rows as [|kv row rm rt [_ E] _ IHr]; [reflexivity|]; cbn [map]; rewrite E, IHr; reflexivity).
      (* entries against rows, rows against the registrations of the map's entries, which are those of the map as a set *)
      apply (same_pkgs_set _ _ _ _ (fun p => iff_sym (in_map_regs _ _ _ m p))).
      eapply same_pkgs_trans; [apply entries_rows; reflexivity|].
      apply same_pkgs_flat_map. clear - Rows. induction Rows as [|kv row rm rt [Hr _] _ IHr]; constructor; assumption.
    Qed.

    (* a struct: with the repair, one that renders nothing below another ([sub]) registers nothing *)
    Lemma struct_regs : forall vs, Forall (fun x => covered x) vs -> covered (VL.VStruct vs).
    Proof.
      intros vs IH sub t l H. rewrite regs_struct_eq, <- andb_assoc, (renders_nothing_spec _ _ _ _ _ H).
      rewrite vlit_struct_eq in H. cbn [RenderStack.keys_distinct].
      destruct (VL.under t) as [| | | | | | | | |fs]; try discriminate.
      destruct (VL.map2r (fld local) fs vs) as [outs| |] eqn:M; try discriminate. cbn [bind] in H.
      destruct (sub && is_nil (VL.somes outs)); injection H as <-; cbn [VL.is_lempty].
      - split; [apply incl_nil_l|]. intros -> _. apply incl_refl.
      - rewrite andb_false_r, lit_pkgs_composite_eq, cat2_combine, all2_combine, flat_map_somes.
        apply (same_pkgs_app true); [apply same_pkgs_refl|]. apply same_pkgs_flat_map.
        exact (Forall2_Forall_impl (Forall_combine_r fs vs IH) (map2r_ok M)
                 (fun p o => fld_regs (fst p) (snd p) o)).
    Qed.

    Theorem value_lit_regs : forall v, covered v.
    Proof.
      induction v as [b|z|x|s| |v IH|n l0 IH|l0 IH|n m IH|vs IH] using Proofs.ValueLit.goval_ind';
        intros sub t l H.
      (* a scalar literal mentions no package *)
      1-5: apply (Proofs.ValueLit.value_lit_shape fzero ffmt gfmt fbig quote local true) in H; cbn in H;
        decompose [ex or] H; subst l; apply same_pkgs_refl.
      - rewrite vlit_ptr_eq in H. cbn [RenderStack.value_regs RenderStack.keys_distinct].
        destruct (VL.under t) as [| | | | |e| | | |]; try discriminate. destruct (VL.basic_kind true (VL.under e)).
        + destruct (vlit local sub e v) as [a| |] eqn:E; try discriminate. cbn [bind] in H. injection H as <-.
          exact (same_pkgs_app true _ _ _ _ _ (same_pkgs_refl _ _) (IH _ _ _ E)).
        + destruct (vlit local false e v) as [a| |] eqn:E; try discriminate. cbn [bind] in H. injection H as <-.
          exact (IH _ _ _ E).
      - rewrite vlit_slice_eq in H. cbn [RenderStack.value_regs RenderStack.keys_distinct].
        destruct (VL.under t) as [| | | | | |e| | |]; try discriminate. exact (elems_regs e _ l0 l IH H).
      - rewrite vlit_array_eq in H. cbn [RenderStack.value_regs RenderStack.keys_distinct].
        destruct (VL.under t) as [| | | | | | |k e| |]; try discriminate. exact (elems_regs e _ l0 l IH H).
      - exact (map_regs n m IH sub t l H).
      - exact (struct_regs vs IH sub t l H).
    Qed.
  End Cases.

  (* ---- none missing: every package a literal mentions was handed to the namer ---- *)
  Lemma value_lit_pkgs : forall v local sub t l,
    vlit local sub t v = Ok l -> incl (lit_pkgs l) (value_regs sub t v).
  Proof. intros v local sub t l H. exact (proj1 (value_lit_regs local v sub t l H)). Qed.

  (* ---- text and literal depend on the qualifiers of the registered packages only (they enter the literal through
     the sort keys of maps) ---- *)
  Definition print_field (local : bytes -> bytes) (f : bytes * VL.tyast) : bytes :=
    fst f ++ bs " " ++ VL.print_ty local (snd f) ++ [VL.nl].

  Lemma print_ty_struct_eq : forall local fs,
    VL.print_ty local (VL.YStruct fs) = bs "struct {" ++ concat (map (print_field local) fs) ++ bs "}".
  Proof. reflexivity. Qed.

  Lemma ty_pkgs_struct_eq : forall fs, ty_pkgs (VL.YStruct fs) = flat_map (fun f => ty_pkgs (snd f)) fs.
  Proof. reflexivity. Qed.

  Definition print_entry (local : bytes -> bytes) (e : VL.lit * VL.lit) : bytes :=
    (if VL.is_knone (fst e) then [] else VL.print_lit quote local (fst e) ++ bs ":")
    ++ VL.print_lit quote local (snd e) ++ bs "," ++ [VL.nl].

  Lemma print_lit_composite_eq : forall local ty es,
    VL.print_lit quote local (VL.LComposite ty es) =
    VL.print_ty local ty ++ bs "{" ++ (if is_nil es then [] else [VL.nl]) ++ concat (map (print_entry local) es) ++ bs "}".
  Proof. reflexivity. Qed.

  Section Agree.
    Variables l1 l2 : bytes -> bytes.
    Notation agree := (Forall (fun p => l1 p = l2 p)).

    Lemma print_ty_ext : forall t, agree (ty_pkgs t) -> VL.print_ty l1 t = VL.print_ty l2 t.
    Proof.
      fix IH 1. intros [p n|e|e|n e|k e|fs] H.
      2-4: cbn [VL.print_ty]; rewrite (IH e H); reflexivity.
      - cbn [VL.print_ty]. rewrite (Forall_inv H). reflexivity.
      - apply Forall_app in H. cbn [VL.print_ty]. rewrite (IH k (proj1 H)), (IH e (proj2 H)). reflexivity.
      - rewrite !print_ty_struct_eq. rewrite ty_pkgs_struct_eq in H.
        assert (E : map (print_field l1) fs = map (print_field l2) fs); [|rewrite E; reflexivity].
        induction fs as [|f r IHr]; [reflexivity|]. cbn [map flat_map] in *. apply Forall_app in H. unfold print_field at 1 3.
        rewrite (IHr (proj2 H)), (IH _ (proj1 H)). reflexivity.
    Qed.

    Lemma print_lit_ext : forall l, agree (lit_pkgs l) -> VL.print_lit quote l1 l = VL.print_lit quote l2 l.
    Proof.
      fix IH 1. intros l H. destruct l as [| |b|s|c|s|x|ty a|ty es| |n|].
      1-6, 10-12: reflexivity.
      - cbn [VL.print_lit]. rewrite (IH x H). reflexivity.
      - apply Forall_app in H. cbn [VL.print_lit]. rewrite (print_ty_ext ty (proj1 H)), (IH a (proj2 H)). reflexivity.
      - rewrite !print_lit_composite_eq. rewrite lit_pkgs_composite_eq in H. apply Forall_app in H. destruct H as [Hty H].
        rewrite (print_ty_ext ty Hty).
        assert (E : map (print_entry l1) es = map (print_entry l2) es); [|rewrite E; reflexivity].
        induction es as [|e r IHr]; [reflexivity|]. cbn [map flat_map] in *. apply Forall_app in H. destruct H as [He Hr].
        apply Forall_app in He. unfold print_entry at 1 3. rewrite (IHr Hr), (IH _ (proj1 He)), (IH _ (proj2 He)). reflexivity.
    Qed.

    Lemma struct_ext : forall sub t vs,
      (forall fs f x, VL.under t = VL.TStruct fs -> In (f, x) (combine fs vs) ->
         VL.is_exported (fst f) && negb (VL.is_empty fzero x) = true -> vlit l1 true (snd f) x = vlit l2 true (snd f) x) ->
      vlit l1 sub t (VL.VStruct vs) = vlit l2 sub t (VL.VStruct vs).
    Proof.
      intros sub t vs H. rewrite !vlit_struct_eq. destruct (VL.under t) as [| | | | | | | | |fs]; try exact (eq_refl Panic).
      rewrite (map2r_ext (fld l1) (fld l2) fs vs); [reflexivity|]. intros f x Hin. unfold Proofs.ValueLit.srow. fold (vlit l1) (vlit l2).
      destruct (VL.is_exported (fst f) && negb (VL.is_empty fzero x)) eqn:Ex; [rewrite (H fs f x eq_refl Hin Ex)|]; reflexivity.
    Qed.

    Lemma renders_nothing_ext : forall v t sub, renders_nothing t v = true -> vlit l1 sub t v = vlit l2 sub t v.
    Proof.
      induction v as [b|z|x|s| |v IH|n l0 IH|l0 IH|n m IH|vs IH] using Proofs.ValueLit.goval_ind';
        intros t sub R; try discriminate.
      apply struct_ext. intros fs f x U Hin Ex. rewrite rn_struct_eq, U, all2_combine in R.
      pose proof (proj1 (forallb_forall _ _) R (f, x) Hin) as Rx. cbn [fst snd] in Rx.
      apply (proj1 (Forall_forall _ _) IH x (in_combine_r _ _ _ _ Hin)).
      destruct (VL.is_exported (fst f)); [|discriminate Ex]. destruct (VL.is_empty fzero x); [discriminate Ex|exact Rx].
    Qed.

    Notation decided x := (forall sub t, agree (value_regs sub t x) -> vlit l1 sub t x = vlit l2 sub t x).

    Lemma elems_ext : forall e xs, Forall (fun x => decided x) xs -> agree (flat_map (value_regs false e) xs) ->
      VL.mapr (vlit l1 false e) xs = VL.mapr (vlit l2 false e) xs.
    Proof.
      intros e xs IH H. apply Forall_flat_map in H. apply mapr_ext.
      exact (Forall_impl _ (fun x Hx => proj1 Hx false e (proj2 Hx)) (Forall_and IH H)).
    Qed.

    (* the sort key of an entry is the text of its key literal, whose packages are registered *)
    Lemma kvrow_ext : forall kt et kv, decided (fst kv) /\ decided (snd kv) ->
      agree (value_regs false kt (fst kv) ++ value_regs false et (snd kv)) -> kvrow l1 kt et kv = kvrow l2 kt et kv.
    Proof.
      intros kt et kv [Hk Hv] A. apply Forall_app in A. destruct A as [Ak Av]. unfold Proofs.ValueLit.row. fold (vlit l1) (vlit l2). rewrite (Hk _ _ Ak), (Hv _ _ Av).
      destruct (vlit l2 false kt (fst kv)) as [kl| |] eqn:Ek; try reflexivity. cbn [bind].
      rewrite (print_lit_ext kl (incl_Forall (value_lit_pkgs _ _ _ _ _ Ek) Ak)). reflexivity.
    Qed.

    Lemma value_lit_ext : forall v, decided v.
    Proof.
      induction v as [b|z|x|s| |v IH|n l0 IH|l0 IH|n m IH|vs IH] using Proofs.ValueLit.goval_ind';
        intros sub t H.
      1-5: reflexivity.
      - rewrite !vlit_ptr_eq. cbn [RenderStack.value_regs] in H. destruct (VL.under t) as [| | | | |e| | | |]; try exact (eq_refl Panic).
        destruct (VL.basic_kind true (VL.under e)).
        + apply Forall_app in H. rewrite (IH sub e (proj2 H)). reflexivity.
        + rewrite (IH false e H). reflexivity.
      - rewrite !vlit_slice_eq. cbn [RenderStack.value_regs] in H. destruct (VL.under t) as [| | | | | |e| | |]; try exact (eq_refl Panic).
        apply Forall_app in H. rewrite (elems_ext e l0 IH (proj2 H)). reflexivity.
      - rewrite !vlit_array_eq. cbn [RenderStack.value_regs] in H. destruct (VL.under t) as [| | | | | | |k e| |]; try exact (eq_refl Panic).
        apply Forall_app in H. rewrite (elems_ext e l0 IH (proj2 H)). reflexivity.
      - rewrite !vlit_map_eq. rewrite regs_map_eq in H. destruct (VL.under t) as [| | | | | | | |kt et|]; try exact (eq_refl Panic).
        apply Forall_app, proj2 in H. apply (incl_Forall (fun p => proj2 (in_map_regs _ _ _ m p))), Forall_flat_map in H.
        rewrite (mapr_ext (kvrow l1 kt et) (kvrow l2 kt et) m); [reflexivity|].
        exact (Forall_impl _ (fun kv Hx => kvrow_ext kt et kv (proj1 Hx) (proj2 Hx)) (Forall_and IH H)).
      - destruct (fx6 && sub && renders_nothing t (VL.VStruct vs)) eqn:C.
        + apply andb_true_iff in C. apply renders_nothing_ext, C.
        + apply struct_ext. intros fs f x U Hin Ex. rewrite regs_struct_eq, U, C, cat2_combine in H.
          apply Forall_app, proj2, Forall_flat_map in H.
          pose proof (proj1 (Forall_forall _ _) H (f, x) Hin) as Hx. unfold regfld in Hx. cbn [fst snd] in Hx. rewrite Ex in Hx.
          exact (proj1 (Forall_forall _ _) IH x (in_combine_r _ _ _ _ Hin) true (snd f) Hx).
    Qed.
  End Agree.
End Value.

(* ---- none unused (repaired code, fixes/C10-6): every package handed to the namer occurs in the literal ---- *)
Lemma value_regs_used {F : Type} (fzero : F -> bool) (ffmt gfmt : VL.fkind -> F -> bytes) (fbig : F -> bool)
    (quote : bytes -> bytes) : forall v local sub t l,
  vlit fzero ffmt gfmt fbig quote local sub t v = Ok l ->
  keys_distinct fzero ffmt gfmt fbig quote local t v = true ->
  incl (value_regs fzero ffmt gfmt fbig quote true sub t v) (lit_pkgs l).
Proof.
  intros v local sub t l H K. exact (proj2 (value_lit_regs fzero ffmt gfmt fbig quote true local v sub t l H) eq_refl K).
Qed.

Section Leaves.
  Context {F : Type}.
  Variable fzero : F -> bool.
  Variables ffmt gfmt : VL.fkind -> F -> bytes.
  Variable fbig : F -> bool.
  Variable quote : bytes -> bytes.
  Variable cbq : bytes -> bool.
  Variable pick : bytes -> TL.renv -> option bytes.
  Hypothesis pick_total : forall p e, TL.alookup p e = None -> pick p e <> None.
  Variable self : bytes.
  Variable fx6 : bool.

  Notation value_frag := (value_frag fzero ffmt gfmt fbig quote pick self fx6).
  Notation id_frag := (id_frag quote cbq pick self).
  Notation leaf_frag := (leaf_frag fzero ffmt gfmt fbig quote cbq pick self fx6).
  Notation raw_v := (raw_v fzero ffmt gfmt fbig quote pick self fx6).
  Notation raw_t := (@raw_t F quote cbq pick self).
  Notation leaf_value_regs := (leaf_value_regs fzero ffmt gfmt fbig quote self fx6).
  Notation add_all := (add_all pick).
  Notation stable := (stable TL.renv ext).
  Definition reached (e e1 : TL.renv) (ps : list bytes) : Prop := e1 = add_all ps e.
  Notation regs_ok := (regs_ok TL.renv reached).

  Lemma local_of_agree : forall ps e e2, ext (add_all (filter (is_foreign self) ps) e) e2 ->
    Forall (fun p => local_of self e2 p = local_of self (add_all (filter (is_foreign self) ps) e) p) ps.
  Proof.
    intros ps e e2 X. apply Forall_forall. intros p Hin. unfold local_of. destruct (is_foreign self p) eqn:Ef; [|reflexivity].
    apply (add_all_local pick pick_total); [|exact X]. apply filter_In. auto.
  Qed.

  Lemma value_frag_spec : forall t v e txt e1, value_frag t v e = Ok (txt, e1) ->
    e1 = add_all (leaf_value_regs t v) e /\ forall e2, ext e1 e2 -> value_frag t v e2 = Ok (txt, e2).
  Proof.
    intros t v e txt e1 H. unfold RenderStack.value_frag in H. fold (leaf_value_regs t v) in H.
    set (ea := add_all (leaf_value_regs t v) e) in *.
    destruct (vlit fzero ffmt gfmt fbig quote (local_of self ea) false t v) as [l| |] eqn:E; cbn [bind] in H; try discriminate.
    injection H as <- <-. split; [reflexivity|]. intros e2 X. unfold RenderStack.value_frag. fold (leaf_value_regs t v).
    rewrite (add_all_fix pick pick_total _ e e2 X).
    pose proof (local_of_agree _ e e2 X : Forall (fun p => local_of self e2 p = local_of self ea p) _) as A.
    rewrite (value_lit_ext fzero ffmt gfmt fbig quote fx6 _ _ v false t A), E. cbn [bind].
    rewrite (print_lit_ext quote _ _ l (incl_Forall (value_lit_pkgs fzero ffmt gfmt fbig quote fx6 _ _ _ _ _ E) A)). reflexivity.
  Qed.

  Lemma id_frag_spec : forall x, res_spec pick (id_frag x) (idarg_regs self parse_c15 x).
  Proof.
    intros x.
    exact (res_spec_map1 pick _ (TL.print quote) _ (ident_frag_spec pick pick_total parse_c15 self cbq true true x)).
  Qed.

  Lemma reached_refl : forall e, reached e e [].
  Proof. intros e. reflexivity. Qed.

  Lemma reached_trans : forall e e1 e2 F1 F2, reached e e1 F1 -> reached e1 e2 F2 -> reached e e2 (F1 ++ F2).
  Proof. intros e e1 e2 F1 F2 H1 H2. unfold reached in *. subst. symmetry. apply add_all_app. Qed.

  (* [res_spec] is [stable] and [regs_ok] in one *)
  Lemma res_spec_stable : forall (f : rs TL.renv) regs, res_spec pick f regs -> stable f.
  Proof.
    intros f regs S e t e1 H. destruct (S e t e1 H) as [E R]. split; [rewrite E; apply (add_all_ext pick)|exact R].
  Qed.

  Lemma res_spec_regs_ok : forall (f : rs TL.renv) regs, res_spec pick f regs -> regs_ok f regs.
  Proof. intros f regs S e t e1 H. exact (proj1 (S e t e1 H)). Qed.

  Lemma leaf_frag_spec : forall l, res_spec pick (leaf_frag l) (leaf_regs fzero ffmt gfmt fbig quote self fx6 l).
  Proof.
    intros [[[t v]|]|[x|]|p n]; cbn [RenderStack.leaf_frag leaf_regs].
    - exact (value_frag_spec t v).
    - apply res_spec_ret.
    - exact (id_frag_spec x).
    - apply res_spec_panic.
    - exact (id_frag_spec _).
  Qed.

  Lemma raw_v_spec : forall a, res_spec pick (raw_v a) (raw_v_regs fzero ffmt gfmt fbig quote self fx6 a).
  Proof.
    intros [t v| |x]; cbn [RenderStack.raw_v raw_v_regs].
    - exact (value_frag_spec t v).
    - apply res_spec_ret.
    - apply res_spec_panic.
  Qed.

  Lemma raw_t_spec : forall a, res_spec pick (raw_t a) (@raw_t_regs F self a).
  Proof.
    intros [t v| |x]; cbn [RenderStack.raw_t raw_t_regs]; [|apply res_spec_panic|exact (id_frag_spec x)].
    destruct t; try apply res_spec_panic. destruct v; try apply res_spec_panic. exact (id_frag_spec _).
  Qed.

  Lemma leaf_frag_stable : forall l, stable (leaf_frag l).
  Proof. intros l. exact (res_spec_stable _ _ (leaf_frag_spec l)). Qed.

  Lemma raw_v_stable : forall a, stable (raw_v a).
  Proof. intros a. exact (res_spec_stable _ _ (raw_v_spec a)). Qed.

  Lemma raw_t_stable : forall a, stable (raw_t a).
  Proof. intros a. exact (res_spec_stable _ _ (raw_t_spec a)). Qed.

  Lemma leaf_frag_regs : forall l, regs_ok (leaf_frag l) (leaf_regs fzero ffmt gfmt fbig quote self fx6 l).
  Proof. intros l. exact (res_spec_regs_ok _ _ (leaf_frag_spec l)). Qed.

  Lemma raw_v_regs_ok : forall a, regs_ok (raw_v a) (raw_v_regs fzero ffmt gfmt fbig quote self fx6 a).
  Proof. intros a. exact (res_spec_regs_ok _ _ (raw_v_spec a)). Qed.

  Lemma raw_t_regs_ok : forall a, regs_ok (raw_t a) (@raw_t_regs F self a).
  Proof. intros a. exact (res_spec_regs_ok _ _ (raw_t_spec a)). Qed.
End Leaves.

