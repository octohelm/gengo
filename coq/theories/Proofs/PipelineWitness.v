(* Concrete runs of the model: refutation witnesses for the code before a repair, and instances showing that
   the hypotheses of the general theorems are satisfiable (non-vacuity).  Everything here is closed computation. *)
Require Import Gengo.Base.Bytes Gengo.Model.Pipeline Gengo.Proofs.Pipeline Gengo.Proofs.PipelinePkg
  Gengo.Proofs.PipelineC07 Gengo.Corr.Pipe.
From Coq Require Import Permutation.

(* no formatter table: everything "parses" and is written as assembled; map order = list order *)
(* the composed model (Model/Whole.v): byte-level gengo.sum, Dispatch's enabling rule *)
Definition wit_env (fixed : bool) : env := whole_env_fx fixed (fun src => Some src) (fun _ l => l) rank0 [].

Ltac splits := repeat match goal with |- _ /\ _ => split end.
Ltac nodup := repeat (constructor; [cbn; intuition discriminate|]); try constructor.

Lemma wit_order_ok : forall fixed, order_ok (wit_env fixed).
Proof. intros fixed p l. apply Permutation_refl. Qed.

Definition tag (g : string) : tags := [(bs "gengo:" ++ bs g, [[]])].

(* package a of module m: `type U = int` tagged +gengo:al, and a previous zz_generated.al.go *)
Definition wa_pkg : pkginfo :=
  mk_pkg (bs "m/a") (bs "a") (bs "a") [bs "a.go"; bs "zz_generated.al.go"] [mk_ty (bs "U") KAlias (tag "al")] (bs "h1:a").
Definition wa_world : world := mk_world [wa_pkg] [bs "m/a"].
Definition wa_gen : generator :=
  script_gen (mk_sgen (bs "al") true [((bs "m/a", bs "U"), mk_step [] RIgnore false false [])]).
Definition wa_fs : fs := [((bs "a", bs "a.go"), bs "package a"); ((bs "a", bs "zz_generated.al.go"), bs "package a")].
Definition wa_args : args := {| a_all := false; a_force := false; a_base := bs "zz_generated" |}.

(* Before the repair of doGenerateAliasType the alias generator that signals ErrIgnore and renders nothing loses
   its previous file: every hypothesis of [exists_iff] except e_fixed holds, and the equivalence fails. *)
Lemma exists_iff_refuted_before_fix :
  exists (E : env) a w gens s p g,
    e_fixed E = false /\ order_ok E /\ NoDup (map g_name gens) /\ world_ok w /\
    exec_outcome E a w gens s = Done /\ In p (w_pkgs w) /\ processed E a w s p = true /\ In g gens /\
    (fs_lookup (gen_file a p (g_name g)) s <> None -> In (fname a (g_name g)) (pk_files p)) /\
    signalled_ignore E g p = true /\ go_body (gen_run E g p) = [] /\
    fs_lookup (gen_file a p (g_name g)) s <> None /\
    fs_lookup (gen_file a p (g_name g)) (exec_fs E a w gens s) = None.
Proof.
  exists (wit_env false), wa_args, wa_world, [wa_gen], wa_fs, wa_pkg, wa_gen.
  split; [reflexivity|]. split; [apply wit_order_ok|].
  split; [repeat constructor; intros []|].
  split; [split; repeat constructor; intros []|].
  split; [vm_compute; reflexivity|].
  split; [left; reflexivity|]. split; [vm_compute; reflexivity|]. split; [left; reflexivity|].
  split; [intros _; right; left; reflexivity|].
  split; [vm_compute; reflexivity|]. split; [vm_compute; reflexivity|].
  split; [vm_compute; discriminate | vm_compute; reflexivity].
Qed.

(* the same run on the repaired code keeps the file *)
Lemma alias_ignore_kept_after_fix :
  fs_lookup (gen_file wa_args wa_pkg (bs "al")) (exec_fs (wit_env true) wa_args wa_world [wa_gen] wa_fs)
  = Some (bs "package a").
Proof. vm_compute. reflexivity. Qed.

(* renders its call counter and emits a helper once per instance *)
Definition wc_gen : generator :=
  script_gen (mk_sgen (bs "g1") false
    [((bs "m/a", bs "T"), mk_step [] RNil true true []); ((bs "m/a", bs "T2"), mk_step [] RNil true true []);
     ((bs "m/b", bs "T"), mk_step [] RNil true true [])]).
Definition wc_a : pkginfo :=
  mk_pkg (bs "m/a") (bs "a") (bs "a") [bs "a.go"] [mk_ty (bs "T") KNamed (tag "g1"); mk_ty (bs "T2") KNamed (tag "g1")] (bs "h1:a").
Definition wc_b : pkginfo :=
  mk_pkg (bs "m/b") (bs "b") (bs "b") [bs "b.go"] [mk_ty (bs "T") KNamed (tag "g1")] (bs "h1:b").
Definition wc_world : world := mk_world [wc_b; wc_a] [bs "m/a"; bs "m/b"].
Definition wc_args : args := {| a_all := true; a_force := false; a_base := bs "zz_generated" |}.
Definition wc_fs : fs := [((bs "a", bs "a.go"), bs "package a"); ((bs "b", bs "b.go"), bs "package b")].

(* C05: package b is processed after a; its counter starts at one again and its helper is emitted again *)
Lemma stateful_generator_fresh_per_package :
  exec_outcome (wit_env true) wc_args wc_world [wc_gen] wc_fs = Done /\
  fs_lookup (bs "b", bs "zz_generated.g1.go") (exec_fs (wit_env true) wc_args wc_world [wc_gen] wc_fs)
  = Some (assemble (bs "b") (bs "g1") (bs "var N_g1_T_x int" ++ nl ++ bs "func helper_g1() {}" ++ nl)) /\
  fs_lookup (bs "a", bs "zz_generated.g1.go") (exec_fs (wit_env true) wc_args wc_world [wc_gen] wc_fs)
  = Some (assemble (bs "a") (bs "g1")
           (bs "var N_g1_T_x int" ++ nl ++ bs "func helper_g1() {}" ++ nl ++ bs "var N_g1_T2_xx int" ++ nl)).
Proof. vm_compute. repeat split; reflexivity. Qed.
