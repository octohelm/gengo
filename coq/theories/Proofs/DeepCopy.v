(* Lemmas for C17 about the deepcopy generator as a program (Model/DeepCopy.v): createFieldSnippet of the repaired code
   in closed form ([stmt_of], [dep_of]: it never panics); the generator terminates when struct-by-value nesting has a
   rank ([gen_deepcopy_total]); a later run reproduces the first ([run_same]); the generated file is one block of
   methods per processed type, dependencies closed (section Shape, [gen_all_post]).  What the methods do on a heap is
   in DeepCopySem.v.
   Props/C17.v states its theorems under two hypotheses DEFINED here: [vis_ok] (methods with a map receiver are
   attached to map types only) and [ranked] (no struct contains itself by value). *)
Require Import Gengo.Base.Bytes Gengo.Base.Order Gengo.Model.DeepCopy.

Lemma find_decl_name : forall ds n d, find_decl ds n = Some d -> d_name d = n.
Proof.
  induction ds as [|x ds IH]; intros n d H; cbn in H; [discriminate|].
  destruct (bytes_eqb (d_name x) n) eqn:E.
  - inversion H; subst. apply bytes_eqb_spec. exact E.
  - eauto.
Qed.

Lemma lookup_name : forall G n d, lookup G n = Some d -> d_name d = n.
Proof. intros G n d. apply find_decl_name. Qed.

Lemma lookup_self : forall G n d, lookup G n = Some d -> lookup G (d_name d) = Some d.
Proof. intros G n d H. rewrite (lookup_name _ _ _ H). exact H. Qed.

Lemma is_iface_kind : forall d, is_iface (Some d) = match d_kind d with DIface => true | _ => false end.
Proof. intros [? [] ? ? ?]; reflexivity. Qed.

Lemma is_map_kind : forall d, is_map (Some d) = match d_kind d with DMap _ _ => true | _ => false end.
Proof. intros [? [] ? ? ?]; reflexivity. Qed.

(* createFieldSnippet of the repaired code never panics: the statement it renders for a field, and the dependency it
   reports for the field's type (a named type of the package that is no interface) *)
Definition stmt_of (G : pkg) (vis : list method) (ft : bytes * fty) : stmt :=
  let f := fst ft in
  match snd ft with
  | FNamed n _ =>
      if is_iface (lookup G n) then SAssign f
      else choose f true true (if is_map (lookup G n) then false else snd (scan (hand_of (lookup G n) ++ sigs_of vis n)))
  | FForeign ms => let '(hc, hi, ptr) := scan ms in choose f hc hi ptr
  | FMap k e => SCopyMap f (bs "map[" ++ k ++ bs "]" ++ render_ety e)
  | FSlice e => SCopySlice f (bs "[]" ++ render_ety e)
  | _ => SAssign f
  end.

Definition dep_of (G : pkg) (t : fty) : option key :=
  match t with FNamed n args => if is_iface (lookup G n) then None else Some (n, args) | _ => None end.

Lemma field_stmt_fixed : forall G vis f t, field_stmt all_fixed G vis f t = Ok (stmt_of G vis (f, t), dep_of G t).
Proof.
  intros G vis f t. unfold stmt_of. destruct t as [| | |n args| | | |ms]; try reflexivity;
    cbn [field_stmt all_fixed fx_iface fx_mapptr andb dep_of fst snd].
  - destruct (is_iface (lookup G n)); [reflexivity|]. destruct (scan _) as [[a b] c]. reflexivity.
  - destruct (scan ms) as [[a b] c]. reflexivity.
Qed.

Lemma field_stmt_fixed_ok : forall G vis f t,
  exists s dep, field_stmt all_fixed G vis f t = Ok (s, dep).
Proof. intros G vis f t. rewrite field_stmt_fixed. eauto. Qed.

Lemma field_stmt_fixed_error : forall G vis f, field_stmt all_fixed G vis f FError = Ok (SAssign f, None).
Proof. reflexivity. Qed.

Lemma field_stmt_unfixed_error_panics : forall G vis f,
  field_stmt no_fix G vis f FError = Panic.
Proof. reflexivity. Qed.

(* the dependencies reported for a struct: its named field types of the package that are no interfaces, in field order *)
Definition named_deps (G : pkg) (fs : list (bytes * fty)) : list key :=
  flat_map (fun ft => match dep_of G (snd ft) with Some k => [k] | None => [] end) fs.

(* StructFieldsCopy of the repaired code never fails: one statement per field, the dependencies beside them *)
Lemma fields_copy_fixed : forall G vis fs,
  fields_copy all_fixed G vis fs = Ok (map (stmt_of G vis) fs, named_deps G fs).
Proof.
  intros G vis. induction fs as [|[f t] fs IH]; [reflexivity|].
  cbn [fields_copy map]. rewrite IH, field_stmt_fixed. unfold named_deps. cbn [bind flat_map snd].
  destruct (dep_of G t); reflexivity.
Qed.

Lemma fields_copy_fixed_ok : forall G vis fs, exists body deps, fields_copy all_fixed G vis fs = Ok (body, deps).
Proof. intros G vis fs. rewrite fields_copy_fixed. eauto. Qed.

Lemma fields_copy_deps : forall G vis fs body deps,
  fields_copy all_fixed G vis fs = Ok (body, deps) -> deps = named_deps G fs.
Proof. intros G vis fs body deps H. rewrite fields_copy_fixed in H. injection H as _ <-. reflexivity. Qed.

Lemma named_deps_In : forall G fs c args,
  In (c, args) (named_deps G fs) <-> (exists f, In (f, FNamed c args) fs) /\ is_iface (lookup G c) = false.
Proof.
  intros G fs c args. unfold named_deps. split.
  - intros H. apply in_flat_map in H. destruct H as [[f t] [Hin Hk]]. cbn [snd] in Hk.
    destruct t as [| | |n a| | | |]; try destruct Hk. cbn [dep_of] in Hk.
    destruct (is_iface (lookup G n)) eqn:Hi; [destruct Hk|]. destruct Hk as [E|[]]. injection E as <- <-. eauto.
  - intros [[f Hin] Hi]. apply in_flat_map. exists (f, FNamed c args). split; [exact Hin|]. cbn [snd dep_of]. rewrite Hi. left. reflexivity.
Qed.

(* the three kinds that contribute methods take the same path through generateType *)
Lemma gen_type_S : forall fuel fx G vis asdep k st,
  gen_type (S fuel) fx G vis asdep k st =
  if mem_key k (gs_processed st) then Ok (GNil, st)
  else
    let st1 := mk_gstate (k :: gs_processed st) (gs_out st) in
    match lookup G (fst k) with
    | None => Ok (GNil, st1)
    | Some d =>
        if is_iface (Some d) then Ok (GSkip, st1)
        else if negb (asdep && fx_deps fx) && negb (enabled G d) then Ok (GNil, st1)
        else let! (ms, defers) := render fx G vis d in
             loop_defers (gen_type fuel fx G vis true) defers (mk_gstate (k :: gs_processed st) (gs_out st ++ ms))
    end.
Proof.
  intros fuel fx G vis asdep k st. cbn [gen_type]. destruct (mem_key k (gs_processed st)); [reflexivity|].
  destruct (lookup G (fst k)) as [d|]; [|reflexivity]. rewrite is_iface_kind. destruct (d_kind d); reflexivity.
Qed.

(* The method scan: pointer-ness is preserved by methods whose DeepCopy/DeepCopyInto shape is pointer-typed. *)
Definition shaped (m : msig) : bool :=
  (bytes_eqb (ms_name m) n_copy && Nat.eqb (ms_results m) 1 && Nat.eqb (ms_params m) 0)
  || (bytes_eqb (ms_name m) n_into && Nat.eqb (ms_params m) 1 && Nat.eqb (ms_results m) 0).

Definition good (m : msig) : Prop := shaped m = true -> ms_ptr m = true.

Lemma scan_step_ptr : forall st m, good m -> snd (scan_step st m) = snd st.
Proof.
  intros [[hc hi] ptr] m Hg. unfold good, shaped in Hg. unfold scan_step. cbn [snd].
  destruct (bytes_eqb (ms_name m) n_copy && Nat.eqb (ms_results m) 1 && Nat.eqb (ms_params m) 0) eqn:E1;
  destruct (bytes_eqb (ms_name m) n_into && Nat.eqb (ms_params m) 1 && Nat.eqb (ms_results m) 0) eqn:E2;
  cbn in Hg; try (rewrite Hg by reflexivity); reflexivity.
Qed.

Lemma fold_scan_ptr : forall ms st, Forall good ms -> snd (fold_left scan_step ms st) = snd st.
Proof.
  induction ms as [|m ms IH]; intros st H; cbn; [reflexivity|].
  rewrite IH by exact (Forall_inv_tail H). apply scan_step_ptr, (Forall_inv H).
Qed.

Lemma scan_app_ptr : forall a b, Forall good b -> snd (scan (a ++ b)) = snd (scan a).
Proof. intros a b H. unfold scan. rewrite fold_left_app. apply fold_scan_ptr. exact H. Qed.

(* methods with map receivers are attached to map types only *)
Definition vis_ok (G : pkg) (vis : list method) : Prop :=
  Forall (fun m => match m with
                   | MMapCopy t | MMapInto t => is_map (lookup G t) = true
                   | _ => True
                   end) vis.

Lemma sigs_good : forall G vis n,
  vis_ok G vis -> is_map (lookup G n) = false -> Forall good (sigs_of vis n).
Proof.
  intros G vis n Hv Hm. unfold sigs_of. induction Hv as [|m vis Hm' Hv IH]; cbn; [constructor|].
  apply Forall_app. split; [|exact IH].
  destruct m as [t tp i p|t tp|t tp b|t|t|]; cbn [sig_of];
    try (destruct (bytes_eqb t n) eqn:E; [|constructor]).
  - constructor; [|constructor]. intros H. vm_compute in H. discriminate.
  - constructor; [|constructor]. intros _. reflexivity.
  - constructor; [|constructor]. intros _. reflexivity.
  - apply bytes_eqb_spec in E. subst t. congruence.
  - apply bytes_eqb_spec in E. subst t. congruence.
  - constructor.
Qed.

Lemma field_stmt_vis : forall G vis f t,
  vis_ok G vis -> field_stmt all_fixed G vis f t = field_stmt all_fixed G [] f t.
Proof.
  intros G vis f t Hv. rewrite !field_stmt_fixed. unfold stmt_of. destruct t as [| | |n args| | | |]; try reflexivity.
  cbn [snd]. destruct (is_map (lookup G n)) eqn:Hm; [reflexivity|].
  rewrite !scan_app_ptr; [reflexivity|constructor|exact (sigs_good G vis n Hv Hm)].
Qed.

Lemma fields_copy_vis : forall G vis fs,
  vis_ok G vis -> fields_copy all_fixed G vis fs = fields_copy all_fixed G [] fs.
Proof.
  intros G vis fs Hv. rewrite !fields_copy_fixed. do 2 f_equal. apply map_ext. intros [f t].
  pose proof (field_stmt_vis G vis f t Hv) as E. rewrite !field_stmt_fixed in E. injection E as E. exact E.
Qed.

Lemma render_vis : forall G vis d,
  vis_ok G vis -> render all_fixed G vis d = render all_fixed G [] d.
Proof.
  intros G vis d Hv. unfold render. destruct (d_kind d); try reflexivity.
  rewrite fields_copy_vis by assumption. reflexivity.
Qed.

Lemma loop_defers_ext : forall rec1 rec2,
  (forall k st, rec1 k st = rec2 k st) ->
  forall ds st, loop_defers rec1 ds st = loop_defers rec2 ds st.
Proof.
  intros rec1 rec2 H. induction ds as [|d ds IH]; intros st; cbn [loop_defers]; [reflexivity|].
  rewrite H. destruct (rec2 d st) as [[g st']| |]; cbn [bind]; try reflexivity.
  destruct g; [apply IH|reflexivity].
Qed.

Lemma gen_type_vis : forall G vis, vis_ok G vis ->
  forall fuel asdep k st,
    gen_type fuel all_fixed G vis asdep k st = gen_type fuel all_fixed G [] asdep k st.
Proof.
  intros G vis Hv. induction fuel as [|fuel IH]; intros asdep k st; [reflexivity|].
  rewrite !gen_type_S. destruct (mem_key k (gs_processed st)); [reflexivity|].
  destruct (lookup G (fst k)) as [d|]; [|reflexivity]. destruct (is_iface (Some d)); [reflexivity|].
  destruct (negb _ && negb _); [reflexivity|]. rewrite render_vis by assumption.
  destruct (render all_fixed G [] d) as [[ms defers]| |]; try reflexivity. apply loop_defers_ext, IH.
Qed.

Lemma gen_all_vis : forall G vis, vis_ok G vis ->
  forall fuel order st,
    gen_all fuel all_fixed G vis order st = gen_all fuel all_fixed G [] order st.
Proof.
  intros G vis Hv fuel. induction order as [|n order IH]; intros st; [reflexivity|].
  cbn [gen_all]. destruct (lookup G n) as [d|]; [|apply IH].
  destruct (enabled G d); [|apply IH].
  rewrite gen_type_vis by assumption.
  destruct (gen_type fuel all_fixed G [] false (n, []) st) as [[g st']| |]; cbn [bind]; try reflexivity.
  apply IH.
Qed.

Lemma gen_deepcopy_vis : forall G vis fuel order,
  vis_ok G vis -> gen_deepcopy fuel all_fixed G order vis = gen_deepcopy fuel all_fixed G order [].
Proof. intros. unfold gen_deepcopy. rewrite gen_all_vis by assumption. reflexivity. Qed.

(* Invariants of the generated file that only depend on what each type contributes. *)
Section OutInv.
  Variables (fx : fixes) (G : pkg) (vis : list method).
  Variable Q : list method -> Prop.
  Hypothesis Q_app : forall out n d ms defers,
    Q out -> lookup G n = Some d -> render fx G vis d = Ok (ms, defers) -> Q (out ++ ms).

  Lemma loop_defers_out_inv : forall rec,
    (forall k st g st', Q (gs_out st) -> rec k st = Ok (g, st') -> Q (gs_out st')) ->
    forall ds st g st', Q (gs_out st) -> loop_defers rec ds st = Ok (g, st') -> Q (gs_out st').
  Proof.
    intros rec Hrec. induction ds as [|d ds IH]; intros st g st' HQ H; cbn [loop_defers] in H.
    - injection H as _ <-. exact HQ.
    - apply bind_ok in H. destruct H as [[g1 st1] [H1 H2]].
      pose proof (Hrec _ _ _ _ HQ H1) as HQ1.
      destruct g1; [eapply IH; eassumption|]. injection H2 as _ <-. exact HQ1.
  Qed.

  Lemma gen_type_out_inv : forall fuel asdep k st g st',
    Q (gs_out st) -> gen_type fuel fx G vis asdep k st = Ok (g, st') -> Q (gs_out st').
  Proof.
    induction fuel as [|fuel IH]; intros asdep k st g st' HQ H; [discriminate|].
    rewrite gen_type_S in H.
    destruct (mem_key k (gs_processed st)); [injection H as _ <-; exact HQ|].
    destruct (lookup G (fst k)) as [d|] eqn:Hl; [|injection H as _ <-; exact HQ].
    destruct (is_iface (Some d)); [injection H as _ <-; exact HQ|].
    destruct (negb _ && negb _); [injection H as _ <-; exact HQ|].
    apply bind_ok in H. destruct H as [[ms defers] [Hr H]].
    eapply loop_defers_out_inv; [intros; eapply IH; eassumption| |exact H]. eapply Q_app; eassumption.
  Qed.

  Lemma gen_all_out_inv : forall fuel order st st',
    Q (gs_out st) -> gen_all fuel fx G vis order st = Ok st' -> Q (gs_out st').
  Proof.
    intros fuel. induction order as [|n order IH]; intros st st' HQ H; cbn [gen_all] in H.
    - injection H as <-. exact HQ.
    - destruct (lookup G n) as [d|]; [|eauto].
      destruct (enabled G d); [|eauto].
      apply bind_ok in H. destruct H as [[g st1] [H1 H2]].
      eapply IH; [|exact H2]. eapply gen_type_out_inv; eassumption.
  Qed.

  Lemma gen_deepcopy_out_inv : forall fuel order ms,
    Q [] -> gen_deepcopy fuel fx G order vis = Ok ms -> Q ms.
  Proof.
    intros fuel order ms HQ H. unfold gen_deepcopy in H. apply bind_ok in H.
    destruct H as [st [H1 H2]]. injection H2 as <-. eapply gen_all_out_inv; [|exact H1]. exact HQ.
  Qed.
End OutInv.

(* what a type contributes: map-receiver methods only for map types *)
Lemma render_vis_ok : forall fx G vis n d ms defers,
  lookup G n = Some d -> render fx G vis d = Ok (ms, defers) -> vis_ok G ms.
Proof.
  intros fx G vis n d ms defers Hl Hr. pose proof (lookup_self _ _ _ Hl) as Hs.
  assert (forall tp p, vis_ok G (match d_ifaces d with Some i => [MObject (d_name d) tp i p] | None => [] end)) as Hobj
    by (intros; destruct (d_ifaces d); repeat constructor).
  unfold render in Hr. destruct (d_kind d) eqn:Hk.
  - apply bind_ok in Hr. destruct Hr as [[body deps] [_ Hr]]. injection Hr as <- _.
    apply Forall_app. split; [apply Hobj|repeat constructor].
  - injection Hr as <- _. apply Forall_app. split; [apply Hobj|].
    repeat constructor; rewrite Hs, is_map_kind, Hk; reflexivity.
  - injection Hr as <- _. apply Forall_app. split; [apply Hobj|repeat constructor].
  - injection Hr as <- _. constructor.
Qed.

Lemma gen_deepcopy_vis_ok : forall fx G vis fuel order ms,
  gen_deepcopy fuel fx G order vis = Ok ms -> vis_ok G ms.
Proof.
  intros fx G vis fuel order ms H.
  eapply (gen_deepcopy_out_inv fx G vis (vis_ok G)); [|constructor|exact H].
  intros out n d ms' defers HQ Hl Hr. apply Forall_app. split; [exact HQ|].
  eapply render_vis_ok; eassumption.
Qed.

(* every later run of the repaired generator reproduces the first run *)
Lemma run_same : forall fuel G order ms,
  run fuel all_fixed G order 0 = Ok ms ->
  forall k, run fuel all_fixed G order k = Ok ms.
Proof.
  intros fuel G order ms H0. induction k as [|k IH]; [exact H0|].
  cbn [run]. rewrite IH. cbn [bind]. rewrite gen_deepcopy_vis.
  - exact H0.
  - eapply gen_deepcopy_vis_ok. exact H0.
Qed.

(* Go rejects a struct that contains itself by value: struct-by-value nesting has a rank *)
Definition ranked (G : pkg) (r : bytes -> nat) : Prop :=
  forall n d tp fs f c args,
    lookup G n = Some d -> d_kind d = DStruct tp fs -> In (f, FNamed c args) fs -> r c < r n.

Lemma render_deps : forall G vis d ms defers,
  render all_fixed G vis d = Ok (ms, defers) ->
  forall k, In k defers ->
    snd k = [] /\ is_iface (lookup G (fst k)) = false /\
    exists tp fs f args, d_kind d = DStruct tp fs /\ In (f, FNamed (fst k) args) fs.
Proof.
  intros G vis d ms defers H k Hk. unfold render in H. destruct (d_kind d) as [tp fs|kk e| |] eqn:Hd;
    try (injection H as _ <-; destruct Hk).
  rewrite fields_copy_fixed in H. injection H as _ <-.
  cbn [fx_origin all_fixed] in Hk. apply in_map_iff in Hk. destruct Hk as [[c args] [<- Hin]]. cbn [fst snd].
  apply named_deps_In in Hin. destruct Hin as [[f Hf'] Hi].
  split; [reflexivity|]. split; [exact Hi|]. exists tp, fs, f, args. auto.
Qed.

Lemma render_fixed_ok : forall G vis d, exists ms defers, render all_fixed G vis d = Ok (ms, defers).
Proof.
  intros G vis d. unfold render. destruct (d_kind d) as [tp fs|kk e| |]; eauto.
  rewrite fields_copy_fixed. cbn [bind]. eauto.
Qed.

Lemma loop_defers_total : forall rec ds,
  (forall dk st, In dk ds -> exists st', rec dk st = Ok (GNil, st')) ->
  forall st, exists st', loop_defers rec ds st = Ok (GNil, st').
Proof.
  intros rec. induction ds as [|dk ds IH]; intros Hrec st; cbn [loop_defers]; [eauto|].
  destruct (Hrec dk st (or_introl eq_refl)) as [st1 ->]. cbn [bind]. apply IH. intros x st2 Hx. apply Hrec. right. exact Hx.
Qed.

Section Total.
  Variables (G : pkg) (vis : list method) (r : bytes -> nat).
  Hypothesis Hrank : ranked G r.

  Lemma gen_type_total : forall fuel asdep k st,
    r (fst k) < fuel ->
    exists g st', gen_type fuel all_fixed G vis asdep k st = Ok (g, st') /\
                  (is_iface (lookup G (fst k)) = false -> g = GNil).
  Proof.
    induction fuel as [|fuel IH]; intros asdep k st Hr; [lia|].
    rewrite gen_type_S. destruct (mem_key k (gs_processed st)); [eauto|].
    destruct (lookup G (fst k)) as [d|] eqn:Hl; [|eauto].
    destruct (is_iface (Some d)); [do 2 eexists; split; [reflexivity|discriminate]|].
    destruct (negb _ && negb _); [eauto|].
    destruct (render_fixed_ok G vis d) as [ms [defers Hren]]. rewrite Hren. cbn [bind].
    (* a deferred key is the type of a struct field of d: of lower rank, and no interface *)
    destruct (loop_defers_total (gen_type fuel all_fixed G vis true) defers) with (st := mk_gstate (k :: gs_processed st) (gs_out st ++ ms))
      as [st' Hst]; [|eauto].
    intros dk st2 Hin. destruct (render_deps _ _ _ _ _ Hren dk Hin) as [_ [Hi [tp [fs [f [args [Hk Hf]]]]]]].
    destruct (IH true dk st2) as [g [st3 [Hg Hnil]]]; [pose proof (Hrank _ _ _ _ _ _ _ Hl Hk Hf); lia|].
    rewrite (Hnil Hi) in Hg. eauto.
  Qed.

  Lemma gen_all_total : forall fuel order st,
    (forall n, In n order -> r n < fuel) ->
    exists st', gen_all fuel all_fixed G vis order st = Ok st'.
  Proof.
    intros fuel. induction order as [|n order IH]; intros st Hr; cbn [gen_all]; [eauto|].
    assert (forall n0, In n0 order -> r n0 < fuel) as Hr' by (intros; apply Hr; right; assumption).
    destruct (lookup G n) as [d|]; [|apply IH; assumption].
    destruct (enabled G d); [|apply IH; assumption].
    destruct (gen_type_total fuel false (n, []) st (Hr n (or_introl eq_refl))) as [g [st1 [H1 _]]].
    rewrite H1. cbn [bind]. apply IH. assumption.
  Qed.
End Total.

Lemma list_max_ge : forall l x, In x l -> x <= list_max l.
Proof. intros l. apply Forall_forall, list_max_le, le_n. Qed.

Lemma gen_deepcopy_total : forall G r, ranked G r ->
  forall order, exists n, forall fuel, n <= fuel -> forall vis,
    exists ms, gen_deepcopy fuel all_fixed G order vis = Ok ms.
Proof.
  intros G r Hr order. exists (S (list_max (map r order))). intros fuel Hf vis.
  destruct (gen_all_total G vis r Hr fuel order (mk_gstate [] [])) as [st Hst].
  - intros n Hn. pose proof (list_max_ge (map r order) (r n) (in_map r _ _ Hn)). lia.
  - unfold gen_deepcopy. rewrite Hst. cbn [bind]. eauto.
Qed.

Lemma key_eqb_spec : forall a b : key, key_eqb a b = true <-> a = b.
Proof.
  intros [a1 a2] [b1 b2]. unfold key_eqb. cbn [fst snd]. rewrite andb_true_iff.
  rewrite bytes_eqb_spec. rewrite (list_eqb_spec bytes_eqb bytes_eqb_spec). split.
  - intros [H1 H2]. congruence.
  - intros H. inversion H. auto.
Qed.

Lemma mem_key_In : forall k l, mem_key k l = true <-> In k l.
Proof.
  intros k l. unfold mem_key. rewrite existsb_exists. split.
  - intros [x [Hin He]]. apply key_eqb_spec in He. subst x. exact Hin.
  - intros Hin. exists k. split; [exact Hin|]. apply key_eqb_spec. reflexivity.
Qed.

(* Shape of the generated file: one block of methods per processed type, dependencies closed. *)
Section Shape.
  Variable G : pkg.

  (* the methods the repaired generator renders for type n, and its defers *)
  Definition emit (n : bytes) : list method :=
    match lookup G n with
    | Some d => match render all_fixed G [] d with Ok (ms, _) => ms | _ => [] end
    | None => []
    end.

  Definition deps_of (n : bytes) : list key :=
    match lookup G n with
    | Some d => match render all_fixed G [] d with Ok (_, ds) => ds | _ => [] end
    | None => []
    end.

  Definition closedkey (P : list key) (j : key) : Prop := forall dk, In dk (deps_of (fst j)) -> In dk P.

  (* the file holds one block per processed key, in the order of processing; the block of an interface type or of an
     undeclared name is empty *)
  Definition J (st : gstate) : Prop :=
    gs_out st = flat_map emit (rev (map fst (gs_processed st)))
    /\ (forall k, In k (gs_processed st) -> snd k = [])
    /\ NoDup (map fst (gs_processed st)).

  Lemma emit_render : forall n d ms ds,
    lookup G n = Some d -> render all_fixed G [] d = Ok (ms, ds) -> emit n = ms /\ deps_of n = ds.
  Proof. intros n d ms ds Hl Hr. unfold emit, deps_of. rewrite Hl, Hr. auto. Qed.

  Lemma closedkey_mono : forall P P' j, closedkey P j -> incl P P' -> closedkey P' j.
  Proof. unfold closedkey, incl. auto. Qed.

  Lemma J_push : forall st k,
    J st -> snd k = [] -> mem_key k (gs_processed st) = false ->
    J (mk_gstate (k :: gs_processed st) (gs_out st ++ emit (fst k))).
  Proof.
    intros st k [Ho [Hs Hn]] Hk Hm. unfold J. cbn [gs_processed gs_out]. split; [|split].
    - cbn [map rev]. rewrite Ho, flat_map_app. cbn [flat_map]. rewrite app_nil_r. reflexivity.
    - intros j [<-|Hj]; auto.
    - cbn [map]. constructor; [|exact Hn]. intros Hin. apply in_map_iff in Hin.
      destruct Hin as [j [Hf Hj]]. apply not_true_iff_false in Hm. apply Hm, mem_key_In.
      replace k with j; [exact Hj|]. pose proof (Hs _ Hj). destruct j, k. cbn [fst snd] in *. congruence.
  Qed.

  Definition post (st st' : gstate) : Prop :=
    J st' /\ incl (gs_processed st) (gs_processed st')
    /\ (forall j, In j (gs_processed st') -> In j (gs_processed st) \/ closedkey (gs_processed st') j).

  Lemma post_refl : forall st, J st -> post st st.
  Proof. intros st H. split; [exact H|]. split; [apply incl_refl|auto]. Qed.

  Lemma post_trans : forall a b c, post a b -> post b c -> post a c.
  Proof.
    intros a b c [Jb [Iab Cab]] [Jc [Ibc Cbc]]. split; [exact Jc|]. split; [eapply incl_tran; eassumption|].
    intros j Hc. destruct (Cbc j Hc) as [Hb|Hcl]; [|right; exact Hcl].
    destruct (Cab j Hb) as [Ha|Hcl]; [left; exact Ha|right]. eapply closedkey_mono; eassumption.
  Qed.

  Lemma post_push : forall st k out st',
    post (mk_gstate (k :: gs_processed st) out) st' -> closedkey (gs_processed st') k ->
    post st st' /\ In k (gs_processed st').
  Proof.
    intros st k out st' [HJ [Hincl Hnew]] Hk. cbn [gs_processed] in *. split; [|apply Hincl; left; reflexivity].
    split; [exact HJ|]. split; [intros x Hx; apply Hincl; right; exact Hx|].
    intros j Hj. destruct (Hnew j Hj) as [[<-|Hin]|Hcl]; auto.
  Qed.

  Lemma loop_defers_post : forall rec,
    (forall k st g st', J st -> snd k = [] -> rec k st = Ok (g, st') ->
       post st st' /\ In k (gs_processed st') /\ (is_iface (lookup G (fst k)) = false -> g = GNil)) ->
    forall ds st g st',
      J st -> (forall dk, In dk ds -> snd dk = [] /\ is_iface (lookup G (fst dk)) = false) ->
      loop_defers rec ds st = Ok (g, st') ->
      post st st' /\ (forall dk, In dk ds -> In dk (gs_processed st')) /\ g = GNil.
  Proof.
    intros rec Hrec. induction ds as [|dk ds IH]; intros st g st' HJ Hds H; cbn [loop_defers] in H.
    - injection H as <- <-. split; [apply post_refl; exact HJ|]. split; [intros dk []|reflexivity].
    - apply bind_ok in H. destruct H as [[g1 st1] [H1 H2]].
      destruct (Hds dk (or_introl eq_refl)) as [Hs Hi].
      destruct (Hrec _ _ _ _ HJ Hs H1) as [Hp1 [Hin1 Hg1]]. rewrite (Hg1 Hi) in H2.
      destruct (IH st1 g st' (proj1 Hp1) (fun x Hx => Hds x (or_intror Hx)) H2) as [Hp2 [Hin2 Hg]].
      split; [eapply post_trans; eassumption|]. split; [|exact Hg].
      intros x [<-|Hx]; [|auto]. apply (proj1 (proj2 Hp2)), Hin1.
  Qed.

  Lemma gen_type_post : forall fuel asdep k st g st',
    J st -> snd k = [] ->
    (asdep = true \/ forall d, lookup G (fst k) = Some d -> enabled G d = true) ->
    gen_type fuel all_fixed G [] asdep k st = Ok (g, st') ->
    post st st' /\ In k (gs_processed st') /\ (is_iface (lookup G (fst k)) = false -> g = GNil).
  Proof.
    induction fuel as [|fuel IH]; intros asdep k st g st' HJ Hk Hpre H; [discriminate|].
    rewrite gen_type_S in H. destruct (mem_key k (gs_processed st)) eqn:Hm.
    { injection H as <- <-. split; [apply post_refl; exact HJ|]. split; [apply mem_key_In, Hm|auto]. }
    pose proof (J_push st k HJ Hk Hm) as HJ1.
    (* a key that contributes nothing and has no dependencies *)
    assert (emit (fst k) = [] /\ deps_of (fst k) = [] ->
            post st (mk_gstate (k :: gs_processed st) (gs_out st)) /\ In k (k :: gs_processed st)) as Hsilent.
    { intros [He Hd]. rewrite He, app_nil_r in HJ1. apply (post_push st k (gs_out st)); [apply post_refl, HJ1|].
      intros dk. rewrite Hd. intros []. }
    destruct (lookup G (fst k)) as [d|] eqn:Hl.
    2:{ injection H as <- <-. destruct Hsilent as [A B]; [unfold emit, deps_of; rewrite Hl|]; auto. }
    destruct (is_iface (Some d)) eqn:Hi.
    { injection H as <- <-. destruct Hsilent as [A B].
      - apply (emit_render _ d [] [] Hl). unfold render. rewrite is_iface_kind in Hi.
        destruct (d_kind d); try discriminate Hi. reflexivity.
      - split; [exact A|]. split; [exact B|discriminate]. }
    replace (negb (asdep && fx_deps all_fixed) && negb (enabled G d)) with false in H
      by (destruct Hpre as [->|He]; [reflexivity|rewrite (He d eq_refl), andb_false_r; reflexivity]).
    apply bind_ok in H. destruct H as [[ms defers] [Hren H]].
    rewrite (proj1 (emit_render _ _ _ _ Hl Hren)) in HJ1.
    destruct (loop_defers_post (gen_type fuel all_fixed G [] true)
                (fun k0 st0 g0 st0' HJ0 Hs0 H0 => IH true k0 st0 g0 st0' HJ0 Hs0 (or_introl eq_refl) H0)
                defers _ g st' HJ1) as [Hp [Hin ->]]; [|exact H|].
    { intros dk Hdk. destruct (render_deps _ _ _ _ _ Hren dk Hdk) as [Hs [Hi' _]]. auto. }
    destruct (post_push st k _ st' Hp) as [A B]; [|auto].
    intros dk Hdk. apply Hin. rewrite (proj2 (emit_render _ _ _ _ Hl Hren)) in Hdk. exact Hdk.
  Qed.

  Lemma gen_all_post : forall fuel order st st',
    J st -> gen_all fuel all_fixed G [] order st = Ok st' ->
    post st st' /\
    (forall n d, In n order -> lookup G n = Some d -> enabled G d = true -> In (n, []) (gs_processed st')).
  Proof.
    intros fuel. induction order as [|n order IH]; intros st st' HJ H; cbn [gen_all] in H.
    - injection H as <-. split; [apply post_refl, HJ|intros n d []].
    - destruct (lookup G n) as [d|] eqn:Hl; [destruct (enabled G d) eqn:He|].
      2,3: destruct (IH _ _ HJ H) as [Hp Hroots]; split; [exact Hp|]; intros n0 d0 [<-|Hin0] Hl0 He0; [congruence|eauto].
      apply bind_ok in H. destruct H as [[g st1] [H1 H2]].
      destruct (gen_type_post fuel false (n, []) st g st1 HJ eq_refl) as [Hp1 [Hin _]];
        [right; cbn [fst]; congruence|exact H1|].
      destruct (IH _ _ (proj1 Hp1) H2) as [Hp2 Hroots]. split; [eapply post_trans; eassumption|].
      intros n0 d0 [<-|Hin0] Hl0 He0; [apply (proj1 (proj2 Hp2)), Hin|eauto].
  Qed.
End Shape.
