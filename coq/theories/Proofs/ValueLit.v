(* C10 — proofs about the model of Dumper.ValueLit (Model/ValueLit.v) against Model/ValueLitSpec.v.  The round trip
   ([roundtrip_all], [roundtrip_top]): for a type in the domain and a value typed by it, the literal the repaired
   printer gives denotes a value deeply equal to the printed one — by induction over values ([goval_ind']) on the
   statement [RT], which lets a zero struct below SubValue render as the empty text; the float printers, the float
   parser and the quote function are section variables under the hypotheses H_fzero ... quote_inj.  [map_order]: the
   literal of a map does not depend on the order of its entries.
   DEFINED here and used in statements of Props/C10.v: [fails] (an in-domain value on which a code version panics or
   prints what does not denote), with the types [T_In], [T_Color] and the text [max_float64_f] of its instances;
   [z_frep], an instance of the float hypotheses ([z_instance]); [row]. *)
Require Import Gengo.Base.Bytes Gengo.Model.ValueLit Gengo.Model.ValueLitSpec Gengo.Proofs.ValueLitBase.
From Coq Require Import ZArith Permutation.
Require Gengo.Base.Order Gengo.Base.Assoc.

Lemma tyast_eqb_refl : forall a, tyast_eqb a a = true.
Proof.
  fix IH 1. intros [p n|e|e|n e|k e|fs]; cbn.
  - now rewrite !bytes_eqb_refl.
  - apply IH.
  - apply IH.
  - rewrite Nat.eqb_refl. apply IH.
  - now rewrite !IH.
  - revert fs. fix IHfs 1. intros [|f fs]; [reflexivity|].
    rewrite bytes_eqb_refl, IH. cbn. apply IHfs.
Qed.

Lemma zero_under {F} (f0 : F) : forall t, zero f0 t = zero f0 (under t).
Proof. destruct t; reflexivity. Qed.

Lemma dom_under : forall t, dom t -> dom (under t).
Proof. intros t H. destruct H; cbn; try (constructor; assumption). assumption. Qed.

Lemma under_idem_dom : forall t, dom t -> under (under t) = under t.
Proof. intros t H. destruct H; cbn; try reflexivity. destruct u; try reflexivity. contradiction. Qed.

Lemma dom_inv : forall t, dom t ->
  match under t with
  | TPtr e => not_ptr e /\ dom e
  | TSlice e | TArray _ e => dom e
  | TMap k e => key_ok k /\ dom k /\ dom e
  | TStruct fs => Forall (fun f => is_exported (fst f) = true /\ dom (snd f)) fs /\ NoDup (map fst fs)
  | _ => True
  end.
Proof. intros t H. apply dom_under in H. destruct H; auto. Qed.

Definition Forall_all {A} (P : A -> Prop) (f : forall x, P x) : forall l, Forall P l :=
  fix go l := match l with [] => Forall_nil P | x :: r => Forall_cons x (f x) (go r) end.

Section Ind.
  Context {F : Type}.
  Variable P : goval F -> Prop.
  Hypothesis Hb : forall b, P (VBool b).
  Hypothesis Hi : forall z, P (VInt z).
  Hypothesis Hf : forall x, P (VFloat x).
  Hypothesis Hs : forall s, P (VStr s).
  Hypothesis Hn : P VNilPtr.
  Hypothesis Hp : forall v, P v -> P (VPtr v).
  Hypothesis Hsl : forall n l, Forall P l -> P (VSlice n l).
  Hypothesis Ha : forall l, Forall P l -> P (VArray l).
  Hypothesis Hm : forall n m, Forall (fun kv => P (fst kv) /\ P (snd kv)) m -> P (VMap n m).
  Hypothesis Hst : forall l, Forall P l -> P (VStruct l).

  Fixpoint goval_ind' (v : goval F) : P v :=
    match v with
    | VBool b => Hb b | VInt z => Hi z | VFloat x => Hf x | VStr s => Hs s
    | VNilPtr => Hn
    | VPtr x => Hp x (goval_ind' x)
    | VSlice n l => Hsl n l (Forall_all P (fun x => goval_ind' x) l)
    | VArray l => Ha l (Forall_all P (fun x => goval_ind' x) l)
    | VMap n m => Hm n m (Forall_all _ (fun kv => conj (goval_ind' (fst kv)) (goval_ind' (snd kv))) m)
    | VStruct l => Hst l (Forall_all P (fun x => goval_ind' x) l)
    end.
End Ind.

Section Proofs.
  Context {F : Type}.
  Variable fzero : F -> bool.
  Variables ffmt gfmt : fkind -> F -> bytes.
  Variable fbig : F -> bool.
  Variable fparse : fkind -> bytes -> option F.
  Variable f0 : F.
  Variable quote : bytes -> bytes.
  Variable local : bytes -> bytes.
  Variable frep : fkind -> F -> Prop.
  Variable feq : F -> F -> Prop.

  Notation VL := (@value_lit F fzero ffmt gfmt fbig quote local).
  Notation DN := (@denote F fparse f0).
  Notation PL := (@print_lit quote local).
  Notation ZERO := (@zero F f0).
  Notation TYPED := (@typed F frep).
  Notation DEQ := (@deep_eq F feq).
  Notation EMPTY := (@is_empty F fzero).

  Lemma typed_inv : forall t v, TYPED t v ->
    match v with
    | VBool _ => under t = TBool
    | VInt z => exists k, under t = TInt k /\ irange k z = true
    | VFloat x => exists k, under t = TFloat k /\ frep k x
    | VStr _ => under t = TString
    | VNilPtr => exists e, under t = TPtr e
    | VPtr x => exists e, under t = TPtr e /\ TYPED e x
    | VSlice _ l => exists e, under t = TSlice e /\ Forall (TYPED e) l
    | VArray l => exists n e, under t = TArray n e /\ Forall (TYPED e) l /\ length l = n
    | VMap _ m => exists k e, under t = TMap k e /\ Forall (fun kv => TYPED k (fst kv) /\ TYPED e (snd kv)) m /\
                              NoDup (map fst m)
    | VStruct vs => exists fs, under t = TStruct fs /\ Forall2 (fun f v => TYPED (snd f) v) fs vs
    end.
  Proof. intros t v H. destruct H; eauto 8. Qed.

  Lemma value_lit_shape : forall fx sub t v l, VL fx sub t v = Ok l ->
    match v with
    | VBool b => l = LBool b
    | VInt z => l = LNum (dec z) \/ l = LChar z
    | VFloat _ => exists s, l = LNum s
    | VStr s => l = LStr s
    | VNilPtr => l = LNil
    | VPtr _ => exists e a, under t = TPtr e /\
                  (l = LAddr a \/ l = LPtrClosure (if fx then type_lit e else YName [] (kind_name (under e))) a)
    | VStruct _ => l = LEmpty /\ sub = true \/ exists es, l = LComposite (type_lit t) es
    | VSlice _ _ | VArray _ | VMap _ _ => exists es, l = LComposite (type_lit t) es
    end.
  Proof.
    intros fx sub t v l H. destruct v; cbn [value_lit] in H; unfold bind in H.
    5: now injection H as <-.
    all: destruct (under t) eqn:Hu; try discriminate H.
    - now injection H as <-.
    - destruct k; try (injection H as <-; auto; fail).
      + destruct (is_rune_type t && rune_short z); injection H as <-; auto.
      + destruct fx; [injection H as <-; auto | discriminate H].
    - injection H as <-. eauto.
    - now injection H as <-.
    - destruct (basic_kind fx (under g)); destruct (VL fx _ g v); try discriminate H; injection H as <-; eauto 6.
    - destruct (mapr _ _); try discriminate H. injection H as <-. eauto.
    - destruct (mapr _ _); try discriminate H. injection H as <-. eauto.
    - destruct (mapr _ _); try discriminate H. injection H as <-. eauto.
    - destruct (map2r _ _ _); try discriminate H.
      destruct sub, (is_nil _); injection H as <-; eauto.
  Qed.

  Lemma lempty_shape : forall fx sub t v, VL fx sub t v = Ok LEmpty -> sub = true /\ exists vs, v = VStruct vs.
  Proof.
    intros fx sub t v H. apply value_lit_shape in H.
    destruct v; cbn in H; decompose [ex or and] H; try discriminate; eauto.
  Qed.

  Definition is_composite_val (v : goval F) : Prop :=
    match v with VSlice _ _ | VArray _ | VMap _ _ | VStruct _ => True | _ => False end.

  Lemma composite_shape : forall fx t v l, is_composite_val v -> VL fx false t v = Ok l ->
    exists ty es, l = LComposite ty es.
  Proof.
    intros fx t v l Hc H. apply value_lit_shape in H.
    destruct v; try contradiction; cbn in H; decompose [ex or and] H; try discriminate; eauto.
  Qed.

  Hypothesis H_fzero : forall x, fzero x = true -> feq x f0.
  Hypothesis H_ffmt : forall k x, frep k x -> exists y, fparse k (ffmt k x) = Some y /\ feq x y.
  Hypothesis H_gfmt : forall k x, frep k x -> exists y, fparse k (gfmt k x) = Some y /\ feq x y.
  Hypothesis H_small : forall k x z, frep k x -> fbig x = false -> parse_int (ffmt k x) = Some z -> int_const_ok z = true.
  Hypothesis H_big : forall k x, frep k x -> fbig x = true -> parse_int (gfmt k x) = None.
  Hypothesis quote_inj : forall a b, quote a = quote b -> a = b.

  (* the round trip, in the form that goes through the induction: below SubValue a zero struct may
     render as the empty text, and then the value is the zero value of its type *)
  Definition RT (v : goval F) : Prop := forall t sub, dom t -> TYPED t v ->
    exists l, VL true sub t v = Ok l /\
      ((l = LEmpty /\ sub = true /\ DEQ v (ZERO t)) \/ (exists v', DN t l = Some v' /\ DEQ v v')).

  Definition key_lit (kt : gotype) (k : goval F) : lit :=
    match k with
    | VBool b => LBool b
    | VInt z => if is_rune_type kt && rune_short z then LChar z else LNum (dec z)
    | VStr s => LStr s
    | _ => LOther
    end.

  Definition key_scalar (v : goval F) : Prop :=
    match v with VBool _ | VInt _ | VStr _ => True | _ => False end.

  Lemma key_typed_scalar : forall kt k, key_ok kt -> TYPED kt k -> key_scalar k.
  Proof.
    intros kt k Hk Ht. unfold key_ok in Hk.
    destruct Ht as [? ? Hu|? ? ? Hu|? ? ? Hu|? ? Hu|? ? Hu|? ? ? Hu|? ? ? ? Hu|? ? ? ? Hu|? ? ? ? ? Hu|? ? ? Hu];
      cbn; auto; rewrite Hu in Hk; contradiction.
  Qed.

  Lemma is_rune_type_under : forall t, is_rune_type t = true -> under t = TInt KInt32.
  Proof. intros [| [] | | | | | | | |]; (reflexivity || discriminate). Qed.

  Lemma scalar_render : forall t v sub, key_scalar v -> TYPED t v ->
    VL true sub t v = Ok (key_lit t v) /\ DN t (key_lit t v) = Some v.
  Proof.
    intros t v sub Hs Ht. apply typed_inv in Ht.
    destruct v as [b|z| |s| | | | | |]; try contradiction; cbv beta iota in Ht; cbn [value_lit key_lit].
    - rewrite Ht. split; [reflexivity|]. cbn [denote]. now rewrite Ht.
    - destruct Ht as (k & Hu & Hr). rewrite Hu. destruct (is_rune_type t && rune_short z) eqn:E.
      + apply andb_prop in E as [E _]. apply is_rune_type_under in E. rewrite Hu in E. injection E as ->.
        split; [reflexivity|]. cbn [denote]. now rewrite Hu, Hr.
      + split; [destruct k; reflexivity|]. cbn [denote]. now rewrite Hu, parse_int_dec, Hr.
    - rewrite Ht. split; [reflexivity|]. cbn [denote]. now rewrite Ht.
  Qed.

  Lemma key_render : forall kt k sub, key_ok kt -> TYPED kt k ->
    VL true sub kt k = Ok (key_lit kt k) /\ DN kt (key_lit kt k) = Some k.
  Proof. intros kt k sub Hk Ht. apply scalar_render; [exact (key_typed_scalar kt k Hk Ht) | exact Ht]. Qed.

  Lemma RT_scalar : forall v, key_scalar v -> RT v.
  Proof.
    intros v Hs t sub Hd Ht. destruct (scalar_render t v sub Hs Ht) as [Hl Hv].
    exists (key_lit t v). split; [exact Hl|]. right. exists v. split; [exact Hv|].
    destruct v; try contradiction; constructor.
  Qed.

  Lemma RT_float : forall x, RT (VFloat x).
  Proof.
    intros x t sub Hd Ht. destruct (typed_inv _ _ Ht) as (k & Hu & Hr).
    cbn [value_lit]. rewrite Hu. cbn [andb]. eexists; split; [reflexivity|]. right.
    cbn [denote]. rewrite Hu. destruct (fbig x) eqn:Eb.
    - rewrite (H_big k x Hr Eb). destruct (H_gfmt k x Hr) as (y & Hy & He). rewrite Hy. cbn.
      exists (VFloat y). split; [reflexivity | now constructor].
    - destruct (H_ffmt k x Hr) as (y & Hy & He).
      destruct (parse_int (ffmt k x)) as [z|] eqn:Ez; [rewrite (H_small k x z Hr Eb Ez)|]; rewrite Hy; cbn;
        exists (VFloat y); (split; [reflexivity | now constructor]).
  Qed.

  Lemma RT_nil : RT VNilPtr.
  Proof.
    intros t sub Hd Ht. destruct (typed_inv _ _ Ht) as (e & Hu).
    cbn [value_lit]. eexists; split; [reflexivity|]. right. exists VNilPtr.
    cbn [denote]. rewrite Hu. split; constructor.
  Qed.

  Lemma nonbasic_composite : forall e v, TYPED e v -> basic_kind true (under e) = false -> not_ptr e ->
    is_composite_val v.
  Proof.
    intros e v Ht Hb Hp. unfold not_ptr in Hp.
    destruct Ht as [? ? Hu|? ? ? Hu|? ? ? Hu|? ? Hu|? ? Hu|? ? ? Hu| | | |]; cbn; auto;
      rewrite Hu in *; try discriminate; contradiction.
  Qed.

  Lemma RT_ptr : forall v, RT v -> RT (VPtr v).
  Proof.
    intros v IH t sub Hd Ht. destruct (typed_inv _ _ Ht) as (e & Hu & Htv).
    apply dom_inv in Hd. rewrite Hu in Hd. destruct Hd as [Hnp Hde].
    cbn [value_lit]. rewrite Hu. destruct (basic_kind true (under e)) eqn:Eb.
    - destruct (IH e sub Hde Htv) as (a & Ha & [(-> & _ & _)|(v' & Hv' & Hq)]).
      + apply lempty_shape in Ha. destruct Ha as (_ & vs & ->).
        destruct (typed_inv _ _ Htv) as (fs & Hu' & _). rewrite Hu' in Eb. discriminate.
      + rewrite Ha. cbn [bind]. eexists; split; [reflexivity|]. right. exists (VPtr v').
        cbn [denote]. rewrite Hu, tyast_eqb_refl, Hv'. split; [reflexivity | now constructor].
    - destruct (IH e false Hde Htv) as (a & Ha & [(_ & Hs & _)|(v' & Hv' & Hq)]); [discriminate|].
      rewrite Ha. cbn [bind]. eexists; split; [reflexivity|]. right. exists (VPtr v').
      destruct (composite_shape true e v a (nonbasic_composite e v Htv Eb Hnp) Ha) as (ty & es & ->).
      cbn [denote]. rewrite Hu. cbn [denote] in Hv'. rewrite Hv'. split; [reflexivity | now constructor].
  Qed.

  Lemma elems_ok : forall e l, dom e -> Forall RT l -> Forall (TYPED e) l ->
    exists ls vs', mapr (VL true false e) l = Ok ls /\
      all_some (map (fun kv : lit * lit => match fst kv with LKNone => DN e (snd kv) | _ => None end)
                    (map (fun x => (LKNone, x)) ls)) = Some vs' /\ Forall2 DEQ l vs'.
  Proof.
    intros e l Hde IH Htl.
    destruct (mapr_all_some (VL true false e) (DN e) DEQ l) as (ls & vs' & H).
    - rewrite Forall_forall in *. intros x Hin.
      destruct (IH x Hin e false Hde (Htl x Hin)) as (a & Ha & [(_ & Hs & _)|(v' & Hv & Hq)]); [discriminate|].
      exists a, v'. auto.
    - exists ls, vs'. rewrite map_map. exact H.
  Qed.

  Lemma RT_slice : forall n l, Forall RT l -> RT (VSlice n l).
  Proof.
    intros n l IH t sub Hd Ht. destruct (typed_inv _ _ Ht) as (e & Hu & Htl).
    apply dom_inv in Hd. rewrite Hu in Hd. rename Hd into Hde.
    cbn [value_lit]. rewrite Hu.
    destruct (elems_ok e l Hde IH Htl) as (ls & vs' & Hls & Hvs & HQ). rewrite Hls. cbn [bind].
    eexists; split; [reflexivity|]. right.
    cbn [denote]. rewrite tyast_eqb_refl, Hu, Hvs. cbn.
    eexists; split; [reflexivity | now constructor].
  Qed.

  Lemma RT_array : forall l, Forall RT l -> RT (VArray l).
  Proof.
    intros l IH t sub Hd Ht. destruct (typed_inv _ _ Ht) as (n & e & Hu & Htl & <-).
    apply dom_inv in Hd. rewrite Hu in Hd. rename Hd into Hde.
    cbn [value_lit]. rewrite Hu.
    destruct (elems_ok e l Hde IH Htl) as (ls & vs' & Hls & Hvs & HQ). rewrite Hls. cbn [bind].
    eexists; split; [reflexivity|]. right.
    cbn [denote]. rewrite tyast_eqb_refl, Hu, Hvs.
    assert (Hlen : length vs' = length l) by (symmetry; eapply Forall2_len; eassumption).
    rewrite Hlen, Nat.leb_refl, Nat.sub_diag. cbn [repeat]. rewrite app_nil_r.
    eexists; split; [reflexivity | now constructor].
  Qed.

  Lemma empty_zero : forall t v, TYPED t v -> EMPTY v = true -> DEQ v (ZERO t).
  Proof.
    intros t v Ht He. destruct Ht as [? b Hu|? ? z Hu|? ? x Hu|? s Hu|? ? Hu|? ? ? Hu|? ? ? l Hu|? ? ? l Hu ? Hl|? ? ? ? m Hu|? ? ? Hu];
      cbn in He; rewrite zero_under, Hu; cbn [zero]; try discriminate.
    - destruct b; [discriminate | constructor].
    - apply Z.eqb_eq in He. subst. constructor.
    - constructor. now apply H_fzero.
    - destruct s; [constructor | discriminate].
    - constructor.
    - destruct l; [|discriminate]. constructor. constructor.
    - destruct l; [|discriminate]. subst. constructor. constructor.
    - destruct m; [|discriminate]. econstructor; [apply perm_nil | constructor].
  Qed.

  (* the outcome of rendering the fields of a struct: what was written, and the (name, value) table it denotes *)
  Inductive srows : list (bytes * gotype) -> list (goval F) -> list (option (lit * lit)) ->
                    list (bytes * goval F) -> Prop :=
  | SR_nil : srows [] [] [] []
  | SR_none f fs v vs outs nvs :
      DEQ v (ZERO (snd f)) -> srows fs vs outs nvs -> srows (f :: fs) (v :: vs) (None :: outs) nvs
  | SR_some f fs v vs outs nvs l v' :
      DN (snd f) l = Some v' -> DEQ v v' -> srows fs vs outs nvs ->
      srows (f :: fs) (v :: vs) (Some (LKField (fst f), l) :: outs) ((fst f, v') :: nvs).

  (* one field of a struct literal, as value_lit writes it (None: omitted) *)
  Definition srow (f : bytes * gotype) (x : goval F) : res (option (lit * lit)) :=
    if is_exported (fst f) && negb (EMPTY x) then
      let! l := VL true true (snd f) x in
      Ok (if is_lempty l then None else Some (LKField (fst f), l))
    else Ok None.

  Lemma srow_ok : forall f v, TYPED (snd f) v -> RT v -> is_exported (fst f) = true -> dom (snd f) ->
    exists o, srow f v = Ok o /\
      forall fs vs outs nvs, srows fs vs outs nvs -> exists nvs', srows (f :: fs) (v :: vs) (o :: outs) nvs'.
  Proof.
    intros f v Htv HRv Hex Hdf. unfold srow. rewrite Hex. cbn [andb].
    destruct (EMPTY v) eqn:Ee; cbn [negb].
    - exists None. split; [reflexivity|]. intros fs vs outs nvs H. exists nvs.
      apply SR_none; [now apply empty_zero | exact H].
    - destruct (HRv (snd f) true Hdf Htv) as (l & Hl & [(-> & _ & Hz)|(v' & Hv' & Hq)]); rewrite Hl; cbn [bind].
      + exists None. split; [reflexivity|]. intros fs vs outs nvs H. exists nvs. now apply SR_none.
      + destruct (is_lempty l) eqn:El; [destruct l; try discriminate El; discriminate Hv'|].
        eexists. split; [reflexivity|]. intros fs vs outs nvs H. eexists. apply SR_some; eassumption.
  Qed.

  Lemma srows_build : forall fs vs,
    Forall2 (fun f v => TYPED (snd f) v) fs vs -> Forall RT vs ->
    Forall (fun f => is_exported (fst f) = true /\ dom (snd f)) fs ->
    exists outs nvs, map2r srow fs vs = Ok outs /\ srows fs vs outs nvs.
  Proof.
    intros fs vs H. induction H as [|f v fs vs Htv _ IH]; intros HRT Hfs.
    - exists [], []. split; [reflexivity | constructor].
    - apply Forall_cons_iff in HRT. destruct HRT as [HRv HRvs].
      apply Forall_cons_iff in Hfs. destruct Hfs as [[Hex Hdf] Hfs].
      destruct (IH HRvs Hfs) as (outs & nvs & Hm & Hsr).
      destruct (srow_ok f v Htv HRv Hex Hdf) as (o & Ho & Hstep).
      destruct (Hstep fs vs outs nvs Hsr) as (nvs' & Hsr').
      exists (o :: outs), nvs'. split; [|exact Hsr'].
      cbn [map2r]. fold (@map2r (bytes * gotype) (goval F) (option (lit * lit))). now rewrite Ho, Hm.
  Qed.

  Lemma srows_names : forall fs vs outs nvs, srows fs vs outs nvs ->
    forall n, In n (map fst nvs) -> In n (map fst fs).
  Proof.
    intros * H. induction H; intros n Hin; cbn in *; auto.
    destruct Hin as [E|Hin]; auto.
  Qed.

  Lemma srows_nodup : forall fs vs outs nvs, srows fs vs outs nvs ->
    NoDup (map fst fs) -> NoDup (map fst nvs).
  Proof.
    intros * H. induction H; intros Hnd; cbn in *.
    - constructor.
    - apply NoDup_cons_iff in Hnd. apply IHsrows, Hnd.
    - apply NoDup_cons_iff in Hnd. destruct Hnd as [Hni Hnd]. constructor; [|auto].
      intros Hin. apply Hni. eapply srows_names; eassumption.
  Qed.

  Lemma srows_all_none : forall fs vs outs nvs, srows fs vs outs nvs -> somes outs = [] ->
    Forall2 DEQ vs (map (fun f => ZERO (snd f)) fs).
  Proof.
    intros * H. induction H; intros He; cbn in *; try discriminate; constructor; auto.
  Qed.

  (* reading the written entries: each names a field of the struct and denotes at its type *)
  Lemma srows_phase1 : forall fs vs outs nvs, srows fs vs outs nvs ->
    forall FS, incl fs FS -> NoDup (map fst FS) ->
    all_some (map (fun kv : lit * lit =>
                     match field_name (fst kv) with
                     | Some n => match assoc n FS with
                                 | Some ft => option_map (pair n) (DN ft (snd kv))
                                 | None => None
                                 end
                     | None => None
                     end) (somes outs)) = Some nvs.
  Proof.
    intros * H. induction H as [|f fs v vs outs nvs Hz Hsr IH|f fs v vs outs nvs l v' Hv Hq Hsr IH];
      intros FS Hin Hnd; cbn [somes map all_some].
    - reflexivity.
    - apply IH; [|assumption]. intros x Hx. apply Hin. now right.
    - cbn [fst snd field_name].
      assert (Ha : assoc (fst f) FS = Some (snd f)).
      { apply assoc_in; [assumption|]. rewrite <- surjective_pairing. apply Hin. now left. }
      rewrite Ha, Hv. cbn [option_map]. rewrite IH; [reflexivity| |assumption].
      intros x Hx. apply Hin. now right.
  Qed.

  (* filling the struct from a table N that agrees with the denoted one on the field names: every field gets a
     value deeply equal to the one rendered *)
  Lemma srows_phase2 : forall fs vs outs nvs, srows fs vs outs nvs -> NoDup (map fst fs) ->
    forall N, (forall n, In n (map fst fs) -> assoc n N = assoc n nvs) ->
    Forall2 DEQ vs (map (fun f : bytes * gotype => match assoc (fst f) N with Some v => v | None => ZERO (snd f) end) fs).
  Proof.
    intros * H. induction H as [|f fs v vs outs nvs Hz Hsr IH|f fs v vs outs nvs l v' Hv Hq Hsr IH];
      intros Hnd N HN; cbn [map].
    - constructor.
    - apply NoDup_cons_iff in Hnd. destruct Hnd as [Hni Hnd]. constructor.
      + rewrite (HN (fst f) (or_introl eq_refl)), assoc_notin; [exact Hz|].
        intros Hin. apply Hni. eapply srows_names; eassumption.
      + apply IH; [assumption|]. intros n Hn. apply HN. now right.
    - apply NoDup_cons_iff in Hnd. destruct Hnd as [Hni Hnd]. constructor.
      + rewrite (HN (fst f) (or_introl eq_refl)). cbn [assoc]. rewrite bytes_eqb_refl. exact Hq.
      + apply IH; [assumption|]. intros n Hn. rewrite (HN n (or_intror Hn)). cbn [assoc].
        rewrite (proj2 (Order.bytes_eqb_neq n (fst f))); [reflexivity|]. intros ->. contradiction.
  Qed.

  Lemma RT_struct : forall l, Forall RT l -> RT (VStruct l).
  Proof.
    intros l IH t sub Hd Ht. destruct (typed_inv _ _ Ht) as (fs & Hu & Hfv).
    apply dom_inv in Hd. rewrite Hu in Hd. destruct Hd as [Hfs Hnd].
    cbn [value_lit]. rewrite Hu.
    destruct (srows_build fs l Hfv IH Hfs) as (outs & nvs & Hm & Hsr).
    fold srow. rewrite Hm. cbn [bind]. destruct (sub && is_nil (somes outs)) eqn:Ec.
    - apply andb_true_iff in Ec. destruct Ec as [-> En].
      eexists; split; [reflexivity|]. left. split; [reflexivity|]. split; [reflexivity|].
      rewrite zero_under, Hu. cbn [zero]. constructor.
      eapply srows_all_none; [eassumption|]. destruct (somes outs); [reflexivity | discriminate].
    - eexists; split; [reflexivity|]. right. eexists. split.
      + cbn [denote]. rewrite tyast_eqb_refl, Hu.
        rewrite (srows_phase1 _ _ _ _ Hsr fs (incl_refl fs) Hnd).
        rewrite (names_nodupb_true _ (srows_nodup _ _ _ _ Hsr Hnd)). reflexivity.
      + constructor. exact (srows_phase2 _ _ _ _ Hsr Hnd nvs (fun _ _ => eq_refl)).
  Qed.

  Lemma rune_short_range : forall z, rune_short z = true -> (32 <= z <= 126)%Z.
  Proof.
    intros z H. unfold rune_short in H.
    apply andb_true_iff in H. destruct H as [H _].
    apply andb_true_iff in H. destruct H as [H _].
    apply andb_true_iff in H. destruct H as [H1 H2].
    apply Z.leb_le in H1. apply Z.leb_le in H2. lia.
  Qed.

  Lemma key_text_inj : forall kt a b, key_ok kt -> TYPED kt a -> TYPED kt b ->
    PL (key_lit kt a) = PL (key_lit kt b) -> a = b.
  Proof.
    intros kt a b Hk Ha Hb.
    pose proof (key_typed_scalar kt a Hk Ha) as Sa. pose proof (key_typed_scalar kt b Hk Hb) as Sb.
    apply typed_inv in Ha, Hb.
    destruct a as [x|x| |x| | | | | |]; try contradiction; destruct b as [y|y| |y| | | | | |]; try contradiction;
      cbv beta iota in Ha, Hb; try (destruct Ha as (? & Ha & _)); try (destruct Hb as (? & Hb & _));
      try (rewrite Ha in Hb; discriminate Hb);
      cbn [key_lit].
    - destruct x, y; cbn; intros E; try reflexivity; discriminate.
    - destruct (is_rune_type kt && rune_short x) eqn:Ex, (is_rune_type kt && rune_short y) eqn:Ey;
        cbn [print_lit]; intros E.
      + apply andb_true_iff in Ex, Ey. destruct Ex as [_ Ex], Ey as [_ Ey].
        apply rune_short_range in Ex, Ey. injection E as E.
        apply (f_equal N_of_ascii) in E. rewrite !N_ascii_embedding in E by lia. f_equal. lia.
      + destruct (dec_head y) as (c & r & Hd & Hc). rewrite Hd in E. injection E as E _. now elim Hc.
      + destruct (dec_head x) as (c & r & Hd & Hc). rewrite Hd in E. injection E as E _. now elim Hc.
      + f_equal. now apply dec_inj.
    - cbn [print_lit]. intros E. f_equal. now apply quote_inj.
  Qed.

  Lemma key_eqb_eq : forall a b, @key_eqb F a b = true -> a = b.
  Proof.
    intros a b H. destruct a; try discriminate H; destruct b; try discriminate H; f_equal.
    - now apply Bool.eqb_prop.
    - now apply Z.eqb_eq.
    - now apply bytes_eqb_spec.
  Qed.

  Lemma key_nodupb_true : forall l : list (goval F), NoDup l -> key_nodupb l = true.
  Proof.
    induction l as [|x l IH]; intros H; cbn; [reflexivity|].
    apply NoDup_cons_iff in H. destruct H as [Hni Hnd]. rewrite (IH Hnd), andb_true_r.
    apply negb_true_iff. destruct (existsb (key_eqb x) l) eqn:E; [|reflexivity].
    apply existsb_exists in E. destruct E as (y & Hy & E). apply key_eqb_eq in E. subst y. contradiction.
  Qed.

  Lemma look_own {A} (d : A) : forall tbl : list (bytes * A), NoDup (map fst tbl) ->
    map (fun k => match assoc_last k tbl with Some e => e | None => d end) (map fst tbl) = map snd tbl.
  Proof.
    intros tbl Hnd. rewrite map_map. apply map_ext_in. intros r Hr.
    rewrite (assoc_last_in (fst r) (snd r)); [reflexivity | assumption|].
    now rewrite <- surjective_pairing.
  Qed.

  Definition row fx sub kt et (kv : goval F * goval F) : res (bytes * (lit * lit)) :=
    let! kl := VL fx sub kt (fst kv) in
    let! vl := VL fx sub et (snd kv) in Ok (PL kl, (kl, vl)).

  Lemma rows_keys_nodup : forall kt et m tbl, key_ok kt ->
    Forall (fun kv => TYPED kt (fst kv)) m -> NoDup (map fst m) ->
    mapr (row true false kt et) m = Ok tbl -> NoDup (map fst tbl).
  Proof.
    intros kt et m tbl Hk Hm Hnd Htbl. apply mapr_ok_Forall2 in Htbl.
    assert (Hfst : map fst tbl = map (fun k => PL (key_lit kt k)) (map fst m)).
    { clear Hnd. induction Htbl as [|kv r m tbl Hr _ IHt]; cbn; [reflexivity|].
      apply Forall_cons_iff in Hm. destruct Hm as [Htk Hm']. rewrite (IHt Hm'). f_equal.
      unfold row in Hr. destruct (key_render kt (fst kv) false Hk Htk) as [Hkr _]. rewrite Hkr in Hr.
      cbn [bind] in Hr. destruct (VL true false et (snd kv)); try discriminate. cbn [bind] in Hr.
      injection Hr as <-. reflexivity. }
    rewrite Hfst. apply NoDup_map_inj_on; [|assumption].
    intros a b Ha Hb. rewrite Forall_forall in Hm.
    apply in_map_iff in Ha. destruct Ha as (kva & <- & Ha). apply in_map_iff in Hb. destruct Hb as (kvb & <- & Hb).
    apply key_text_inj; [assumption | apply (Hm kva Ha) | apply (Hm kvb Hb)].
  Qed.

  Lemma rows_ok : forall kt et m, key_ok kt -> dom et ->
    Forall (fun kv => RT (snd kv)) m ->
    Forall (fun kv => TYPED kt (fst kv) /\ TYPED et (snd kv)) m ->
    exists tbl m0,
      mapr (row true false kt et) m = Ok tbl /\
      all_some (map (fun kv : lit * lit => match DN kt (fst kv), DN et (snd kv) with
                                           | Some k, Some v => Some (k, v)
                                           | _, _ => None
                                           end) (map snd tbl)) = Some m0 /\
      Forall2 (fun a b => DEQ (fst a) (fst b) /\ DEQ (snd a) (snd b)) m m0 /\ map fst m0 = map fst m.
  Proof.
    intros kt et m Hk Hde IH Hm.
    destruct (mapr_all_some (row true false kt et)
                (fun r => match DN kt (fst (snd r)), DN et (snd (snd r)) with Some k, Some v => Some (k, v) | _, _ => None end)
                (fun a b => fst b = fst a /\ DEQ (fst a) (fst b) /\ DEQ (snd a) (snd b)) m) as (tbl & m0 & Ht & H0 & HF).
    - rewrite Forall_forall in *. intros kv Hin. destruct (Hm kv Hin) as [Htk Htv].
      destruct (key_render kt (fst kv) false Hk Htk) as [Hkr Hkd].
      destruct (IH kv Hin et false Hde Htv) as (vl & Hvl & [(_ & Hs & _)|(v' & Hv' & Hq)]); [discriminate|].
      exists (PL (key_lit kt (fst kv)), (key_lit kt (fst kv), vl)), (fst kv, v').
      unfold row. rewrite Hkr, Hvl. cbn [bind fst snd]. rewrite Hkd, Hv'.
      split; [reflexivity|]. split; [reflexivity|]. split; [reflexivity|]. split; [|exact Hq].
      pose proof (key_typed_scalar kt (fst kv) Hk Htk) as Hs. destruct (fst kv); try contradiction; constructor.
    - exists tbl, m0. rewrite map_map. split; [exact Ht|]. split; [exact H0|].
      clear -HF. induction HF as [|a b m m0 [E Hq] _ [I1 I2]]; [split; [constructor | reflexivity]|].
      split; [now constructor|]. cbn. now rewrite E, I2.
  Qed.

  Lemma RT_map : forall n m, Forall (fun kv => RT (fst kv) /\ RT (snd kv)) m -> RT (VMap n m).
  Proof.
    intros n m IH t sub Hd Ht. destruct (typed_inv _ _ Ht) as (kt & et & Hu & Hm & Hnd).
    apply dom_inv in Hd. rewrite Hu in Hd. destruct Hd as (Hk & Hdk & Hde).
    destruct (rows_ok kt et m Hk Hde (Forall_impl _ (fun kv => @proj2 _ _) IH) Hm) as (tbl & m0 & Htbl & H0 & HF0 & Hk0).
    pose proof (rows_keys_nodup kt et m tbl Hk (Forall_impl _ (fun kv => @proj1 _ _) Hm) Hnd Htbl) as HndT.
    cbn [value_lit]. rewrite Hu. cbv beta iota zeta. fold (row true false kt et). rewrite Htbl. cbn [bind].
    eexists; split; [reflexivity|]. right.
    (* the entries are the table rows in sorted order *)
    set (look := fun k => match assoc_last k tbl with Some e => e | None => (LOther, LOther) end).
    assert (HPE : Permutation (map snd tbl) (map look (isort (map fst tbl)))).
    { rewrite <- (look_own (LOther, LOther) tbl HndT). apply Permutation_map. apply isort_perm. }
    destruct (all_some_perm _ _ _ m0 HPE H0) as (m' & Hm' & HP').
    exists (VMap false m'). split.
    - cbn [denote]. rewrite tyast_eqb_refl, Hu. fold look. rewrite Hm'.
      rewrite key_nodupb_true; [reflexivity|].
      apply (Permutation_NoDup (l := map fst m0)); [now apply Permutation_map | now rewrite Hk0].
    - econstructor; [symmetry; eassumption | assumption].
  Qed.

  Theorem roundtrip_all : forall v, RT v.
  Proof.
    apply goval_ind'.
    - intros b. now apply RT_scalar. - intros z. now apply RT_scalar. - apply RT_float.
    - intros s. now apply RT_scalar. - apply RT_nil.
    - apply RT_ptr. - apply RT_slice. - apply RT_array. - apply RT_map. - apply RT_struct.
  Qed.

  Theorem roundtrip_top : forall t v, dom t -> TYPED t v ->
    exists l v', VL true false t v = Ok l /\ DN t l = Some v' /\ DEQ v v'.
  Proof.
    intros t v Hd Ht. destruct (roundtrip_all v t false Hd Ht) as (l & Hl & [(_ & Hs & _)|(v' & Hv & Hq)]);
      [discriminate|]. eauto.
  Qed.

  Lemma type_prefix : forall fx sub t v ty es, VL fx sub t v = Ok (LComposite ty es) -> ty = type_lit t.
  Proof. intros fx sub t v ty es H. apply value_lit_shape in H. destruct v; cbn in H; decompose [ex or and] H; congruence. Qed.

  Lemma closure_prefix : forall sub t v ty a, VL true sub t v = Ok (LPtrClosure ty a) ->
    exists e, under t = TPtr e /\ ty = type_lit e.
  Proof.
    intros sub t v ty a H. apply value_lit_shape in H. destruct v; cbn in H; decompose [ex or and] H; try discriminate.
    eexists. split; [eassumption | congruence].
  Qed.

  Lemma assoc_last_perm {A} : forall (r1 r2 : list (bytes * A)) k, Permutation r1 r2 -> NoDup (map fst r1) ->
    assoc_last k r1 = assoc_last k r2.
  Proof.
    intros r1 r2 k HP Hnd. rewrite !assoc_last_eq, (Assoc.get_rev _ Order.bytes_eqbP r1) by exact Hnd.
    apply (Assoc.get_perm _ Order.bytes_eqbP); [exact Hnd|]. exact (Permutation_trans HP (Permutation_rev r2)).
  Qed.

  Lemma map_order_gen : forall fx sub t n1 n2 m1 m2, Permutation m1 m2 ->
    (forall kt et tbl, under t = TMap kt et ->
       mapr (row fx (if fx then false else sub) kt et) m1 = Ok tbl -> NoDup (map fst tbl)) ->
    VL fx sub t (VMap n1 m1) = VL fx sub t (VMap n2 m2).
  Proof.
    intros fx sub t n1 n2 m1 m2 HP Hnd. cbn [value_lit]. destruct (under t) as [| | | | | | | |kt et|] eqn:Hu; try reflexivity.
    cbv beta iota zeta. fold (row fx (if fx then false else sub) kt et).
    pose proof (mapr_perm (row fx (if fx then false else sub) kt et) m1 m2 HP) as Hp.
    specialize (Hnd kt et).
    destruct (mapr (row fx (if fx then false else sub) kt et) m1) as [r1| |],
             (mapr (row fx (if fx then false else sub) kt et) m2) as [r2| |]; try contradiction; try reflexivity.
    cbn [bind]. specialize (Hnd r1 eq_refl eq_refl).
    rewrite (isort_perm_eq (map fst r1) (map fst r2)) by (apply Permutation_map; assumption).
    f_equal. f_equal. apply map_ext. intros k. now rewrite (assoc_last_perm r1 r2 k Hp Hnd).
  Qed.

  Theorem map_order : forall sub t n1 n2 m1 m2, dom t -> TYPED t (VMap n1 m1) -> Permutation m1 m2 ->
    VL true sub t (VMap n1 m1) = VL true sub t (VMap n2 m2).
  Proof.
    intros sub t n1 n2 m1 m2 Hd Ht HP. apply map_order_gen; [assumption|].
    intros kt et tbl Hu Htbl. destruct (typed_inv _ _ Ht) as (kt' & et' & Hu' & Hm & Hnd).
    rewrite Hu in Hu'. injection Hu' as <- <-.
    apply dom_inv in Hd. rewrite Hu in Hd. destruct Hd as (Hk & Hdk & Hde).
    exact (rows_keys_nodup kt et m1 tbl Hk (Forall_impl _ (fun kv => @proj1 _ _) Hm) Hnd Htbl).
  Qed.

End Proofs.

(* membership of a concrete type in the domain, typing of a concrete value: constructor by constructor *)
Ltac nodup_tac :=
  cbn [map fst]; repeat (constructor; [cbn [In]; intuition discriminate|]); constructor.

Ltac dom_tac :=
  repeat match goal with
         | |- _ => progress cbn [fst snd]
         | |- dom (TNamed _ _ _) => apply DNamed; [discriminate | exact I |]
         | |- dom (TPtr _) => apply DPtr; [exact I|]
         | |- dom (TMap _ _) => apply DMap; [exact I | |]
         | |- dom (TStruct _) => apply DStruct
         | |- dom _ => constructor
         | |- Forall _ _ => constructor
         | |- _ /\ _ => split
         | |- is_exported _ = true => reflexivity
         | |- NoDup _ => apply Gengo.Base.Order.nodup_bytes_NoDup; reflexivity
         end.

Ltac typed_tac :=
  repeat match goal with
         | |- _ => progress cbn [fst snd]
         | |- typed _ _ (VBool _) => eapply TyBool; reflexivity
         | |- typed _ _ (VInt _) => eapply TyInt; [reflexivity | reflexivity]
         | |- typed _ _ (VFloat _) => eapply TyFloat; [reflexivity | vm_compute; reflexivity]
         | |- typed _ _ (VStr _) => eapply TyStr; reflexivity
         | |- typed _ _ VNilPtr => eapply TyNil; reflexivity
         | |- typed _ _ (VPtr _) => eapply TyPtr; [reflexivity|]
         | |- typed _ _ (VSlice _ _) => eapply TySlice; [reflexivity | | intros; try discriminate; reflexivity]
         | |- typed _ _ (VArray _) => eapply TyArray; [reflexivity | | reflexivity]
         | |- typed _ _ (VMap _ _) => eapply TyMap; [reflexivity | | | intros; try discriminate; reflexivity]
         | |- typed _ _ (VStruct _) => eapply TyStruct; [reflexivity|]
         | |- Forall _ _ => constructor
         | |- Forall2 _ _ _ => constructor
         | |- _ /\ _ => split
         | |- NoDup _ => nodup_tac
         end.

(* the code before the repairs (fixed = false) fails the round trip on these in-domain values *)

Definition T_In : gotype := TNamed (bs "m") (bs "In") (TStruct [(bs "A", TInt KInt)]).
Definition T_Color : gotype := TNamed (bs "m") (bs "Color") (TInt KInt).

Lemma dom_In : dom T_In.
Proof. unfold T_In. dom_tac. Qed.

Section Witnesses.
  Context {F : Type}.
  Variable fzero : F -> bool.
  Variables ffmt gfmt : fkind -> F -> bytes.
  Variable fbig : F -> bool.
  Variable fparse : fkind -> bytes -> option F.
  Variable f0 : F.
  Variable quote : bytes -> bytes.
  Variable local : bytes -> bytes.
  Variable frep : fkind -> F -> Prop.

  Notation VL := (@value_lit F fzero ffmt gfmt fbig quote local).
  Notation DN := (@denote F fparse f0).
  Notation TYPED := (@typed F frep).

  Definition fails (fx : bool) (t : gotype) (v : goval F) : Prop :=
    dom t /\ TYPED t v /\
    (VL fx false t v = Panic \/ exists l, VL fx false t v = Ok l /\ DN t l = None).

  (* *string renders &("x") *)
  Lemma old_ptr_string : fails false (TPtr TString) (VPtr (VStr (bs "x"))).
  Proof.
    split; [dom_tac|]. split; [typed_tac|]. right. eexists; split; reflexivity.
  Qed.

  (* *Color renders func(v int) *int { return &v }(3) *)
  Lemma old_ptr_named : fails false (TPtr T_Color) (VPtr (VInt 3)).
  Proof.
    unfold T_Color. split; [dom_tac|]. split; [typed_tac|]. right. eexists; split; reflexivity.
  Qed.

  (* S{Z: &In{}} renders Z:&(), *)
  Lemma old_ptr_zero_struct :
    fails false (TStruct [(bs "Z", TPtr T_In)]) (VStruct [VPtr (VStruct [VInt 0])]).
  Proof.
    unfold T_In. split; [dom_tac|]. split; [typed_tac|]. right. eexists; split; reflexivity.
  Qed.

  (* S{M: {"a": In{}}} renders "a":, *)
  Lemma old_map_zero_struct :
    fails false (TStruct [(bs "M", TMap TString T_In)])
          (VStruct [VMap false [(VStr (bs "a"), VStruct [VInt 0])]]).
  Proof.
    unfold T_In. split; [dom_tac|]. split; [typed_tac|]. right. eexists. split.
    { cbn. rewrite bytes_eqb_refl. cbn. reflexivity. }
    reflexivity.
  Qed.

  (* uintptr panics *)
  Lemma old_uintptr : fails false (TInt KUintptr) (VInt 3).
  Proof.
    split; [constructor|]. split; [eapply TyInt; reflexivity|]. left. reflexivity.
  Qed.

  (* math.MaxFloat64 renders as a 309-digit integer constant, which gc rejects ("constant overflow") *)
  Definition max_float64_f : bytes :=
    bs "179769313486231570000000000000000000000000000000000000000000000000000000000000000000000000000000000000000000000000000000000000000000000000000000000000000000000000000000000000000000000000000000000000000000000000000000000000000000000000000000000000000000000000000000000000000000000000000000000000000000000000000".

  Lemma old_big_float : forall x, frep KF64 x -> ffmt KF64 x = max_float64_f ->
    fails false (TFloat KF64) (VFloat x).
  Proof.
    intros x Hr Hf. split; [constructor|]. split; [eapply TyFloat; [reflexivity | exact Hr]|].
    right. eexists; split; [reflexivity|]. cbn [denote under]. cbn [andb]. rewrite Hf.
    vm_compute. reflexivity.
  Qed.
End Witnesses.

(* the hypotheses on the external components are satisfiable: "floats" that are the integers
   below 2^53, printed in decimal *)
Definition z_frep (_ : fkind) (z : Z) : Prop := (Z.abs z < 2 ^ 53)%Z.

Lemma z_instance :
  (forall x : Z, Z.eqb x 0 = true -> x = 0%Z) /\
  (forall k x, z_frep k x -> exists y, parse_int (dec x) = Some y /\ x = y) /\
  (forall k x z, z_frep k x -> false = false -> parse_int (dec x) = Some z -> int_const_ok z = true) /\
  (forall k x, z_frep k x -> false = true -> parse_int (dec x) = None) /\
  (forall a b : bytes, a = b -> a = b) /\
  z_frep KF64 42%Z.
Proof.
  repeat match goal with |- _ /\ _ => split end.
  - intros x H. now apply Z.eqb_eq.
  - intros k x _. exists x. split; [apply parse_int_dec | reflexivity].
  - intros k x z Hr _ H. rewrite parse_int_dec in H. injection H as <-.
    apply Z.ltb_lt. apply Z.lt_trans with (2 ^ 53)%Z; [exact Hr | reflexivity].
  - intros k x _ H. discriminate.
  - auto.
  - reflexivity.
Qed.
