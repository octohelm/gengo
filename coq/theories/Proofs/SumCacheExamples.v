(* Two small concrete worlds for the cache state machine:
   - [Good]: two sibling packages; every hypothesis of the C08 theorems is PROVED for it (so the theorems
     are not vacuous); [Good.demo] is a history on it;
   - [Bad]: one package at the module root whose directory may be unhashable; the witnesses that refute the
     full statements for the code as it was before the two "fix:" patches. *)
Require Import Gengo.Base.Bytes Gengo.Model.SumFile Gengo.Model.SumCache Gengo.Proofs.SumFile Gengo.Proofs.SumCache.

Definition one : ascii := ascii_of_N 49.     (* '1' *)
Definition xx : ascii := ascii_of_N 120.     (* 'x' *)
Definition hh : ascii := ascii_of_N 104.     (* 'h' *)

Lemma forallb_repeat_plain : forall n, forallb plain (repeat one n) = true.
Proof. induction n as [|n IH]; [reflexivity|]. cbn [repeat forallb]. rewrite IH. reflexivity. Qed.

(* unary numbers separated by 'x' are read back uniquely *)
Lemma unary_inj : forall n m r r', repeat one n ++ xx :: r = repeat one m ++ xx :: r' -> n = m /\ r = r'.
Proof.
  induction n as [|n IH]; intros m r r' E.
  - destruct m as [|m]; cbn in E.
    + inversion E. split; reflexivity.
    + inversion E.
  - destruct m as [|m]; cbn in E.
    + inversion E.
    + inversion E as [E']. destruct (IH _ _ _ E') as [E1 E2]. subst. split; reflexivity.
Qed.

Lemma repeat_inj : forall n m, repeat one n = repeat one m -> n = m.
Proof.
  intros n m E. apply (f_equal (@length _)) in E. rewrite !repeat_length in E. exact E.
Qed.

Module Good.
  Definition pa : bytes := bs "m/a".
  Definition pb : bytes := bs "m/b".

  (* per package: (version of the sources, what the generated file was generated from + 1; 0 = no generated file) *)
  Definition tree := ((nat * nat) * (nat * nat))%type.
  Definition content := (nat * nat)%type.

  Definition H (c : content) : option bytes := Some (hh :: repeat one (fst c) ++ xx :: repeat one (snd c)).

  Definition dirc (t : tree) (_ : option bytes) (p : bytes) : content :=
    if bytes_eqb p pa then fst t else if bytes_eqb p pb then snd t else (0, 0).

  Definition gen (t : tree) (p : bytes) : tree :=
    if bytes_eqb p pa then ((fst (fst t), S (fst (fst t))), snd t)
    else if bytes_eqb p pb then (fst t, (fst (snd t), S (fst (snd t))))
    else t.

  Definition locals (_ : tree) (_ : list bytes) : list (bytes * bool) := [(pb, true); (pa, true)].

  Lemma H_tokens_ok : H_tokens content H.
  Proof.
    intros c h E. unfold H in E. inversion E; subst h. unfold token_ok. cbn [is_nil negb andb forallb].
    rewrite forallb_app. cbn [forallb]. rewrite !forallb_repeat_plain. reflexivity.
  Qed.

  Lemma H_injective_ok : H_injective content H.
  Proof.
    intros [x1 y1] [x2 y2] h E1 E2. unfold H in *. cbn [fst snd] in *.
    rewrite <- E2 in E1. inversion E1 as [E]. apply unary_inj in E. destruct E as [Ex Ey].
    apply repeat_inj in Ey. subst. reflexivity.
  Qed.

  Lemma locals_ok_ok : locals_ok tree locals.
  Proof.
    intros t e. unfold locals. cbn [map fst]. split.
    - constructor; [|constructor; [intros []|constructor]].
      intros [E|[]]. discriminate E.
    - repeat constructor.
  Qed.

  Lemma gen_cases : forall p, p = pa \/ p = pb \/ (forall t, gen t p = t).
  Proof.
    intros p. unfold gen. destruct (bytes_eqb p pa) eqn:Ea; [left; apply bytes_eqb_spec, Ea|].
    destruct (bytes_eqb p pb) eqn:Eb; [right; left; apply bytes_eqb_spec, Eb|]. right. right. reflexivity.
  Qed.

  Lemma gen_idem_ok : gen_idem tree gen.
  Proof. intros t p. destruct (gen_cases p) as [->|[->|Hp]]; rewrite ?Hp; reflexivity. Qed.

  Lemma gen_comm_ok : gen_comm tree gen.
  Proof.
    intros t p q. destruct (gen_cases p) as [->|[->|Hp]], (gen_cases q) as [->|[->|Hq]]; rewrite ?Hp, ?Hq; reflexivity.
  Qed.

  Lemma gen_local_ok : gen_local tree content dirc gen.
  Proof.
    intros t p q. destruct (gen_cases p) as [->|[->|Hp]]; [| |right; now rewrite Hp].
    - destruct (Order.bytes_eqbP q pa) as [->|Hq]; [left; apply contains_refl|right].
      unfold D, dirc. rewrite (proj2 (Order.bytes_eqb_neq q pa) Hq). now destruct (bytes_eqb q pb).
    - destruct (Order.bytes_eqbP q pb) as [->|Hq]; [left; apply contains_refl|right].
      unfold D, dirc. rewrite (proj2 (Order.bytes_eqb_neq q pb) Hq). now destruct (bytes_eqb q pa).
  Qed.

  Lemma gen_keeps_locals_ok : gen_keeps_locals tree gen locals.
  Proof. intros t p e. reflexivity. Qed.

  Lemma all_hashable_ok : all_hashable tree content H dirc.
  Proof. intros t p. unfold H. discriminate. Qed.

  Definition run := run tree content H dirc gen locals fixed_all.
  Definition exec := exec tree content H dirc gen locals fixed_all.
  Definition all_run : runargs := {| r_all := true; r_force := false; r_entry := []; r_fail := None |}.
  Definition st0 : state tree := {| st_tree := ((1, 0), (1, 0)); st_sum := SumMissing |}.
  Definition edit_a (t : tree) : tree := ((S (fst (fst t)), snd (fst t)), snd t).

  (* which packages each of the runs executes in: run, run, run, edit a, run, run, run *)
  Definition demo : list (list bytes) :=
    let r s := executed (fst (snd (run all_run s))) in
    let s1 := exec st0 [Run all_run] in
    let s2 := exec s1 [Run all_run] in
    let s3 := exec s2 [Run all_run] in
    let s4 := exec s3 [Edit edit_a; Run all_run] in
    let s5 := exec s4 [Run all_run] in
    [r st0; r s1; r s2; r s3; r (exec s3 [Edit edit_a]); r s4; r s5].
End Good.

Module Bad.
  Definition pm : bytes := bs "m".

  (* (sources, generated-from + 1, a dangling symlink is present) *)
  Definition tree := ((nat * nat) * bool)%type.
  Definition content := option (nat * nat * nat).

  Definition H (c : content) : option bytes :=
    match c with
    | None => None
    | Some (x, y, z) => Some (hh :: repeat one x ++ xx :: repeat one y ++ xx :: repeat one z)
    end.

  (* the package is at the module root: gengo.sum is one of the files below its directory *)
  Definition dirc (t : tree) (sumb : option bytes) (_ : bytes) : content :=
    if snd t then None
    else Some (fst (fst t), snd (fst t), match sumb with Some b => S (length b) | None => 0 end).

  Definition gen (t : tree) (_ : bytes) : tree := ((fst (fst t), S (fst (fst t))), snd t).
  Definition locals (_ : tree) (_ : list bytes) : list (bytes * bool) := [(pm, true)].

  Definition run := run tree content H dirc gen locals.
  Definition step := step tree content H dirc gen locals.
  Definition all_run : runargs := {| r_all := true; r_force := false; r_entry := []; r_fail := None |}.
  Definition edit (t : tree) : tree := ((S (fst (fst t)), snd (fst t)), snd t).

  Definition only_empty_unfixed : fixes := {| fx_empty := false; fx_rootsum := true |}.
  Definition only_rootsum_unfixed : fixes := {| fx_empty := true; fx_rootsum := false |}.

  Definition dangling0 : state tree := {| st_tree := ((1, 0), true); st_sum := SumMissing |}.
  Definition clean0 : state tree := {| st_tree := ((1, 0), false); st_sum := SumMissing |}.
End Bad.

(* the code before "fix: never treat a package whose directory could not be hashed as cached":
   run All, edit the sources, run All again — the package is skipped although its directory is not in the
   state the first run started from *)
Lemma skip_sound_refuted_unhashable :
  let s1 := Bad.dangling0 in
  let s2 := Bad.step Bad.only_empty_unfixed (Edit Bad.edit) (fst (Bad.run Bad.only_empty_unfixed Bad.all_run s1)) in
  good_run Bad.tree Bad.content Bad.H Bad.dirc Bad.gen Bad.locals Bad.only_empty_unfixed Bad.all_run s1
  /\ st_sum s2 = st_sum (fst (Bad.run Bad.only_empty_unfixed Bad.all_run s1))
  /\ In Bad.pm (skipped (fst (snd (Bad.run Bad.only_empty_unfixed Bad.all_run s2))))
  /\ fst (st_tree s2) <> fst (st_tree s1).
Proof.
  cbn zeta. split; [split; vm_compute; reflexivity|]. split; [vm_compute; reflexivity|].
  split; [vm_compute; left; reflexivity|]. vm_compute. discriminate.
Qed.

(* the code before "fix: leave gengo.sum out of the directory hash of a package at the module root":
   every further run regenerates the root package and rewrites gengo.sum *)
Lemma converges_refuted_rootsum :
  let fx := Bad.only_rootsum_unfixed in
  let s1 := fst (Bad.run fx Bad.all_run Bad.clean0) in
  let s2 := fst (Bad.run fx Bad.all_run s1) in
  let s3 := fst (Bad.run fx Bad.all_run s2) in
  let s4 := fst (Bad.run fx Bad.all_run s3) in
  executed (fst (snd (Bad.run fx Bad.all_run s3))) = [Bad.pm]
  /\ st_sum s4 <> st_sum s3
  /\ executed (fst (snd (Bad.run fx Bad.all_run s4))) = [Bad.pm].
Proof.
  cbn zeta. split; [vm_compute; reflexivity|]. split; [vm_compute; discriminate|]. vm_compute. reflexivity.
Qed.
