(* Lemmas for C13 (Model/Universe.v).  newPkg's loop over TypesInfo.Defs binds a name to the last object filed under
   it, so when the scope holds one object per name the tables are what go/types' scope answers, in whatever order the
   map is ranged over ([tables_exact], [methods_exact]); registering the import graph, by induction on a rank that
   decreases along imports, installs every package with all its imports ([imports_total], section Register); source
   directories (section Dirs); refutations for the loop without the repairs.
   Props/C13.v is stated with notions DEFINED here, the declarative side of each statement: [scope_obj],
   [spec_lookup], [unique_at] (the scope), [declared_on], [value_recv] (methods), [layout] (directories). *)
Require Import Gengo.Base.Bytes Gengo.Base.Order Gengo.Model.Universe.
Require Gengo.Base.Assoc.
From Coq Require Import Arith.PeanoNat.

(* [pm_get], [pm_set] are Base/Assoc.v's [get], [set] on byte-string keys; [tbl_get], [tbl_set] are so by computation *)
Lemma pm_get_eq : forall {V} k (m : list (path * V)), pm_get k m = Assoc.get bytes_eqb k m.
Proof. intros V. apply Assoc.get_unfold. intros k [|[k' v] r]; reflexivity. Qed.

Lemma pm_set_eq : forall {V} k (v : V) m, pm_set k v m = Assoc.set bytes_eqb k v m.
Proof. intros V. apply (Assoc.set_unfold _ bytes_eqbP _ (fun k _ => k)); [reflexivity|]. intros k v [|[k' v'] r]; reflexivity. Qed.

Lemma pm_get_set : forall {V} n m (v : V) t,
  pm_get n (pm_set m v t) = if bytes_eqb n m then Some v else pm_get n t.
Proof. intros V n m v t. rewrite pm_set_eq, !pm_get_eq. apply Assoc.get_set, bytes_eqbP. Qed.

Lemma tbl_get_set : forall n m v t,
  tbl_get n (tbl_set m v t) = if bytes_eqb n m then Some v else tbl_get n t.
Proof. intros n m v t. apply (Assoc.get_set _ bytes_eqbP). Qed.

Lemma tbl_get_in : forall n t, tbl_get n t <> None <-> In n (map fst t).
Proof. intros n t. symmetry. apply (Assoc.get_keys _ bytes_eqbP). Qed.

Lemma tbl_set_fst : forall m v t, map fst (tbl_set m v t) = map fst t ++ (if tbl_get m t then [] else [m]).
Proof. intros m v t. apply (Assoc.set_keys _ bytes_eqbP). Qed.

Lemma tbl_set_nodup : forall m v t, NoDup (map fst t) -> NoDup (map fst (tbl_set m v t)).
Proof. intros m v t. apply (Assoc.set_NoDup _ bytes_eqbP). Qed.

(* [o] is an object the loop files in the table of kind [k] *)
Definition tabled (fx : fixes) (k : okind) (o : obj) : bool :=
  let enters := negb (fx_scope fx) || o_pkg_scope o in
  match k, o_kind o with
  | KFunc, KFunc => match o_recv o with None => enters | Some _ => false end
  | KType, KType => enters
  | KConst, KConst => enters
  | _, _ => false
  end.

Definition matches (fx : fixes) (k : okind) (n : bytes) (o : obj) : bool :=
  tabled fx k o && bytes_eqb n (o_name o).

Lemma step_table : forall fx k t o,
  table_of k (step fx t o)
  = if tabled fx k o then tbl_set (o_name o) (o_id o) (table_of k t) else table_of k t.
Proof.
  intros fx k t o. unfold step, tabled.
  destruct k, (o_kind o); try reflexivity.
  all: try (destruct (negb (fx_scope fx) || o_pkg_scope o); reflexivity).
  (* o is a *types.Func *)
  all: destruct (o_recv o) as [r|]; [destruct (named_of (recv_shape fx r)); reflexivity|].
  all: destruct (negb (fx_scope fx) || o_pkg_scope o); reflexivity.
Qed.

(* so each table is the run of inserts of the objects the loop files in it *)
Lemma fold_table : forall fx k l t,
  table_of k (fold_left (step fx) l t) = Assoc.sets bytes_eqb o_name o_id (filter (tabled fx k) l) (table_of k t).
Proof.
  intros fx k l. induction l as [|o l IH]; intros t; cbn [fold_left filter]; [reflexivity|].
  rewrite IH, step_table. destruct (tabled fx k o); reflexivity.
Qed.

Lemma step_lookup : forall fx k n t o,
  lookup k n (step fx t o) = if matches fx k n o then Some (o_id o) else lookup k n t.
Proof.
  intros fx k n t o. unfold lookup, matches. rewrite step_table.
  destruct (tabled fx k o); [apply tbl_get_set|reflexivity].
Qed.

(* after the loop a name is bound to the last object of the list that is filed under it *)
Lemma fold_lookup : forall fx k n l t,
  lookup k n (fold_left (step fx) l t)
  = match find (matches fx k n) (rev l) with Some o => Some (o_id o) | None => lookup k n t end.
Proof.
  intros fx k n l t. induction l as [|o l IH] using rev_ind; [reflexivity|].
  rewrite fold_left_app, rev_unit. cbn [fold_left find]. rewrite step_lookup.
  destruct (matches fx k n o); [reflexivity|exact IH].
Qed.

Lemma fill_lookup : forall fx k n l,
  lookup k n (fill_tables fx l) = option_map o_id (find (matches fx k n) (rev l)).
Proof.
  intros fx k n l. unfold fill_tables. rewrite fold_lookup.
  destruct (find _ _); [reflexivity|destruct k; reflexivity].
Qed.

(* the declarative side: the package-scope object of kind k named n, as go/types' scope knows it *)
Definition scope_obj (k : okind) (n : bytes) (o : obj) : bool := matches all_fixed k n o.

Definition spec_lookup (k : okind) (n : bytes) (defs : list obj) : option N :=
  match find (scope_obj k n) defs with
  | Some o => Some (o_id o)
  | None => None
  end.

(* a scope holds at most one object per name (go/types; "init" functions are the exception) *)
Definition unique_at (defs : list obj) (k : okind) (n : bytes) : Prop :=
  forall o1 o2, In o1 defs -> In o2 defs -> scope_obj k n o1 = true -> scope_obj k n o2 = true ->
                o_id o1 = o_id o2.

(* the first hit in a list and the first hit in a permutation of it are indistinguishable through [g] as soon as
   all hits are: this is all that uniqueness is needed for *)
Lemma find_perm {A B} (f : A -> bool) (g : A -> B) : forall l l',
  Permutation l l' ->
  (forall a b, In a l' -> In b l' -> f a = true -> f b = true -> g a = g b) ->
  option_map g (find f l) = option_map g (find f l').
Proof.
  intros l l' HP Hu.
  destruct (find f l) as [a|] eqn:E, (find f l') as [b|] eqn:E'; cbn; [|exfalso..|reflexivity].
  - apply find_some in E, E'. f_equal. apply Hu; try apply E; try apply E'. apply (Permutation_in _ HP), E.
  - apply find_some in E. rewrite (find_none _ _ E' a) in E; [easy|]. apply (Permutation_in _ HP), E.
  - apply find_some in E'. rewrite (find_none _ _ E b) in E'; [easy|].
    apply (Permutation_in _ (Permutation_sym HP)), E'.
Qed.

Lemma tables_exact : forall defs pi k n,
  Permutation pi defs -> unique_at defs k n ->
  lookup k n (fill_tables all_fixed pi) = spec_lookup k n defs.
Proof.
  intros defs pi k n Hp Hu. rewrite fill_lookup.
  apply (find_perm (scope_obj k n) o_id (rev pi) defs); [|exact Hu].
  rewrite <- Permutation_rev. exact Hp.
Qed.

Lemma tables_order_independent : forall defs p1 p2 k n,
  Permutation p1 defs -> Permutation p2 defs -> unique_at defs k n ->
  lookup k n (fill_tables all_fixed p1) = lookup k n (fill_tables all_fixed p2).
Proof.
  intros. rewrite (tables_exact defs p1), (tables_exact defs p2); auto.
Qed.

Lemma tabled_fixed_inv : forall k o,
  tabled all_fixed k o = true ->
  o_kind o = k /\ o_pkg_scope o = true /\ (k = KFunc -> o_recv o = None) /\ k <> KOther.
Proof.
  intros k o. unfold tabled. cbn.
  destruct k, (o_kind o); try discriminate; [destruct (o_recv o); [discriminate|]|..].
  all: intros H; repeat split; auto; discriminate.
Qed.

Lemma scope_obj_iff : forall k n o, scope_obj k n o = true <-> tabled all_fixed k o = true /\ o_name o = n.
Proof.
  intros k n o. unfold scope_obj, matches. rewrite andb_true_iff, bytes_eqb_spec. split; intros [H E]; auto.
Qed.

(* distinct names among the objects the loop files under k: what go/types guarantees for a scope *)
Lemma unique_at_NoDup : forall defs k,
  NoDup (map o_name (filter (tabled all_fixed k) defs)) -> forall n, unique_at defs k n.
Proof.
  intros defs k Hnd n o1 o2 H1 H2 M1 M2. apply scope_obj_iff in M1, M2. destruct M1 as [T1 N1], M2 as [T2 N2].
  f_equal. apply (NoDup_map_inj_in o_name _ o1 o2 Hnd); [apply filter_In; auto..|congruence].
Qed.

(* never a function-local declaration, a type parameter or a blank: needs no uniqueness *)
Lemma tables_only_package_scope : forall defs k n x,
  lookup k n (fill_tables all_fixed defs) = Some x ->
  exists o, In o defs /\ o_id o = x /\ o_kind o = k /\ o_name o = n /\ o_pkg_scope o = true
            /\ (k = KFunc -> o_recv o = None).
Proof.
  intros defs k n x H. rewrite fill_lookup in H.
  destruct (find _ _) as [o|] eqn:E; [|discriminate]. apply find_some in E. destruct E as [Hin Hm].
  apply in_rev in Hin. apply scope_obj_iff in Hm. destruct Hm as [Ht Hn].
  destruct (tabled_fixed_inv k o Ht) as (Hk & Hs & Hr & _).
  injection H as <-. exists o. auto 6.
Qed.

(* the key set of each table: exactly the names of the package-scope objects of that kind *)
Lemma tables_keys : forall defs pi k n,
  Permutation pi defs ->
  (In n (map fst (table_of k (fill_tables all_fixed pi))) <-> exists o, In o defs /\ scope_obj k n o = true).
Proof.
  intros defs pi k n Hp. rewrite <- tbl_get_in. fold (lookup k n (fill_tables all_fixed pi)).
  rewrite fill_lookup. rewrite (Permutation_rev pi) in Hp.
  destruct (find _ _) as [o|] eqn:E; cbn.
  - apply find_some in E. split; [|discriminate]. exists o. split; [apply (Permutation_in _ Hp)|]; apply E.
  - split; [congruence|]. intros (o & Hin & Hm).
    apply (Permutation_in _ (Permutation_sym Hp)), (find_none _ _ E) in Hin. unfold scope_obj in Hm. congruence.
Qed.

Lemma tables_nodup : forall fx defs k, NoDup (map fst (table_of k (fill_tables fx defs))).
Proof.
  intros fx defs k. unfold fill_tables. rewrite fold_table.
  apply (Assoc.sets_NoDup _ bytes_eqbP). destruct k; constructor.
Qed.

Lemma mtbl_get_app : forall key k x m,
  mtbl_get key (mtbl_app k x m) = if N.eqb key k then mtbl_get key m ++ [x] else mtbl_get key m.
Proof.
  intros key k x m. induction m as [|[k' v] r IH]; cbn.
  - destruct (N.eqb key k); reflexivity.
  - destruct (N.eqb_spec k k') as [<-|Hk]; cbn.
    + destruct (N.eqb key k); reflexivity.
    + destruct (N.eqb_spec key k') as [<-|_]; [|exact IH].
      destruct (N.eqb_spec key k); [congruence|reflexivity].
Qed.

(* [o] is a method the loop files under [key] *)
Definition method_of (fx : fixes) (key : N) (o : obj) : bool :=
  match o_kind o, o_recv o with
  | KFunc, Some r =>
      match named_of (recv_shape fx r) with
      | Some n => N.eqb key (mkey fx n)
      | None => false
      end
  | _, _ => false
  end.

Lemma step_methods : forall fx key t o,
  mtbl_get key (t_methods (step fx t o))
  = mtbl_get key (t_methods t) ++ (if method_of fx key o then [o] else []).
Proof.
  intros fx key t o. unfold step, method_of.
  destruct (o_kind o); [destruct (o_recv o) as [r|]; [destruct (named_of (recv_shape fx r)) as [n|]|]|..].
  (* only the first case touches the method table *)
  2-6: destruct (negb (fx_scope fx) || o_pkg_scope o); cbn; symmetry; apply app_nil_r.
  cbn. rewrite mtbl_get_app. destruct (N.eqb key (mkey fx n)); [reflexivity|symmetry; apply app_nil_r].
Qed.

Lemma fold_methods : forall fx key l t,
  mtbl_get key (t_methods (fold_left (step fx) l t))
  = mtbl_get key (t_methods t) ++ filter (method_of fx key) l.
Proof.
  intros fx key l. induction l as [|o r IH]; intros t; cbn [fold_left filter].
  - rewrite app_nil_r. reflexivity.
  - rewrite IH, step_methods, <- app_assoc. destruct (method_of fx key o); reflexivity.
Qed.

(* declaratively: o is a method declared on the type whose origin is [origin] *)
Definition declared_on (origin : N) (o : obj) : bool := method_of all_fixed origin o.

Definition value_recv (o : obj) : bool :=
  match o_recv o with
  | Some r => negb (is_pointer (rv_unaliased r))
  | None => true
  end.

Lemma methods_exact : forall defs pi n,
  Permutation pi defs ->
  Permutation (methods_of all_fixed (fill_tables all_fixed pi) n true)
              (filter (declared_on (n_origin n)) defs)
  /\ Permutation (methods_of all_fixed (fill_tables all_fixed pi) n false)
                 (filter (fun o => declared_on (n_origin n) o && value_recv o) defs).
Proof.
  intros defs pi n Hp. unfold methods_of, fill_tables. rewrite fold_methods. cbn [t_methods empty_tables mtbl_get app].
  cbn [mkey all_fixed fx_origin]. split.
  - apply Permutation_filter. exact Hp.
  - rewrite filter_filter. apply Permutation_filter. exact Hp.
Qed.

Lemma pm_get_in : forall {V} (m : list (path * V)) k v, NoDup (map fst m) -> In (k, v) m -> pm_get k m = Some v.
Proof. intros V m k v. rewrite pm_get_eq. apply Assoc.get_In, bytes_eqbP. Qed.

Lemma g_find_some : forall p g nd, g_find p g = Some nd -> g_path nd = p /\ In nd g.
Proof.
  intros p g nd H. rewrite (Assoc.find_by_unfold bytes_eqb g_path g_find) in H by (intros k [|y r]; reflexivity).
  apply (Assoc.find_by_Some _ _ bytes_eqbP) in H. tauto.
Qed.

Lemma heap_get_some : forall id h pv, heap_get id h = Some pv -> In pv h /\ pv_id pv = id.
Proof.
  intros id h pv H. rewrite (Assoc.find_by_unfold N.eqb pv_id heap_get) in H by (intros k [|y r]; reflexivity).
  apply (Assoc.find_by_Some _ _ N.eqb_spec), H.
Qed.

Section Register.
  Variable g : graph.
  Variable rk : path -> nat.
  (* the import graph is acyclic: a rank that decreases along every import edge *)
  Hypothesis Hrk : forall p nd k t, g_find p g = Some nd -> In (k, t) (g_imports nd) -> rk t < rk p.
  (* NeedDeps: every imported package is in the graph *)
  Hypothesis Hclosed : forall p nd k t, g_find p g = Some nd -> In (k, t) (g_imports nd) -> g_find t g <> None.
  (* Package.Imports is a map: its keys are distinct *)
  Hypothesis Hkeys : forall p nd, g_find p g = Some nd -> NoDup (map fst (g_imports nd)).
  Variable fx : fixes.
  Hypothesis Hfi : fx_imports fx = true.
  Hypothesis Hfv : fx_vendor fx = true.

  (* the invariant is what [imports_total] concludes, as it stands (a registered package resolves each of its imports
     to the registered Package value of the imported package), with what makes newPkg's identity fresh: a registered
     identity is that of a Package value built for that path, and every Package value built so far has an identity
     below the counter ([inv_ids]: so have the identities in use) *)
  Record inv (s : ustate) : Prop := mk_inv {
    inv_imports : forall p nd k t, universe_package s p <> None -> g_find p g = Some nd -> In (k, t) (g_imports nd) ->
      imports_entry s p k = Some (universe_package s t) /\ universe_package s t <> None;
    inv_vals : forall p id, pm_get p (u_pkgs s) = Some id ->
      exists pv, heap_get id (u_heap s) = Some pv /\ pv_path pv = p;
    inv_heap : forall pv, In pv (u_heap s) -> (pv_id pv < u_next s)%N
  }.

  Lemma inv_ids : forall s, inv s -> forall p id, pm_get p (u_pkgs s) = Some id -> (id < u_next s)%N.
  Proof.
    intros s [_ Hv Hh] p id E. destruct (Hv p id E) as (pv & Hg & _).
    destruct (heap_get_some _ _ _ Hg) as [Hin <-]. exact (Hh pv Hin).
  Qed.

  (* from s to s' every registered package keeps its Package value, and only packages of rank below B are new *)
  Record ext (B : nat) (s s' : ustate) : Prop := mk_ext {
    ext_pkgs : forall p id, pm_get p (u_pkgs s) = Some id -> pm_get p (u_pkgs s') = Some id;
    ext_new : forall q, pm_get q (u_pkgs s') <> None -> pm_get q (u_pkgs s) <> None \/ rk q < B
  }.

  Lemma ext_refl : forall B s, ext B s s.
  Proof. intros B s. constructor; auto. Qed.

  Lemma ext_trans : forall B1 B2 B s s1 s2,
    ext B1 s s1 -> ext B2 s1 s2 -> B1 <= B -> B2 <= B -> ext B s s2.
  Proof.
    intros B1 B2 B s s1 s2 [P1 N1] [P2 N2] H1 H2. constructor.
    - intros p id H. apply P2, P1, H.
    - intros q H. destruct (N2 q H) as [H'|H']; [|right; lia].
      destruct (N1 q H') as [H''|H'']; [left; exact H''|right; lia].
  Qed.

  Lemma ext_reg : forall B s s' t, ext B s s' -> pm_get t (u_pkgs s) <> None -> pm_get t (u_pkgs s') <> None.
  Proof.
    intros B s s' t [P _] H. destruct (pm_get t (u_pkgs s)) as [id|] eqn:E; [|congruence].
    rewrite (P t id E). discriminate.
  Qed.

  Lemma ext_le : forall B B' s s', ext B s s' -> B <= B' -> ext B' s s'.
  Proof. intros B B' s s' H HB. apply (ext_trans B 0 B' s s' s' H (ext_refl 0 s')); lia. Qed.

  (* u.pkgs[p] = v for a p that was not registered *)
  Lemma ext_set : forall s p v h nx,
    pm_get p (u_pkgs s) = None -> ext (S (rk p)) s (mk_ustate (pm_set p v (u_pkgs s)) h nx).
  Proof.
    intros s p v h nx Hp. constructor; cbn [u_pkgs]; intros q; rewrite pm_get_set.
    - destruct (bytes_eqbP q p) as [->|_]; [congruence|auto].
    - destruct (bytes_eqbP q p) as [->|_]; auto.
  Qed.

  Lemma inv_empty : inv empty_ustate.
  Proof. constructor; cbn; [congruence|discriminate|contradiction]. Qed.

  (* newPkg(p) followed by u.pkgs[p] = the new value, once every import of p is registered.  Nothing an existing
     Package value points to changes: the packages it imports are registered and p is not, so p is none of them. *)
  Lemma inv_install : forall s p nd,
    inv s -> g_find p g = Some nd -> pm_get p (u_pkgs s) = None ->
    (forall k t, In (k, t) (g_imports nd) -> pm_get t (u_pkgs s) <> None) ->
    inv (mk_ustate (pm_set p (u_next s) (u_pkgs s))
                   (mk_pkgval (u_next s) (g_path nd)
                              (map (fun kt => (fst kt, pm_get (snd kt) (u_pkgs s))) (g_imports nd)) :: u_heap s)
                   (u_next s + 1)).
  Proof.
    intros s p nd Hinv Ef Hp Hall. pose proof (inv_ids s Hinv) as Hid. destruct Hinv as [Himp Hval Hheap].
    assert (Hkeep : forall t, pm_get t (u_pkgs s) <> None ->
                      pm_get t (pm_set p (u_next s) (u_pkgs s)) = pm_get t (u_pkgs s)).
    { intros t Ht. rewrite pm_get_set. destruct (bytes_eqbP t p); [congruence|reflexivity]. }
    constructor; unfold imports_entry, universe_package in *; cbn [u_pkgs u_heap u_next heap_get pv_id].
    - intros q nd' k t Hq Hnd' Hin. rewrite (pm_get_set q) in *. destruct (bytes_eqbP q p) as [->|_].
      + rewrite N.eqb_refl. rewrite Ef in Hnd'. injection Hnd' as <-.
        specialize (Hall k t Hin). rewrite (Hkeep t Hall). split; [|exact Hall].
        cbn [pv_imports]. apply pm_get_in; [rewrite map_map; exact (Hkeys _ _ Ef)|].
        exact (in_map (fun kt => (fst kt, pm_get (snd kt) (u_pkgs s))) _ _ Hin).
      + specialize (Himp q nd' k t Hq Hnd' Hin). destruct (pm_get q (u_pkgs s)) as [id|] eqn:E; [|congruence].
        destruct (N.eqb_spec id (u_next s)) as [->|_]; [specialize (Hid q _ E); lia|].
        rewrite (Hkeep t (proj2 Himp)). exact Himp.
    - intros q id Hq. rewrite pm_get_set in Hq. destruct (bytes_eqbP q p) as [->|_].
      + injection Hq as <-. rewrite N.eqb_refl. eexists. split; [reflexivity|]. exact (proj1 (g_find_some _ _ _ Ef)).
      + destruct (N.eqb_spec id (u_next s)) as [->|_]; [specialize (Hid q _ Hq); lia|]. exact (Hval q id Hq).
    - intros pv [<-|Hin]; [|specialize (Hheap pv Hin)]; cbn [pv_id]; lia.
  Qed.

  Record runs (B : nat) (s : ustate) (r : res ustate) (s' : ustate) : Prop := mk_runs {
    runs_eq : r = Ok s';
    runs_inv : inv s';
    runs_ext : ext B s s'
  }.
  Arguments runs_eq {B s r s'}.
  Arguments runs_inv {B s r s'}.
  Arguments runs_ext {B s r s'}.

  Lemma runs_ret : forall B s, inv s -> runs B s (Ok s) s.
  Proof. intros B s H. constructor; [reflexivity|exact H|apply ext_refl]. Qed.

  Lemma runs_le {B B' s r s'} : runs B s r s' -> B <= B' -> runs B' s r s'.
  Proof. intros [Q I E] H. constructor; [exact Q|exact I|exact (ext_le _ _ _ _ E H)]. Qed.

  Lemma runs_then {B s r1 s1 r2 s2} : runs B s r1 s1 -> runs B s1 r2 s2 -> runs B s r2 s2.
  Proof.
    intros [_ _ E1] [Q I E2]. constructor; [exact Q|exact I|].
    exact (ext_trans B B B s s1 s2 E1 E2 (le_n B) (le_n B)).
  Qed.

  (* The loop over Imports and the loop over the roots are one loop,  for x in l { s <- f x s } : if every turn runs
     within B, registers [tgt x] and hands [pre] on to the rest of the list, the loop runs within B and registers
     every target. *)
  Lemma loop_ok {X} (f : X -> ustate -> res ustate) (tgt : X -> path) (pre : list X -> ustate -> Prop) B :
    (forall x l s, inv s -> pre (x :: l) s ->
       exists s', runs B s (f x s) s' /\ pm_get (tgt x) (u_pkgs s') <> None /\ pre l s') ->
    forall l s, inv s -> pre l s ->
    exists s', runs B s (fold_left (fun acc x => let! a := acc in f x a) l (Ok s)) s'
               /\ forall x, In x l -> pm_get (tgt x) (u_pkgs s') <> None.
  Proof.
    intros Hturn. induction l as [|x l IH]; intros s Hs Hpre.
    - exists s. split; [apply runs_ret, Hs|intros x []].
    - cbn [fold_left bind]. destruct (Hturn x l s Hs Hpre) as (s1 & R1 & Hx & Hpre1). rewrite (runs_eq R1).
      destruct (IH s1 (runs_inv R1) Hpre1) as (s2 & R2 & Hall).
      exists s2. split; [exact (runs_then R1 R2)|].
      intros x' [<-|Hin]; [exact (ext_reg _ _ _ _ (runs_ext R2) Hx)|exact (Hall x' Hin)].
  Qed.

  Lemma register_ok : forall fuel p s,
    inv s -> pm_get p (u_pkgs s) = None -> g_find p g <> None -> rk p < fuel ->
    exists s', runs (S (rk p)) s (register fx g fuel p s) s' /\ pm_get p (u_pkgs s') <> None.
  Proof.
    induction fuel as [|fuel IHf]; intros p s Hinv Hnone Hfind Hfuel; [lia|].
    cbn [register]. destruct (g_find p g) as [nd|] eqn:Ef; [|congruence].
    rewrite Hfi. cbn [fst snd].
    (* the imports: each is registered already or ranks below p, so the induction hypothesis registers it *)
    destruct (loop_ok (fun kt a => if registered (snd kt) a then Ok a else register fx g fuel (snd kt) a) snd
                      (fun l _ => incl l (g_imports nd)) (rk p)) with (l := g_imports nd) (s := s)
      as (s2 & [-> Hi2 He2] & Hall); [|exact Hinv|apply incl_refl|].
    { intros [k t] l a Ha Hl. apply incl_cons_inv in Hl. destruct Hl as [Hin Hl]. cbn [snd].
      pose proof (Hrk p nd k t Ef Hin) as Hlt. unfold registered.
      destruct (pm_get t (u_pkgs a)) eqn:Et.
      - exists a. split; [apply runs_ret, Ha|]. split; [congruence|exact Hl].
      - destruct (IHf t a Ha Et (Hclosed p nd k t Ef Hin)) as (s1 & R1 & Ht1); [lia|].
        exists s1. split; [exact (runs_le R1 Hlt)|]. split; [exact Ht1|exact Hl]. }
    cbn [bind]. unfold new_pkg. rewrite Hfv. cbn [fst snd u_pkgs u_heap u_next].
    assert (Hp2 : pm_get p (u_pkgs s2) = None).
    { destruct (pm_get p (u_pkgs s2)) eqn:E; [|reflexivity].
      destruct (ext_new _ _ _ He2 p); [congruence|congruence|lia]. }
    eexists. split; [constructor; [reflexivity|apply inv_install; try assumption|]|].
    - intros k t Hin. exact (Hall (k, t) Hin).
    - apply (ext_trans _ _ _ _ _ _ He2 (ext_set s2 p _ _ _ Hp2)); lia.
    - cbn [u_pkgs]. rewrite pm_get_set, bytes_eqb_refl. discriminate.
  Qed.

  (* what the loop over the roots needs of the roots still to come: none is registered yet, they are in the graph and
     below the fuel, and they come dependencies-first (go list -deps: strictly increasing rank), so that the turn of
     a root, which registers nothing that ranks above it, registers none of the later ones *)
  Definition roots_ok (fuel : nat) (roots : list path) (s : ustate) : Prop :=
    (forall r, In r roots -> pm_get r (u_pkgs s) = None /\ rk r < fuel /\ g_find r g <> None)
    /\ StronglySorted (fun a b => rk a < rk b) roots.

  Lemma load_ok : forall fuel roots s,
    inv s -> roots_ok fuel roots s ->
    exists s', runs fuel s (fold_left (fun (acc : res ustate) r => let! a := acc in register fx g fuel r a) roots (Ok s)) s'
               /\ forall r, In r roots -> pm_get r (u_pkgs s') <> None.
  Proof.
    intros fuel. apply (loop_ok (register fx g fuel) (fun r => r) (roots_ok fuel) fuel).
    intros r rs s Hinv (Hroots & Hsorted).
    destruct (Hroots r (or_introl eq_refl)) as (Hnone & Hfr & Hgr).
    destruct (register_ok fuel r s Hinv Hnone Hgr Hfr) as (s1 & R1 & Hr1).
    exists s1. split; [exact (runs_le R1 Hfr)|]. split; [exact Hr1|].
    apply StronglySorted_inv in Hsorted. destruct Hsorted as [Hs' Hall]. rewrite Forall_forall in Hall.
    split; [|exact Hs']. intros r' Hr'. destruct (Hroots r' (or_intror Hr')) as (Hn' & Hb').
    split; [|exact Hb']. specialize (Hall r' Hr').
    (* what the turn registered ranks at most as r, hence below the later roots *)
    destruct (pm_get r' (u_pkgs s1)) eqn:E; [|reflexivity].
    destruct (ext_new _ _ _ (runs_ext R1) r'); [congruence|congruence|lia].
  Qed.

  Theorem imports_total : forall roots,
    (forall r, In r roots -> g_find r g <> None) ->
    StronglySorted (fun a b => rk a < rk b) roots ->
    exists n, forall fuel, n <= fuel ->
      exists s, load fx g fuel roots = Ok s
        /\ (forall r, In r roots -> universe_package s r <> None)
        /\ forall p nd k t, universe_package s p <> None -> g_find p g = Some nd -> In (k, t) (g_imports nd) ->
             imports_entry s p k = Some (universe_package s t) /\ universe_package s t <> None.
  Proof.
    intros roots Hroots Hsorted. exists (S (list_max (map rk roots))). intros fuel Hfuel.
    destruct (load_ok fuel roots empty_ustate inv_empty) as (s & [Hl Hi _] & Hr).
    - split; [|exact Hsorted].
      intros r Hr. split; [reflexivity|]. split; [|apply Hroots, Hr].
      apply Nat.lt_le_trans with (2 := Hfuel), Nat.lt_succ_r.
      apply (proj1 (Forall_forall _ _) (proj1 (list_max_le _ _) (le_n _))), in_map, Hr.
    - exists s. split; [exact Hl|]. split; [exact Hr|exact (inv_imports _ Hi)].
  Qed.
End Register.

Section Dirs.
  Variable join : bytes -> bytes -> bytes.

  (* the go command's layout: the package with import path <module path><suffix> of a module rooted
     at <module dir> lives in <module dir> when the suffix is empty, else in Join(<module dir>, <suffix>) *)
  Definition layout (p : pinfo) (dir : bytes) : Prop :=
    match pi_module p with
    | None => True
    | Some m => exists suf, pi_path p = m_path m ++ suf
                            /\ dir = (if is_nil suf then m_dir m else join (m_dir m) suf)
    end.

  Lemma source_dir_ok : forall p dir,
    pi_module p <> None -> layout p dir -> source_dir join p = Ok dir.
  Proof.
    intros p dir Hm Hl. unfold layout in Hl. unfold source_dir.
    destruct (pi_module p) as [m|]; [|congruence].
    destruct Hl as (suf & -> & ->).
    destruct suf as [|c suf]; [rewrite app_nil_r, bytes_eqb_refl; reflexivity|].
    destruct (bytes_eqbP (m_path m ++ c :: suf) (m_path m)) as [E|_].
    - rewrite <- (app_nil_r (m_path m)) in E at 2. apply app_inv_head in E. discriminate.
    - rewrite app_length, (proj2 (Nat.leb_le _ _) (Nat.le_add_r _ _)), skipn_app_exact. reflexivity.
  Qed.

  Lemma source_dir_no_module : forall p, pi_module p = None -> source_dir join p = Ok [].
  Proof. intros p H. unfold source_dir. rewrite H. reflexivity. Qed.

  (* the loop by itself, no layout: where p stands among the packages that report d does not matter, since they
     all have its path *)
  Lemma locate_first : forall order d p,
    (forall q, In q order -> exists dq, source_dir join q = Ok dq /\ (d = dq -> pi_path q = pi_path p)) ->
    In p order -> source_dir join p = Ok d ->
    locate join order d = Ok (Some (pi_path p)).
  Proof.
    intros order d p Hall Hp Ep. induction order as [|q r IH]; [contradiction|].
    cbn [locate]. destruct (Hall q (or_introl eq_refl)) as (dq & Eq & Hq). rewrite Eq. cbn [bind].
    destruct (bytes_eqbP d dq) as [Hd|Hd]; [rewrite (Hq Hd); reflexivity|].
    destruct Hp as [->|Hp]; [congruence|]. apply IH; [intros q' Hq'; apply Hall; right; exact Hq'|exact Hp].
  Qed.

  (* LocateInPackage, for every order in which the map of packages is visited *)
  Lemma locate_ok : forall (pkgs : list (pinfo * bytes)),
    (forall p d, In (p, d) pkgs -> layout p d) ->
    (forall p d, In (p, d) pkgs -> pi_module p <> None -> d <> []) ->
    (forall p1 d p2, In (p1, d) pkgs -> In (p2, d) pkgs -> pi_module p1 <> None -> pi_module p2 <> None ->
                     pi_path p1 = pi_path p2) ->
    forall order, Permutation order (map fst pkgs) ->
    forall p d, In (p, d) pkgs -> pi_module p <> None ->
      locate join order d = Ok (Some (pi_path p)).
  Proof.
    intros pkgs Hlay Hne Hinj order Hperm p d Hin Hmod.
    assert (Hdir : forall q dq, In (q, dq) pkgs -> pi_module q <> None -> source_dir join q = Ok dq)
      by (intros q dq Hq Hm; apply source_dir_ok; auto).
    apply locate_first; [|exact (Permutation_in _ (Permutation_sym Hperm) (in_map fst _ _ Hin))|exact (Hdir p d Hin Hmod)].
    intros q Hq. apply (Permutation_in _ Hperm), in_map_iff in Hq. destruct Hq as ([q' dq] & <- & Hq). cbn [fst].
    destruct (pi_module q') eqn:Emq.
    - exists dq. split; [apply Hdir; congruence|]. intros <-. apply (Hinj q' d p); congruence.
    - exists []. split; [exact (source_dir_no_module q' Emq)|]. intros ->. destruct (Hne p [] Hin Hmod eq_refl).
  Qed.
End Dirs.

(* the same statements fail for the loop without the repairs *)

Local Open Scope N_scope.

(* package-level  type T  and  func F[T any]: the type parameter T is also a *types.TypeName in Defs *)
Definition ex_T_pkg := mk_obj 1 KType (bs "T") true None.
Definition ex_T_tparam := mk_obj 2 KType (bs "T") false None.
Definition ex_F := mk_obj 3 KFunc (bs "F") true None.
Definition ex_defs := [ex_T_pkg; ex_F; ex_T_tparam].

Lemma tables_order_dependent_before_fix :
  exists defs p1 p2 k n,
    Permutation p1 defs /\ Permutation p2 defs /\ unique_at defs k n
    /\ lookup k n (fill_tables unfixed p1) <> lookup k n (fill_tables unfixed p2).
Proof.
  exists ex_defs, ex_defs, (rev ex_defs), KType, (bs "T").
  split; [apply Permutation_refl|]. split; [apply Permutation_sym, Permutation_rev|]. split.
  - apply unique_at_NoDup. repeat constructor. intros [].
  - vm_compute. discriminate.
Qed.

Lemma tables_local_before_fix :
  exists defs k n x o,
    lookup k n (fill_tables unfixed defs) = Some x /\ In o defs /\ o_id o = x /\ o_pkg_scope o = false.
Proof.
  exists ex_defs, KType, (bs "T"), 2, ex_T_tparam. repeat split; try reflexivity.
  cbn. auto.
Qed.

(* type G[E any] struct{}; func (g *G[E]) P(); func (g G[E]) V(): each receiver is its own instance of G *)
Definition ex_P := mk_obj 4 KFunc (bs "P") false
  (Some (mk_recv (TPointer (Some (mk_nref 11 10))) (TPointer (Some (mk_nref 11 10))))).
Definition ex_V := mk_obj 5 KFunc (bs "V") false
  (Some (mk_recv (TNamed (mk_nref 12 10)) (TNamed (mk_nref 12 10)))).

Lemma methods_generic_before_fix :
  exists defs n,
    filter (declared_on (n_origin n)) defs <> []
    /\ methods_of (mk_fixes true false true true true) (fill_tables (mk_fixes true false true true true) defs) n true = [].
Proof.
  exists [ex_P; ex_V], (mk_nref 10 10). split; [vm_compute; discriminate|reflexivity].
Qed.

(* type T struct{}; type A = T; func (A) AM(): the receiver's type is a *types.Alias *)
Definition ex_AM := mk_obj 6 KFunc (bs "AM") false (Some (mk_recv TOther (TNamed (mk_nref 20 20)))).

Lemma methods_alias_before_fix :
  exists defs n,
    filter (declared_on (n_origin n)) defs <> []
    /\ methods_of (mk_fixes true true false true true) (fill_tables (mk_fixes true true false true true) defs) n true = [].
Proof.
  exists [ex_AM], (mk_nref 20 20). split; [vm_compute; discriminate|reflexivity].
Qed.

(* root m imports a: newPkg(m) ran before a was registered *)
Definition ex_graph := [mk_gnode (bs "m") [(bs "a", bs "a")]; mk_gnode (bs "a") []].

Lemma imports_nil_before_fix :
  exists g roots s, load (mk_fixes true true true false true) g 3 roots = Ok s
                    /\ imports_entry s (bs "m") (bs "a") = Some None.
Proof.
  exists ex_graph, [bs "m"]. eexists. split; [vm_compute; reflexivity|vm_compute; reflexivity].
Qed.

(* std packages import vendored packages under a path that is not the imported package's PkgPath *)
Definition ex_vendor_graph := [mk_gnode (bs "net") [(bs "x/dns", bs "vendor/x/dns")]; mk_gnode (bs "vendor/x/dns") []].

Lemma imports_vendored_nil_before_fix :
  exists g roots s, load (mk_fixes true true true true false) g 3 roots = Ok s
                    /\ imports_entry s (bs "net") (bs "x/dns") = Some None.
Proof.
  exists ex_vendor_graph, [bs "net"]. eexists. split; [vm_compute; reflexivity|vm_compute; reflexivity].
Qed.

(* the hypothesis on the order of the roots is needed: a root registered as a dependency of an
   earlier root is registered again, and the earlier root keeps the first Package value *)
Lemma imports_need_root_order :
  exists g roots s, load all_fixed g 3 roots = Ok s
                    /\ imports_entry s (bs "m") (bs "a") = Some (Some 0)
                    /\ universe_package s (bs "a") = Some 2.
Proof.
  exists ex_graph, [bs "m"; bs "a"]. eexists. split; [vm_compute; reflexivity|].
  split; vm_compute; reflexivity.
Qed.
