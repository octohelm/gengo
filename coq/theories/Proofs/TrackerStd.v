(* A std package is always imported under the name the reserved table gives it, whatever else the
   history imports and in whatever order:  both the table (std.go, a tracker without checkStd) and
   a writer's tracker walk the SAME candidate sequence of a path; everything before the table's
   choice is reserved for another std package or refused outright by both (a predeclared
   identifier), and the table's choice itself can only ever be taken by that path.
   The last section compares the two code versions on a table: when the code before the repairs bound every line
   under a valid name that is not refused, the repaired code builds the same table. *)
Require Import Gengo.Base.Bytes Gengo.Model.CamelCase Gengo.Model.GoIdent Gengo.Model.Tracker
               Gengo.Model.TrackerSpec Gengo.Proofs.CamelCase Gengo.Proofs.Tracker.
From Coq Require Import PeanoNat.

(* add binds the FIRST candidate of the sequence that can be bound *)
Lemma add_first : forall fixed pre std tr path tr',
  add fixed pre std tr path = Ok tr' ->
  (lookup path (p2n tr) = None /\
   exists j, Tracker.bind pre std tr (cand_at fixed path j) path = Some tr' /\
             forall i, i < j -> Tracker.bind pre std tr (cand_at fixed path i) path = None)
  \/ tr' = tr.
Proof.
  intros fixed pre std tr path tr' H. destruct (add_char fixed pre std tr path) as (t & E & C).
  rewrite E in H. inversion H; subst t. destruct C as [C|[-> _]]; [left; exact C|right; reflexivity].
Qed.

(* every name the table gives is the first candidate of its path that was not already given to
   another path *)
Definition first_choice (fixed : bool) (pre : list bytes) (s : tracker) : Prop :=
  forall p sn, lookup p (p2n s) = Some sn ->
    name_in pre sn = false /\
    exists j, sn = cand_at fixed p j /\
              forall i, i < j -> name_in pre (cand_at fixed p i) = true \/
                                 exists q, q <> p /\ lookup (cand_at fixed p i) (n2p s) = Some q.

Lemma first_choice_empty : forall fixed pre, first_choice fixed pre empty_tracker.
Proof. intros fixed pre p sn H. cbn in H. discriminate. Qed.

Lemma bind_nostd_none : forall pre tr nm path, Tracker.bind pre None tr nm path = None ->
  name_in pre nm = true \/ exists q, lookup nm (n2p tr) = Some q.
Proof.
  intros pre tr nm path H. unfold Tracker.bind in H. destruct (name_in pre nm); [left; reflexivity|right].
  cbn in H. destruct (lookup nm (n2p tr)); [eauto|discriminate].
Qed.

Lemma grow_first_choice : forall fixed pre s0 s1,
  grow fixed pre None s0 s1 -> inv None s0 -> first_choice fixed pre s0 -> first_choice fixed pre s1.
Proof.
  intros fixed pre s0 s1 [tr path j tr' L Hb Hpre] I F.
  pose proof (bind_ext_n2p _ _ _ _ _ _ Hb) as X.
  intros p sn Hp. destruct (Order.bytes_dec p path) as [->|Hne].
  - rewrite (bind_bound _ _ _ _ _ _ Hb) in Hp. inversion Hp; subst sn.
    split; [eapply bind_some_not_pre; exact Hb|]. exists j. split; [reflexivity|].
    intros i Hi. destruct (bind_nostd_none _ _ _ _ (Hpre i Hi)) as [Hp'|[q Hq]]; [left; exact Hp'|right].
    exists q. split; [|apply X; exact Hq].
    intros ->. apply (inv_bij _ _ I) in Hq. congruence.
  - rewrite (bind_other _ _ _ _ _ _ Hb p Hne) in Hp. destruct (F p sn Hp) as (NP & j' & Hs & Hq).
    split; [exact NP|]. exists j'. split; [exact Hs|].
    intros i Hi. destruct (Hq i Hi) as [Hp'|(q & Hqp & Hl)]; [left; exact Hp'|right].
    exists q. split; [exact Hqp|apply X; exact Hl].
Qed.

Lemma add_first_choice : forall fixed pre s0 path s1,
  inv None s0 -> first_choice fixed pre s0 -> add fixed pre None s0 path = Ok s1 -> first_choice fixed pre s1.
Proof.
  intros fixed pre s0 path s1 I F A.
  exact (proj2 (reach_preserves fixed pre None _ (grow_first_choice fixed pre) _ _ (add_reach _ _ _ _ _ _ A) I F)).
Qed.

Lemma add_all_preserves : forall fixed pre std (P : tracker -> Prop),
  (forall tr path tr', inv std tr -> P tr -> add fixed pre std tr path = Ok tr' -> P tr') ->
  forall ps tr tr', inv std tr -> P tr -> add_all fixed pre std tr ps = Ok tr' -> inv std tr' /\ P tr'.
Proof.
  intros fixed pre std P HP. induction ps as [|p ps IH]; intros tr tr' I Ptr H; cbn [add_all] in H.
  - inversion H; subst. auto.
  - destruct (add fixed pre std tr p) as [t| |] eqn:A; cbn [Bytes.bind] in H; try discriminate.
    apply (IH t tr'); [eapply reach_inv; [eapply add_reach; eauto|exact I]|eapply HP; eauto|exact H].
Qed.

Definition std_named (s tr : tracker) : Prop :=
  forall p n sn, lookup p (p2n tr) = Some n -> lookup p (p2n s) = Some sn -> n = sn.

Lemma grow_std_named : forall fixed pre s tr0 tr0',
  bij s -> first_choice fixed pre s ->
  grow fixed pre (Some s) tr0 tr0' -> inv (Some s) tr0 -> std_named s tr0 -> std_named s tr0'.
Proof.
  intros fixed pre s tr0 tr0' Bs F [tr path ju tr' L Hb Hpre] I SN.
  intros p n sn Hp Hs. destruct (Order.bytes_dec p path) as [->|Hne].
  - rewrite (bind_bound _ _ _ _ _ _ Hb) in Hp. inversion Hp; subst n. clear Hp.
    destruct (F path sn Hs) as (NP & js & -> & Hq).
    destruct (Nat.lt_trichotomy ju js) as [Hlt|[->|Hgt]]; [exfalso|reflexivity|exfalso].
    + (* a name before the table's choice is refused outright or reserved for another std package *)
      destruct (Hq ju Hlt) as [Hp'|(q & Hqp & Hl)].
      { rewrite (bind_some_not_pre _ _ _ _ _ _ Hb) in Hp'. discriminate. }
      destruct (bind_some _ _ _ _ _ _ Hb) as (Hc & _ & _).
      unfold std_conflict in Hc. rewrite Hl in Hc. apply negb_false_iff in Hc. apply bytes_eqb_spec in Hc. congruence.
    + (* the table's choice cannot have been refused: only [path] itself may hold it *)
      specialize (Hpre js Hgt). apply Bs in Hs. unfold Tracker.bind in Hpre. rewrite NP in Hpre. unfold std_conflict in Hpre.
      rewrite Hs, bytes_eqb_refl in Hpre. cbn [negb] in Hpre.
      destruct (lookup (cand_at fixed path js) (n2p tr)) as [q|] eqn:Lq; [|discriminate].
      pose proof (inv_std _ _ I s _ _ _ eq_refl Lq Hs) as ->. apply (inv_bij _ _ I) in Lq. congruence.
  - rewrite (bind_other _ _ _ _ _ _ Hb p Hne) in Hp. eapply SN; eauto.
Qed.

Lemma add_std_named : forall fixed pre s tr path tr',
  bij s -> first_choice fixed pre s ->
  inv (Some s) tr -> std_named s tr -> add fixed pre (Some s) tr path = Ok tr' -> std_named s tr'.
Proof.
  intros fixed pre s tr path tr' Bs F I SN A.
  exact (proj2 (reach_preserves fixed pre (Some s) _ (fun a b => grow_std_named fixed pre s a b Bs F) _ _
                  (add_reach _ _ _ _ _ _ A) I SN)).
Qed.

Theorem std_packages_keep_their_names : forall fixed pre lines s self ops tr texts snaps,
  build_std fixed pre lines = Ok s ->
  run fixed pre (Some s) self ops = Ok (tr, texts, snaps) ->
  forall p n sn, lookup p (p2n tr) = Some n -> lookup p (p2n s) = Some sn -> n = sn.
Proof.
  intros fixed pre lines s self ops tr texts snaps Hs H.
  destruct (reach_preserves fixed pre None (first_choice fixed pre) (grow_first_choice fixed pre)
              _ _ (add_all_reach _ _ _ _ _ _ Hs) (inv_empty None) (first_choice_empty fixed pre)) as [Is Fs].
  exact (proj2 (reach_preserves fixed pre (Some s) (std_named s)
                  (fun a b => grow_std_named fixed pre s a b (inv_bij _ _ Is) Fs)
                  _ _ (run_from_reach _ _ _ _ _ _ _ _ _ H) (inv_empty (Some s)) (fun p n sn Hp => ltac:(cbn in Hp; discriminate)))).
Qed.

(* a name on which the code before and after the repairs cannot differ: sanitising keeps it, [pre] lets it pass *)
Definition plain_name_b (pre : list bytes) (n : bytes) : bool := valid_name_b n && negb (name_in pre n).

Section RepairSame.
  Variable pre : list bytes.

  Lemma try_cands_repair_same : forall tr path segs ns last last' tr1 l,
    (forall n, In n (keys (n2p tr)) -> plain_name_b pre n = true) -> plain_name_b pre l = true ->
    try_cands false [] None tr path segs ns last = Ok (Some tr1, l) ->
    try_cands true pre None tr path segs ns last' = Ok (Some tr1, l).
  Proof.
    intros tr path segs ns last last' tr1 l G Gl. revert last last'.
    induction ns as [|n rest IH]; intros last last' H; cbn [try_cands] in *; [discriminate|].
    rewrite local_name_repaired. destruct (local_name false segs n) as [raw| |]; cbn [Bytes.bind] in *; try discriminate.
    (* the candidate was bound, so it is [l], or refused, so it is one of the names taken *)
    assert (P : plain_name_b pre raw = true).
    { destruct (Tracker.bind [] None tr raw path) eqn:B.
      - inversion H; subst. exact Gl.
      - apply G. apply bind_none in B. destruct B as [B|[(s & E & _)|[]]]; [exact B|discriminate]. }
    apply andb_true_iff in P. destruct P as [V NP]. apply negb_true_iff in NP.
    rewrite (sanitize_valid_id raw V), (bind_pre_nil pre _ _ _ _ NP).
    destruct (Tracker.bind [] None tr raw path); [exact H|]. apply (IH _ _ H).
  Qed.

  Lemma add_repair_same : forall tr path tr1,
    add false [] None tr path = Ok tr1 -> length (p2n tr1) = S (length (p2n tr)) ->
    (forall n, In n (keys (n2p tr1)) -> plain_name_b pre n = true) ->
    add true pre None tr path = Ok tr1.
  Proof.
    intros tr path tr1 H L G. unfold add in *.
    (* the path was not yet bound and the candidates were not exhausted: in both cases tr1 = tr *)
    destruct (lookup path (p2n tr)); [inversion H; subst; lia|].
    destruct (try_cands false [] None tr path (split_slash [] path) (seq 1 (length (split_slash [] path))) [])
      as [[[t|] l]| |] eqn:T; cbn [Bytes.bind] in H; try discriminate; inversion H; subst; [|lia].
    pose proof T as T'. rewrite try_cands_find in T'. destruct (find _ _) in T'; inversion T'; subst.
    cbn [push n2p keys map fst] in G.
    rewrite (try_cands_repair_same _ _ _ _ _ [] _ _ (fun n Hn => G n (or_intror Hn)) (G l (or_introl eq_refl)) T).
    reflexivity.
  Qed.

  (* If the code before the repairs bound every one of the paths (each add made pathToName longer) and gave only
     valid names that [pre] does not refuse, the repaired code does exactly the same: the candidates agree, nothing
     is refused that was not refused before, and the numbered fallback is never reached. *)
  Theorem add_all_repair_same : forall ps tr tr',
    add_all false [] None tr ps = Ok tr' ->
    length (p2n tr') = length (p2n tr) + length ps ->
    (forall n, In n (keys (n2p tr')) -> plain_name_b pre n = true) ->
    add_all true pre None tr ps = Ok tr'.
  Proof.
    induction ps as [|p ps IH]; intros tr tr' H L G; cbn [add_all] in *; [exact H|].
    destruct (add false [] None tr p) as [t| |] eqn:A; cbn [Bytes.bind] in H; try discriminate.
    pose proof (add_length _ _ _ _ _ _ A) as L1. pose proof (add_all_length _ _ _ _ _ _ H) as L2. cbn [length] in L.
    rewrite (add_repair_same tr p t A); [cbn [Bytes.bind]; apply IH; [exact H|lia|exact G]|lia|].
    intros n Hn. apply G. exact (reach_taken_names _ _ _ _ _ _ (add_all_reach _ _ _ _ _ _ H) Hn).
  Qed.
End RepairSame.

Theorem build_std_repair_same : forall pre lines s,
  build_std false [] lines = Ok s ->
  length (p2n s) = length (filter (fun l => negb (is_nil l)) lines) ->
  forallb (plain_name_b pre) (keys (n2p s)) = true ->
  build_std true pre lines = Ok s.
Proof.
  intros pre lines s H L G. apply add_all_repair_same; [exact H|exact L|]. apply forallb_forall. exact G.
Qed.

Lemma plain_name_b_nil : forall pre l, forallb (plain_name_b pre) l = true -> forallb (plain_name_b []) l = true.
Proof.
  intros pre l H. rewrite forallb_forall in *. intros n Hn. specialize (H n Hn). unfold plain_name_b in *.
  apply andb_true_iff in H. rewrite (proj1 H). reflexivity.
Qed.

(* a table is itself a tracker history: AddType of every line *)
Lemma build_std_history : forall fixed pre lines s,
  build_std fixed pre lines = Ok s ->
  exists texts snaps,
    run fixed pre None [] (map OAdd (filter (fun l => negb (is_nil l)) lines)) = Ok (s, texts, snaps).
Proof.
  intros fixed pre lines s H. unfold build_std in H. rewrite (add_all_as_run fixed pre None []) in H.
  unfold run. destruct (run_from fixed pre None [] empty_tracker _) as [[[a b] c]| |]; try discriminate.
  inversion H; subst. eauto.
Qed.
