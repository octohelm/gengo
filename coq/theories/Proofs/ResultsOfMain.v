(* The program on which the resolver panicked before the closure index was repaired. *)
Require Import Gengo.Base.Bytes Gengo.Model.ResultsOf.
Require Import Gengo.Proofs.ResultsOf.

(* return wrap(func() (int, error) {...})  with wrap returning one result *)
Definition alt_nil := mk_alt (bs "untyped nil") false TNil (XIdent false 1%N) 0 0%N.
Definition alt_one := mk_alt (bs "1") true TUntyped XOther 0 0%N.
Definition alt_e := mk_alt (bs "*a.E") false (TErrImpl 0) XOther 0 0%N.
Definition alt_fn := mk_alt (bs "func() (int, error)") false (TFunc 1) XOther 0 0%N.
Definition prog_clos : prog :=
  [ mk_fdef 0 [rd_err] (Some [SReturn 0%N (Some [EVal alt_nil])]);                       (* func wrap(..., cb func() (int, error)) error *)
    mk_fdef 0 [rd_int; rd_err] (Some [SReturn 0%N (Some [EVal alt_one; EVal alt_e])]);     (* the function literal *)
    mk_fdef 0 [rd_err]
      (Some [SReturn 0%N (Some [ECall (mk_call true [rd_err] [false; true; false] (TgBody 0) 0 0%N)
                                      [EVal alt_one; EVal alt_nil; EFuncLit 1 alt_fn]])]) ].
Definition otys_clos : otys := [(1%N, TNil)].

Lemma no_panic_refuted :
  wt_b otys_clos prog_clos = true /\ entry_ok prog_clos (EnBody 2) [rd_err] = true /\
  results_of unfixed prog_clos 10 (EnBody 2) [rd_err] = Panic.
Proof. vm_compute. repeat split. Qed.
