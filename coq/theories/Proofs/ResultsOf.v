(* Facts about the model of ResultsOf that hold of every program: the visited marks, termination of the repaired
   traversal (every nested scan enters a node of the call graph that was not marked, and marks it), the shape of the
   result, exactness on literal-only functions.  What needs a well-typed program is in ResultsOfSound.v.
   [prog_rec] (with [rd_int], [rd_err]), DEFINED here, is the directly recursive program Props/C14.v instantiates on. *)
Require Import Gengo.Base.Bytes Gengo.Base.Order Gengo.Model.ResultsOf.
Require Import Coq.Arith.PeanoNat.

Definition marked (vs : visits) (n : nat * nat) : bool :=
  match vs_get vs (fst n) with
  | Some bits => nth (snd n) bits false
  | None => false
  end.

Definition vs_wf (p : prog) (vs : visits) : Prop :=
  forall f bits, vs_get vs f = Some bits -> exists fd, nth_error p f = Some fd /\ length bits = nres fd.

Definition vs_le (vs vs' : visits) : Prop := forall n, marked vs n = true -> marked vs' n = true.

Lemma vs_wf_nil : forall p, vs_wf p [].
Proof. intros p f bits H. discriminate. Qed.

Lemma vs_le_refl : forall vs, vs_le vs vs.
Proof. intros vs n H. exact H. Qed.

Lemma vs_le_trans : forall a b c, vs_le a b -> vs_le b c -> vs_le a c.
Proof. intros a b c H1 H2 n H. apply H2, H1, H. Qed.

Lemma vs_get_set_same : forall vs f b, vs_get (vs_set vs f b) f = Some b.
Proof.
  induction vs as [|[g b0] r IH]; intros f b; cbn.
  - rewrite Nat.eqb_refl. reflexivity.
  - destruct (Nat.eqb g f) eqn:E; cbn; rewrite E; [reflexivity | apply IH].
Qed.

Lemma vs_get_set_other : forall vs f g b, g <> f -> vs_get (vs_set vs f b) g = vs_get vs g.
Proof.
  intros vs f g b Hne. assert (E : Nat.eqb f g = false) by (apply Nat.eqb_neq; congruence).
  induction vs as [|[h b0] r IH]; cbn; [now rewrite E|].
  destruct (Nat.eqb_spec h f) as [->|_]; cbn; [now rewrite E | now rewrite IH].
Qed.

Lemma set_nth_length : forall l i, length (set_nth l i) = length l.
Proof. induction l as [|b r IH]; intros [|i]; cbn; auto. Qed.

Lemma set_nth_same : forall l i, i < length l -> nth i (set_nth l i) false = true.
Proof.
  induction l as [|b r IH]; intros i H; [inversion H|]. destruct i; cbn; [reflexivity|].
  apply IH, Nat.succ_lt_mono, H.
Qed.

Lemma set_nth_other : forall l i j, i <> j -> nth_error (set_nth l i) j = nth_error l j.
Proof.
  induction l as [|b r IH]; intros [|i] [|j] H; cbn; try reflexivity; [congruence|]. apply IH. congruence.
Qed.

Lemma set_nth_mono : forall l i j, nth j l false = true -> nth j (set_nth l i) false = true.
Proof.
  induction l as [|b r IH]; intros [|i] [|j] H; cbn in *; auto.
Qed.

Lemma set_nth_new : forall l i j, nth j (set_nth l i) false = true -> nth j l false = true \/ j = i.
Proof.
  induction l as [|b r IH]; intros [|i] [|j] H; cbn in *; auto.
  destruct (IH _ _ H); auto.
Qed.

Lemma nth_repeat_false : forall n j, nth j (repeat false n) false = false.
Proof. intros n j. apply nth_repeat. Qed.

Lemma nth_error_nth_bool : forall (l : list bool) i b, nth_error l i = Some b -> nth i l false = b.
Proof. intros l i b. apply nth_error_nth. Qed.

Lemma vs_wf_set : forall p vs f fd bits,
    vs_wf p vs -> nth_error p f = Some fd -> length bits = nres fd -> vs_wf p (vs_set vs f bits).
Proof.
  intros p vs f fd bits Hwf Hfd Hl g bs Hg. destruct (Nat.eq_dec g f) as [->|Hne].
  - rewrite vs_get_set_same in Hg. injection Hg as <-. eauto.
  - rewrite vs_get_set_other in Hg by exact Hne. exact (Hwf _ _ Hg).
Qed.

Lemma marked_set : forall vs f bits g j,
    marked (vs_set vs f bits) (g, j) = if Nat.eqb g f then nth j bits false else marked vs (g, j).
Proof.
  intros vs f bits g j. unfold marked. cbn [fst snd]. destruct (Nat.eqb_spec g f) as [->|Hne].
  - now rewrite vs_get_set_same.
  - now rewrite vs_get_set_other.
Qed.

(* what a call of visited for (f, at_) may do to the visits map: it stays well-formed, marks at most that pair, and
   the repaired one leaves it marked *)
Definition visit_post (fxv : bool) (p : prog) (vs : visits) (f at_ : nat) (vs' : visits) : Prop :=
  vs_wf p vs' /\ vs_le vs vs' /\ (forall n, marked vs' n = true -> marked vs n = true \/ n = (f, at_)) /\
  (fxv = true -> marked vs' (f, at_) = true).

Lemma mark_spec : forall fxv p vs f fd bits at_,
    vs_wf p vs -> nth_error p f = Some fd -> length bits = nres fd -> at_ < nres fd ->
    (forall j, marked vs (f, j) = nth j bits false) ->
    visit_post fxv p vs f at_ (vs_set vs f (set_nth bits at_)).
Proof.
  intros fxv p vs f fd bits at_ Hwf Hfd Hl Hlt Hm. split; [|split; [|split]].
  - eapply vs_wf_set; eauto. now rewrite set_nth_length.
  - intros [g j]. rewrite marked_set. destruct (Nat.eqb_spec g f) as [->|_]; [|auto].
    rewrite Hm. apply set_nth_mono.
  - intros [g j]. rewrite marked_set. destruct (Nat.eqb_spec g f) as [->|_]; [|auto].
    rewrite Hm. intros H. destruct (set_nth_new _ _ _ H) as [H'| ->]; auto.
  - intros _. rewrite marked_set, Nat.eqb_refl. apply set_nth_same. rewrite Hl. exact Hlt.
Qed.

Lemma visited_spec : forall fxv p vs f fd at_,
    vs_wf p vs -> nth_error p f = Some fd ->
    if Nat.ltb at_ (nres fd)
    then exists vs', visited fxv vs f (nres fd) at_ = Ok (marked vs (f, at_), vs') /\ visit_post fxv p vs f at_ vs'
    else visited fxv vs f (nres fd) at_ = Panic.
Proof.
  intros fxv p vs f fd at_ Hwf Hfd. unfold visited.
  destruct (vs_get vs f) as [bits|] eqn:G.
  - destruct (Hwf _ _ G) as [fd' [Hfd' Hlen]]. rewrite Hfd in Hfd'. injection Hfd' as <-.
    assert (Hm : forall j, marked vs (f, j) = nth j bits false) by (intros j; unfold marked; cbn; now rewrite G).
    destruct (Nat.ltb_spec at_ (nres fd)) as [Hlt|Hge].
    + destruct (nth_error bits at_) as [b|] eqn:Hn; [|apply nth_error_None in Hn; lia].
      apply nth_error_nth_bool in Hn. rewrite <- Hm in Hn. rewrite Hn.
      destruct fxv; [destruct b|]; eexists; (split; [reflexivity|]).
      * repeat split; auto using vs_le_refl.
      * exact (mark_spec true p vs f fd bits at_ Hwf Hfd Hlen Hlt Hm).
      * repeat split; auto using vs_le_refl. discriminate.
    + rewrite (proj2 (nth_error_None bits at_)) by (rewrite Hlen; exact Hge). reflexivity.
  - assert (Hm : forall j, marked vs (f, j) = nth j (repeat false (nres fd)) false).
    { intros j. unfold marked. cbn. rewrite G. symmetry. apply nth_repeat_false. }
    destruct (Nat.ltb_spec at_ (nres fd)) as [Hlt|_]; [|destruct (Nat.eqb (nres fd) 0); reflexivity].
    destruct (Nat.eqb_spec (nres fd) 0); [lia|]. rewrite Hm, nth_repeat_false. eexists. split; [reflexivity|].
    exact (mark_spec fxv p vs f fd _ at_ Hwf Hfd (repeat_length _ _) Hlt Hm).
Qed.

Lemma visited_seen_same : forall fxv vs f n at_ vs', visited fxv vs f n at_ = Ok (true, vs') -> vs' = vs.
Proof.
  intros fxv vs f n at_ vs'. unfold visited.
  destruct (vs_get vs f); [destruct (nth_error _ _) as [[|]|], fxv|destruct (Nat.eqb n 0), (Nat.ltb at_ n)]; congruence.
Qed.

Lemma visited_fixed_spec :
  forall p vs f fd at_ seen vs',
    vs_wf p vs -> nth_error p f = Some fd ->
    visited true vs f (nres fd) at_ = Ok (seen, vs') ->
    vs_wf p vs' /\ vs_le vs vs' /\ at_ < nres fd /\
    (seen = true -> vs' = vs) /\
    (seen = false -> marked vs (f, at_) = false /\ marked vs' (f, at_) = true).
Proof.
  intros p vs f fd at_ seen vs' Hwf Hfd E. pose proof (visited_spec true p vs f fd at_ Hwf Hfd) as H.
  destruct (Nat.ltb_spec at_ (nres fd)) as [Hlt|]; [|congruence]. destruct H as (vs1 & E1 & Hw & Hle & _ & Hm).
  rewrite E in E1. injection E1 as -> <-. repeat split; auto.
  intros Hs. rewrite Hs in E. exact (visited_seen_same _ _ _ _ _ _ E).
Qed.

Lemma visited_not_oof : forall fxv vs f n at_, visited fxv vs f n at_ <> OutOfFuel.
Proof.
  intros fxv vs f n at_. unfold visited. destruct (vs_get vs f) as [bits|].
  - destruct (nth_error bits at_) as [[|]|], fxv; discriminate.
  - destruct (Nat.eqb n 0), (Nat.ltb at_ n); discriminate.
Qed.

Lemma vs_le_unmarked : forall vs vs' n, vs_le vs vs' -> marked vs' n = false -> marked vs n = false.
Proof. intros vs vs' n H M. destruct (marked vs n) eqn:E; [rewrite (H n E) in M; discriminate|reflexivity]. Qed.

Definition node_dec : forall x y : nat * nat, {x = y} + {x <> y}.
Proof. decide equality; apply Nat.eq_dec. Defined.

Lemma in_nodes_from : forall p i f fd at_,
    nth_error p f = Some fd -> at_ < nres fd -> In (i + f, at_) (nodes_from p i).
Proof.
  induction p as [|x r IH]; intros i f fd at_ Hf Hlt; [destruct f; discriminate|].
  cbn [nodes_from]. apply in_or_app. destruct f as [|f]; cbn in Hf.
  - inversion Hf; subst. left. rewrite Nat.add_0_r. apply in_map_iff. exists at_. split; auto.
    apply in_seq. split; [apply Nat.le_0_l|exact Hlt].
  - right. rewrite <- Nat.add_succ_comm. apply (IH (S i) f fd); auto.
Qed.

Lemma in_nodes : forall p f fd at_, nth_error p f = Some fd -> at_ < nres fd -> In (f, at_) (nodes p).
Proof. intros. apply (in_nodes_from p 0 f fd); auto. Qed.

(* induction over expressions with the hypothesis for every argument of a call *)
Lemma expr_call_ind : forall P : expr -> Prop,
    (forall a, P (EVal a)) -> (forall c args, Forall P args -> P (ECall c args)) -> (forall f a, P (EFuncLit f a)) ->
    forall e, P e.
Proof.
  intros P Hv Hc Hf. fix IH 1. intros [a|c args|f a]; [apply Hv| |apply Hf].
  apply Hc. induction args as [|x r IHr]; constructor; [apply IH|exact IHr].
Qed.

Section Termination.
  Variable fx : fixes.
  Variable p : prog.
  Hypothesis Hfx : fx_visits fx = true.

  Definition sle (s s' : state) : Prop := vs_le (st_vs s) (st_vs s').

  (* r is a fine outcome of a computation started in s *)
  Definition fine (s : state) (r : res state) : Prop :=
    r <> OutOfFuel /\ forall s', r = Ok s' -> vs_wf p (st_vs s') /\ sle s s'.

  (* L lists the nodes of p that are not marked yet *)
  Definition pre (L : list (nat * nat)) (s : state) : Prop :=
    vs_wf p (st_vs s) /\ forall n, In n (nodes p) -> marked (st_vs s) n = false -> In n L.

  Definition kgood (L : list (nat * nat)) (k : cont) : Prop := forall a s, pre L s -> fine s (k a s).
  Definition pgood (L : list (nat * nat)) (P : cont -> state -> res state) : Prop :=
    forall k s, kgood L k -> pre L s -> fine s (P k s).

  Lemma fine_ret : forall s s', vs_wf p (st_vs s') -> sle s s' -> fine s (Ok s').
  Proof. intros s s' Hwf Hle. split; [discriminate|]. intros s'' [= <-]. split; assumption. Qed.

  Lemma fine_ok : forall s, vs_wf p (st_vs s) -> fine s (Ok s).
  Proof. intros s H. apply fine_ret; [exact H|apply vs_le_refl]. Qed.

  Lemma fine_from : forall s s1 r, sle s s1 -> fine s1 r -> fine s r.
  Proof.
    intros s s1 r Hle [Hne Hok]. split; [exact Hne|]. intros s' E. destruct (Hok s' E) as [Hwf' Hle'].
    split; [exact Hwf'|eapply vs_le_trans; eassumption].
  Qed.

  Lemma fine_panic : forall s, fine s Panic.
  Proof. intros s. split; [discriminate|]. intros s' E. discriminate. Qed.

  Lemma pre_step : forall L s s', pre L s -> vs_wf p (st_vs s') -> sle s s' -> pre L s'.
  Proof.
    intros L s s' [_ Hc] Hwf Hle. split; [exact Hwf|].
    intros n Hn M. exact (Hc n Hn (vs_le_unmarked _ _ n Hle M)).
  Qed.

  Lemma fine_bind : forall L s (m : res state) (f : state -> res state),
      pre L s -> fine s m -> (forall s1, pre L s1 -> sle s s1 -> fine s1 (f s1)) -> fine s (bind m f).
  Proof.
    intros L s m f Hpre [Hne Hm] Hf. destruct m as [s1| |]; cbn; [|apply fine_panic|congruence].
    destruct (Hm s1 eq_refl) as [Hwf1 Hle1].
    exact (fine_from _ _ _ Hle1 (Hf s1 (pre_step _ _ _ Hpre Hwf1 Hle1) Hle1)).
  Qed.

  Lemma kgood_weaken : forall L L' k, incl L' L -> kgood L k -> kgood L' k.
  Proof. intros L L' k Hle Hk a s [Hwf Hc]. apply Hk. split; [exact Hwf|]. intros n Hn M. exact (Hle n (Hc n Hn M)). Qed.

  (* Below scan_body no producer looks at the state: each is built from returning, yielding to the consumer and
     sequencing, so the walk never names a consumer or a state. *)
  Lemma pgood_ret : forall L, pgood L (fun _ s => Ok s).
  Proof. intros L k s _ Hpre. apply fine_ok, Hpre. Qed.

  Lemma pgood_yield : forall L a, pgood L (fun k => k a).
  Proof. intros L a k s Hk Hpre. apply Hk, Hpre. Qed.

  Lemma pgood_bind : forall L P Q, pgood L P -> pgood L Q -> pgood L (fun k s => bind (P k s) (Q k)).
  Proof.
    intros L P Q HP HQ k s Hk Hpre. apply (fine_bind L); [exact Hpre|apply HP; assumption|].
    intros s1 Hpre1 _. apply HQ; assumption.
  Qed.

  Section Level.
    Variable rec : nat -> nat -> nat -> cont -> state -> res state.
    Variable L : list (nat * nat).
    Hypothesis Hrec : forall rlen f at_, pgood L (rec rlen f at_).
    Variable rlen : nat.

    Lemma closure_loop_good : forall cres f rs j, pgood L (fun k => closure_loop fx rec rlen cres f k rs j).
    Proof.
      intros cres f rs. induction rs as [|own rs' IH]; intros j; cbn [closure_loop]; [apply pgood_ret|].
      destruct (fx_closure fx); [|destruct (nth_error cres j)]; cbn [bind].
      1, 2: apply pgood_bind; [destruct (is_error _); [apply Hrec|apply pgood_ret]|apply IH].
      intros k s _ _. apply fine_panic.
    Qed.

    Lemma args_loop_good : forall self c l,
        Forall (fun arg => forall at_, pgood L (self arg at_)) l ->
        forall i, pgood L (fun k => args_loop fx p rec rlen self c k l i).
    Proof.
      intros self c l Hall. induction Hall as [|arg rest Harg _ IH]; intros i; cbn [args_loop]; [apply pgood_ret|].
      apply pgood_bind; [|apply pgood_bind; [|apply IH]].
      - destruct (nth i (c_perr c) false); [|apply pgood_ret].
        destruct arg; [apply pgood_yield|apply Harg|apply pgood_yield].
      - destruct arg; try apply pgood_ret. destruct (nth_error p f); [apply closure_loop_good|apply pgood_ret].
    Qed.

    Lemma call_at_good : forall e at_, pgood L (call_at fx p rec rlen e at_).
    Proof.
      induction e as [a|c args IH|f a] using expr_call_ind; intros at_; cbn [call_at]; try apply pgood_ret.
      destruct (negb (c_issig c)); [apply pgood_ret|].
      destruct (nth_error (c_res c) at_) as [rt|]; [|apply pgood_ret].
      destruct (follows (r_ty rt)); [|apply pgood_yield].
      apply pgood_bind.
      - destruct (is_error (r_ty rt)); [apply args_loop_good, IH|apply pgood_ret].
      - destruct (c_target c) as [f|]; [|apply pgood_ret]. destruct (nth_error p f); [apply Hrec|apply pgood_ret].
    Qed.

    Lemma value_or_call_good : forall e, pgood L (value_or_call fx p rec rlen e).
    Proof. intros [a|c args|f a]; [apply pgood_yield|apply call_at_good|apply pgood_yield]. Qed.

    Lemma raroa_good : forall rhs retN at_, pgood L (raroa fx p rec rlen rhs retN at_).
    Proof.
      intros rhs retN at_. unfold raroa. destruct (Nat.ltb (length rhs) retN && Nat.ltb 0 (length rhs)).
      - destruct rhs; [apply pgood_ret|apply call_at_good].
      - destruct (nth_error rhs at_); [apply value_or_call_good|apply pgood_ret].
    Qed.

    Lemma assigned_until_good : forall evs target until, pgood L (assigned_until fx p rec rlen evs target until).
    Proof.
      intros evs target until. unfold assigned_until.
      destruct (last_match target until evs None) as [[a i]|]; [apply raroa_good|apply pgood_ret].
    Qed.

    Lemma post_good : forall pkg evs ret, pgood L (fun k => post fx p rec rlen pkg evs k ret).
    Proof.
      intros pkg evs ret. unfold post. destruct (a_x ret) as [|resolved o|o].
      - apply pgood_yield.
      - apply pgood_bind; [|apply assigned_until_good]. destruct resolved; [apply pgood_ret|apply pgood_yield].
      - apply pgood_bind; [apply pgood_yield|apply assigned_until_good].
    Qed.

    Lemma returns_loop_good : forall fd all evs at_, pgood L (returns_loop fx p rec rlen fd all evs at_).
    Proof.
      intros fd all evs at_. induction evs as [|[a|endp [es|]] r IH]; cbn [returns_loop].
      - apply pgood_ret.
      - exact IH.
      - apply pgood_bind; [|exact IH]. intros k s Hk. apply raroa_good. intros ret s1. apply post_good, Hk.
      - apply pgood_bind; [|exact IH].
        destruct (named_obj (f_res fd) at_); [apply assigned_until_good|apply pgood_ret].
    Qed.
  End Level.

  (* one level of resultsFromAstAt: the recursive calls happen with strictly fewer unmarked nodes *)
  Lemma scan_body_good : forall rec L,
      (forall L', length L' < length L -> forall rlen f at_, pgood L' (rec rlen f at_)) ->
      forall rlen f at_, pgood L (scan_body fx p rec rlen f at_).
  Proof.
    intros rec L Hrec rlen f at_. unfold scan_body.
    destruct (nth_error p f) as [fd|] eqn:Hfd; [|apply pgood_ret].
    destruct (f_body fd) as [body|]; [|apply pgood_ret].
    intros k s Hk [Hwf Hc]. rewrite Hfx.
    pose proof (visited_spec true p _ f fd at_ Hwf Hfd) as Hv.
    destruct (Nat.ltb at_ (nres fd)) eqn:Hlt; [|rewrite Hv; apply fine_panic].
    apply Nat.ltb_lt in Hlt. destruct Hv as (vs1 & -> & Hwf1 & Hle1 & _ & M1). cbn [bind].
    destruct (marked (st_vs s) (f, at_)) eqn:M0.
    - apply fine_ret; assumption.
    - (* the node entered leaves the list: it is marked from here on *)
      set (L' := remove node_dec (f, at_) L).
      assert (Hpre1 : pre L' (mk_state vs1 (st_out s))).
      { split; [exact Hwf1|]. cbn [st_vs]. intros n Hn M. apply in_in_remove.
        - intros ->. rewrite (M1 eq_refl) in M. discriminate.
        - exact (Hc n Hn (vs_le_unmarked _ _ n Hle1 M)). }
      assert (Hk' : kgood L' k) by (apply (kgood_weaken L); [intros n Hn; apply (in_remove _ _ _ _ Hn)|exact Hk]).
      assert (HL : length L' < length L) by (apply remove_length_lt, Hc; [eapply in_nodes; eauto|exact M0]).
      apply (fine_from s (mk_state vs1 (st_out s))); [exact Hle1|].
      exact (returns_loop_good rec L' (Hrec L' HL) rlen fd _ _ at_ k _ Hk' Hpre1).
  Qed.

  Lemma scan_good : forall fuel L, length L < fuel -> forall rlen f at_, pgood L (scan fx p fuel rlen f at_).
  Proof.
    induction fuel as [|fuel IH]; intros L HL rlen f at_; [inversion HL|].
    cbn [scan]. apply scan_body_good. intros L' HL'. apply IH. lia.
  Qed.

  Lemma collect_good : forall L, kgood L collect.
  Proof.
    intros L a s [Hwf _]. apply fine_ret; [exact Hwf|apply vs_le_refl].
  Qed.

  Lemma results_from_ast_loop_terminates : forall fuel f sigres rlen at_ vs,
      length (nodes p) < fuel -> vs_wf p vs ->
      results_from_ast_loop fx p fuel f sigres rlen at_ vs <> OutOfFuel.
  Proof.
    intros fuel f sigres. induction sigres as [|r rest IH]; intros rlen at_ vs Hfuel Hwf; cbn [results_from_ast_loop];
      [discriminate|].
    assert (Hpre : pre (nodes p) (mk_state vs [])) by (split; [exact Hwf|intros n Hn _; exact Hn]).
    destruct (scan_good fuel _ Hfuel rlen f at_ collect _ (collect_good _) Hpre) as [Hne Hok].
    apply bind_not_oof; [exact Hne|]. intros s Hs. destruct (Hok s Hs) as [Hwf' _].
    apply bind_not_oof; [apply IH; assumption|]. intros [more vs'] _. discriminate.
  Qed.

  Lemma results_from_ast_terminates : forall fuel f sigres,
      length (nodes p) < fuel -> results_from_ast fx p fuel f sigres [] <> OutOfFuel.
  Proof.
    intros fuel f sigres Hfuel. unfold results_from_ast. destruct (nth_error p f); [|discriminate].
    apply bind_not_oof; [apply results_from_ast_loop_terminates; [exact Hfuel|apply vs_wf_nil]|].
    intros [ls vs] _. discriminate.
  Qed.

  Theorem results_of_terminates : forall fuel en sigres,
      length (nodes p) < fuel -> results_of fx p fuel en sigres <> OutOfFuel.
  Proof.
    intros fuel en sigres Hfuel. unfold results_of.
    destruct (Nat.eqb (length sigres) 0); [discriminate|].
    destruct en as [f|[f|]| |]; try discriminate;
      (apply bind_not_oof; [apply results_from_ast_terminates, Hfuel|discriminate]).
  Qed.
End Termination.

(* the unrepaired visited set does not cut the recursion *)

(* func Rec(n int) (int, error) { return Rec(n - 1) } *)
Definition rd_int := mk_rdecl TInt (bs "int") None.
Definition rd_err := mk_rdecl TError (bs "error") None.
Definition rec_call := mk_call true [rd_int; rd_err] [false] (TgBody 0) 0 0%N.
Definition prog_rec : prog :=
  [mk_fdef 0 [rd_int; rd_err] (Some [SReturn 0%N (Some [ECall rec_call [EVal (mk_alt (bs "int") false TInt XOther 0 0%N)]])])].

Lemma rec_loops : forall fx, fx_visits fx = false ->
  forall fuel k s, st_vs s = [(0, [true; false])] -> scan fx prog_rec fuel 2 0 1 k s = OutOfFuel.
Proof.
  intros fx Hfx. induction fuel as [|fuel IH]; intros k s Hs; [reflexivity|].
  cbn [scan]. unfold scan_body. cbn [nth_error prog_rec f_body nres f_res length].
  rewrite Hfx, Hs. cbn.
  rewrite IH; [reflexivity|reflexivity].
Qed.

Lemma rec_diverges : forall fx, fx_visits fx = false ->
  forall fuel, results_of fx prog_rec fuel (EnBody 0) [rd_int; rd_err] = OutOfFuel.
Proof.
  intros fx Hfx [|fuel]; [reflexivity|].
  unfold results_of. cbn [length Nat.eqb]. unfold results_from_ast. cbn [nth_error prog_rec].
  cbn [results_from_ast_loop length]. cbn [scan]. unfold scan_body at 1.
  cbn [nth_error prog_rec f_body nres f_res length st_vs]. rewrite Hfx. cbn. rewrite Hfx. cbn.
  rewrite rec_loops; [reflexivity|exact Hfx|reflexivity].
Qed.

Lemma results_from_ast_loop_shape : forall fx p fuel f sigres rlen at_ vs ls vs',
    results_from_ast_loop fx p fuel f sigres rlen at_ vs = Ok (ls, vs') ->
    length ls = length sigres /\ Forall (fun l => l <> []) ls.
Proof.
  intros fx p fuel f sigres. induction sigres as [|r rest IH]; intros rlen at_ vs ls vs' H; cbn [results_from_ast_loop] in H.
  - injection H as <- _. split; [reflexivity|constructor].
  - destruct (scan fx p fuel rlen f at_ collect (mk_state vs [])) as [s| |]; cbn [bind] in H; try discriminate.
    destruct (results_from_ast_loop fx p fuel f rest rlen (S at_) (st_vs s)) as [[more vs'']| |] eqn:E; cbn [bind] in H;
      try discriminate.
    injection H as <- _. destruct (IH _ _ _ _ _ E) as [Hl Hne]. split; [cbn; now rewrite Hl|].
    constructor; [|exact Hne]. destruct (rev (st_out s)); cbn; discriminate.
Qed.

Lemma zip_app_shape : forall a b, length (zip_app a b) = length a /\
    (Forall (fun l => l <> []) a -> Forall (fun l : list alt => l <> []) (zip_app a b)).
Proof.
  induction a as [|x a IH]; intros b; [split; [reflexivity|auto]|].
  destruct b as [|y b]; [split; [reflexivity|auto]|]. cbn [zip_app]. destruct (IH b) as [Hl Hf].
  split; [cbn; now rewrite Hl|]. intros H. inversion H; subst. constructor; [|auto].
  destruct x; [congruence|discriminate].
Qed.

Lemma from_signature_shape : forall sigres,
    length (from_signature sigres) = length sigres /\ Forall (fun l => l <> []) (from_signature sigres).
Proof.
  intros. unfold from_signature. split; [apply map_length|].
  induction sigres; cbn; constructor; [discriminate|assumption].
Qed.

(* with the repaired Concat and fallback: n lists, none empty *)
Lemma results_of_shape : forall fx p fuel en sigres ls n,
    fx_concat fx = true -> fx_fallback fx = true ->
    (forall f, en = EnBody f -> f < length p) ->
    results_of fx p fuel en sigres = Ok (ls, n) ->
    n = length sigres /\ length ls = n /\ Forall (fun l => l <> []) ls.
Proof.
  intros fx p fuel en sigres ls n Hfx Hfb Hin H. unfold results_of in H.
  destruct (from_signature_shape sigres) as [Hl Hne].
  destruct (Nat.eqb_spec (length sigres) 0) as [E0|_].
  - injection H as <- <-. rewrite E0. repeat split; constructor.
  - destruct en as [f|fo| |].
    + unfold results_from_ast in H. destruct (nth_error p f) eqn:Hf.
      * destruct (results_from_ast_loop fx p fuel f sigres (length sigres) 0 []) as [[ls0 vs]| |] eqn:E; cbn [bind] in H;
          try discriminate.
        injection H as <- <-. destruct (results_from_ast_loop_shape _ _ _ _ _ _ _ _ _ _ E). auto.
      * specialize (Hin f eq_refl). apply nth_error_None in Hf. lia.
    + destruct (match fo with Some f => results_from_ast fx p fuel f sigres [] | None => Ok [] end) as [inner| |];
        cbn [bind] in H; try discriminate.
      injection H as <- <-. unfold concat_results. rewrite Hfx.
      destruct (Nat.eqb (length (from_signature sigres)) (length inner)); [|auto].
      destruct (zip_app_shape (from_signature sigres) inner) as [Hl2 Hne2]. rewrite Hl2. auto.
    + injection H as <- <-. auto.
    + rewrite Hfb in H. injection H as <- <-. auto.
Qed.

(* without the fallback, a signature registered under an unhandled node kind gets no list *)
Lemma other_unfixed_loses : forall fx p fuel sigres,
    fx_fallback fx = false -> sigres <> [] ->
    results_of fx p fuel EnOther sigres = Ok ([], length sigres) /\ 0 < length sigres.
Proof.
  intros fx p fuel sigres Hfx Hne. unfold results_of. destruct sigres as [|r rest]; [congruence|].
  cbn [length Nat.eqb]. rewrite Hfx. split; [reflexivity|apply Nat.lt_0_succ].
Qed.

(* the unrepaired Concat loses every list *)
Lemma concat_unfixed_loses : forall fx p fuel fo sigres,
    fx_concat fx = false -> sigres <> [] ->
    forall ls n, results_of fx p fuel (EnSelector fo) sigres = Ok (ls, n) -> ls = [] /\ n = length sigres /\ 0 < n.
Proof.
  intros fx p fuel fo sigres Hfx Hne ls n H. unfold results_of in H.
  destruct sigres as [|r rest]; [congruence|]. cbn [length Nat.eqb] in H.
  destruct (match fo with Some f => results_from_ast fx p fuel f (r :: rest) [] | None => Ok [] end); cbn [bind] in H;
    try discriminate.
  unfold concat_results in H. rewrite Hfx in H. injection H as <- <-. repeat split. apply Nat.lt_0_succ.
Qed.

(* Literal-only functions: for a function whose return statements list only plain expressions (literals,
   operators on them, nil / true / false), the alternatives at each position are exactly those values, in source
   order.  Holds for the code before and after the repairs. *)

Lemma opt_all_nth : forall {A} (l : list (option A)) r i x,
    opt_all l = Some r -> nth_error l i = Some x -> exists a, x = Some a /\ nth_error r i = Some a.
Proof.
  intros A. induction l as [|o l IH]; intros r i x H Hn; [destruct i; discriminate|].
  cbn in H. destruct o as [a|]; [|discriminate]. destruct (opt_all l) as [r'|] eqn:E; [|discriminate].
  injection H as <-. destruct i; cbn in *.
  - injection Hn as <-. eauto.
  - eapply IH; eauto.
Qed.

Lemma opt_all_length : forall {A} (l : list (option A)) r, opt_all l = Some r -> length r = length l.
Proof.
  intros A. induction l as [|o l IH]; intros r H; cbn in H; [injection H as <-; reflexivity|].
  destruct o; [|discriminate]. destruct (opt_all l) eqn:E; [|discriminate]. injection H as <-. cbn. f_equal. apply IH. reflexivity.
Qed.

Lemma last_match_until_none : forall target evs acc, last_match target None evs acc = acc.
Proof. intros target. induction evs as [|[a|endp es] r IH]; intros acc; cbn; auto. Qed.

(* the searches of assignedResultsUntil hand back what they were given, or the position of a match *)
Lemma last_lhs_spec : forall target ls i acc,
    last_lhs target ls i acc = acc \/
    exists j l, last_lhs target ls i acc = Some (i + j) /\ nth_error ls j = Some l /\ lhs_matches target l = true.
Proof.
  intros target. induction ls as [|l r IH]; intros i acc; cbn; [left; reflexivity|].
  destruct (IH (S i) (if lhs_matches target l then Some i else acc)) as [E|(j & l' & E & H)]; rewrite E.
  - destruct (lhs_matches target l) eqn:M; [right; exists 0, l; rewrite Nat.add_0_r; auto|left; reflexivity].
  - right. exists (S j), l'. rewrite Nat.add_succ_r. auto.
Qed.

Lemma last_lhs_nomatch : forall target ls i acc,
    (forall l, In l ls -> lhs_matches target l = false) -> last_lhs target ls i acc = acc.
Proof.
  intros target ls i acc H. destruct (last_lhs_spec target ls i acc) as [E|(j & l & _ & Hn & Hm)]; [exact E|].
  rewrite (H l (nth_error_In _ _ Hn)) in Hm. discriminate.
Qed.

Lemma last_match_spec : forall target until evs acc,
    last_match target until evs acc = acc \/
    exists a i l, last_match target until evs acc = Some (a, i) /\ In (EvAssign a) evs /\
                  nth_error (as_lhs a) i = Some l /\ lhs_matches target l = true.
Proof.
  intros target until. induction evs as [|[a0|endp es] r IH]; intros acc; cbn [last_match]; [left; reflexivity| |].
  - edestruct IH as [E|(a & i & l & E & Hin & H)]; rewrite E; [|right; exists a, i, l; cbn; auto].
    destruct until as [u|]; [|left; reflexivity]. destruct (N.ltb (as_pos a0) u); [|left; reflexivity].
    destruct (last_lhs_spec target (as_lhs a0) 0 None) as [E0|(j & l & E0 & H)]; rewrite E0; [left; reflexivity|].
    right. exists a0, j, l. cbn. auto.
  - destruct (IH acc) as [E|(a & i & l & E & Hin & H)]; [left; exact E|right; exists a, i, l; cbn; auto].
Qed.

Lemma last_match_unassigned : forall o until evs acc,
    ~ In o (lhs_objs evs) -> last_match (Some o) until evs acc = acc.
Proof.
  intros o until evs acc Hn. destruct (last_match_spec (Some o) until evs acc) as [E|(a & i & l & _ & Hin & Hl & Hm)]; [exact E|].
  (* an identifier or a selector that denotes o puts o among the assigned objects *)
  destruct Hn. apply in_flat_map. exists (EvAssign a). split; [exact Hin|].
  apply in_flat_map. exists l. split; [exact (nth_error_In _ _ Hl)|].
  destruct l as [[o'|]|[o'|]|]; cbn in Hm; try discriminate; apply N.eqb_eq in Hm; subst o'; left; reflexivity.
Qed.

Lemma existsb_false_notin : forall o l, existsb (N.eqb o) l = false -> ~ In o l.
Proof.
  intros o l H Hin. assert (existsb (N.eqb o) l = true) by (apply existsb_exists; exists o; split; [exact Hin|apply N.eqb_refl]).
  congruence.
Qed.

Lemma nth_error_Some_exists : forall {A} (l : list A) i, i < length l -> exists x, nth_error l i = Some x.
Proof.
  intros A l i H. apply nth_error_Some in H. destruct (nth_error l i); [eauto|congruence].
Qed.

Section Literal.
  Variable fx : fixes.
  Variable p : prog.
  Variable rec : nat -> nat -> nat -> cont -> state -> res state.
  Variable fd : fdef.
  Variable evs : list event.

  Definition row_of (ev : event) : list (option (list alt)) :=
    match ev with
    | EvReturn _ (Some es) =>
        if Nat.eqb (length es) (nres fd) then [opt_all (map (plain_expr (lhs_objs evs)) es)] else [None]
    | EvReturn _ None => [None]
    | EvAssign _ => []
    end.

  (* the consumer of resultsFromAstAt on a plain value: it is collected, nothing else happens *)
  Lemma post_plain : forall a s,
      plain_alt (lhs_objs evs) a = true ->
      post fx p rec (nres fd) (f_pkg fd) evs collect a s = Ok (mk_state (st_vs s) (a :: st_out s)).
  Proof.
    intros a s H. unfold post, plain_alt in *. destruct (a_x a) as [|resolved o|o]; [reflexivity| |discriminate].
    destruct resolved; [discriminate|]. apply negb_true_iff in H. apply existsb_false_notin in H.
    cbn [collect bind]. unfold assigned_until.
    destruct (Nat.eqb (a_pkg a) (f_pkg fd)).
    - rewrite last_match_unassigned by exact H. reflexivity.
    - rewrite last_match_until_none. reflexivity.
  Qed.

  Lemma rows_cons : forall ev evs' rows,
      opt_all (flat_map row_of (ev :: evs')) = Some rows ->
      match ev with
      | EvAssign _ => opt_all (flat_map row_of evs') = Some rows
      | EvReturn _ None => False
      | EvReturn _ (Some es) =>
          length es = nres fd /\
          exists row rows', opt_all (map (plain_expr (lhs_objs evs)) es) = Some row
                            /\ opt_all (flat_map row_of evs') = Some rows' /\ rows = row :: rows'
      end.
  Proof.
    intros [a|endp [es|]] evs' rows H; cbn [flat_map row_of app] in H; [exact H| |discriminate].
    destruct (Nat.eqb_spec (length es) (nres fd)) as [El|_]; cbn [app opt_all] in H; [|discriminate].
    destruct (opt_all (map (plain_expr (lhs_objs evs)) es)) as [row|]; [|discriminate].
    destruct (opt_all (flat_map row_of evs')) as [rows'|]; [|discriminate]. injection H as <-. eauto 6.
  Qed.

  Lemma rows_length : forall evs' rows,
      opt_all (flat_map row_of evs') = Some rows -> Forall (fun row => length row = nres fd) rows.
  Proof.
    induction evs' as [|ev r IH]; intros rows H; [injection H as <-; constructor|].
    apply rows_cons in H. destruct ev as [a|endp [es|]]; [auto| |contradiction].
    destruct H as (El & row & rows' & Er & Er' & ->). constructor; [|auto].
    apply opt_all_length in Er. rewrite map_length in Er. now rewrite Er.
  Qed.

  Lemma returns_loop_plain : forall at_ evs' rows s,
      at_ < nres fd ->
      opt_all (flat_map row_of evs') = Some rows ->
      returns_loop fx p rec (nres fd) fd evs evs' at_ collect s
      = Ok (mk_state (st_vs s) (rev (column rows at_) ++ st_out s)).
  Proof.
    intros at_ evs'. induction evs' as [|ev r IH]; intros rows s Hlt H.
    - injection H as <-. destruct s; reflexivity.
    - apply rows_cons in H. cbn [returns_loop]. destruct ev as [a|endp [es|]]; [auto| |contradiction].
      destruct H as (El & row & rows' & Er & Er' & ->).
      destruct (nth_error_Some_exists es at_) as [e He]; [now rewrite El|].
      destruct (opt_all_nth _ _ at_ (plain_expr (lhs_objs evs) e) Er) as [a [Ha Hra]].
      { rewrite nth_error_map, He. reflexivity. }
      unfold raroa. rewrite El, Nat.ltb_irrefl, He.
      destruct e as [a0|c args|f a0]; cbn in Ha; try discriminate.
      destruct (plain_alt (lhs_objs evs) a0) eqn:Ep; [|discriminate]. injection Ha as ->.
      cbn [andb value_or_call]. rewrite post_plain by exact Ep. cbn [bind].
      rewrite (IH rows' _ Hlt Er'). cbn [st_vs st_out]. f_equal. f_equal.
      unfold column. cbn [flat_map]. rewrite Hra. cbn [app rev]. rewrite <- app_assoc. reflexivity.
  Qed.
End Literal.

Lemma results_from_ast_loop_plain : forall fx p fuel f fd body rows,
    nth_error p f = Some fd -> f_body fd = Some body ->
    opt_all (flat_map (row_of fd (flatten_all body)) (flatten_all body)) = Some rows ->
    (forall at_, at_ < nres fd -> column rows at_ <> []) ->
    forall sigres at_ vs,
      at_ + length sigres = nres fd -> vs_wf p vs -> (forall j, at_ <= j -> marked vs (f, j) = false) ->
      exists vs', results_from_ast_loop fx p (S fuel) f sigres (nres fd) at_ vs
                  = Ok (map (column rows) (seq at_ (length sigres)), vs').
Proof.
  intros fx p fuel f fd body rows Hfd Eb Hrows Hcol.
  induction sigres as [|r rest IH]; intros at_ vs Hlen Hwf Hfresh; cbn [results_from_ast_loop length seq map]; [eauto|].
  cbn [length] in Hlen. assert (Hlt : at_ < nres fd) by lia.
  pose proof (visited_spec (fx_visits fx) p vs f fd at_ Hwf Hfd) as Hv.
  rewrite (proj2 (Nat.ltb_lt _ _) Hlt), (Hfresh at_ (le_n _)) in Hv. destruct Hv as (vs1 & Hv & Hwf1 & _ & Hnew & _).
  cbn [scan]. unfold scan_body. rewrite Hfd, Eb. cbn [st_vs]. rewrite Hv. cbn [bind].
  rewrite (returns_loop_plain fx p (scan fx p fuel) fd _ at_ _ rows _ Hlt Hrows).
  cbn [bind st_out st_vs]. rewrite app_nil_r, rev_involutive.
  destruct (column rows at_) eqn:Ec; [destruct (Hcol at_ Hlt Ec)|]. cbn [is_nil].
  destruct (IH (S at_) vs1 ltac:(lia) Hwf1) as [vs' E]; [|rewrite E; cbn [bind]; eauto].
  intros j Hj. destruct (marked vs1 (f, j)) eqn:M; [|reflexivity].
  destruct (Hnew _ M) as [M0|[= ->]]; [rewrite Hfresh in M0 by lia; discriminate | lia].
Qed.

Theorem literal_exact : forall fx p fuel f fd rows,
    nth_error p f = Some fd -> plain_returns fd = Some rows -> 0 < fuel ->
    results_of fx p fuel (EnBody f) (f_res fd)
    = Ok (map (column rows) (seq 0 (nres fd)), nres fd).
Proof.
  intros fx p [|fuel] f fd rows Hfd Hplain Hfuel; [inversion Hfuel|].
  unfold plain_returns in Hplain. destruct (f_body fd) as [body|] eqn:Eb; [|discriminate].
  change (opt_all (flat_map _ (flatten_all body))) with (opt_all (flat_map (row_of fd (flatten_all body)) (flatten_all body))) in Hplain.
  destruct (opt_all (flat_map _ (flatten_all body))) as [[|r0 rs]|] eqn:Hrows; try discriminate. injection Hplain as <-.
  (* every column below nres fd has the entry of the first row *)
  assert (Hcol : forall at_, at_ < nres fd -> column (r0 :: rs) at_ <> []).
  { intros at_ Hlt. pose proof (rows_length _ _ _ _ Hrows) as Hl. inversion Hl as [|? ? Hl0 _]; subst.
    unfold column. cbn [flat_map]. destruct (nth_error_Some_exists r0 at_) as [a ->]; [now rewrite Hl0|discriminate]. }
  unfold results_of. destruct (Nat.eqb_spec (length (f_res fd)) 0) as [E0|_].
  - unfold nres. rewrite E0. reflexivity.
  - unfold results_from_ast. rewrite Hfd.
    destruct (results_from_ast_loop_plain fx p fuel f fd body _ Hfd Eb Hrows Hcol (f_res fd) 0 [] eq_refl (vs_wf_nil p) (fun j _ => eq_refl))
      as [vs' E].
    fold (nres fd). rewrite E. reflexivity.
Qed.
