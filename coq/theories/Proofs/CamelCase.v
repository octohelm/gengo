(* Lemmas for C19 about the camelcase model (Model/CamelCase.v), in section S for EVERY rune type and EVERY classifier
   [cls]: the repaired split is total and never panics ([split_total], [split_never_panics]); the words of a split
   concatenate to the input and none of them is empty ([split_lossless], [split_valid_nonempty_words]) — both read off
   what the accumulator of each of the two loops means ([pass1_concat], [pass2_concat]); the case conversions built on
   the split are total ([conv_total]).  [split_old_refuted]: the loop before the repair is not total ("_id"). *)
Require Import Gengo.Base.Bytes Gengo.Model.CamelCase.

Section S.
  Variable rune : Type.
  Variable cls : rune -> class.
  Notation pass1 := (pass1 rune cls).
  Notation pass2 := (pass2 rune cls).
  Notation split_runes := (split_runes rune cls).
  Notation split := (split rune cls).

  Lemma pass1_fixed_ok : forall src groups last,
    exists gs, pass1 true src groups last = Ok gs.
  Proof.
    induction src as [|r rest IH]; intros groups last; cbn [CamelCase.pass1].
    - eauto.
    - destruct groups as [|g gs]; cbn [is_nil negb andb].
      + apply IH.
      + destruct (joins (cls r) last); cbn; apply IH.
  Qed.

  Lemma pass1_no_fuel : forall fixed src groups last, pass1 fixed src groups last <> OutOfFuel.
  Proof.
    intros fixed; induction src as [|r rest IH]; intros groups last; cbn [CamelCase.pass1].
    - discriminate.
    - destruct ((if fixed then negb (is_nil groups) else true) && joins (cls r) last).
      + destruct groups as [|g gs]; [discriminate|apply IH].
      + apply IH.
  Qed.

  Lemma concat_rev_cons : forall (g : list rune) gs, concat (rev (g :: gs)) = concat (rev gs) ++ g.
  Proof. intros g gs. cbn [rev]. rewrite concat_app. cbn [concat]. rewrite app_nil_r. reflexivity. Qed.

  (* what the accumulator of the first loop means *)
  Lemma pass1_concat : forall fixed src groups last gs,
    pass1 fixed src groups last = Ok gs ->
    concat (rev gs) = concat (rev groups) ++ src /\
    (Forall (fun g => g <> []) groups -> Forall (fun g => g <> []) gs).
  Proof.
    intros fixed; induction src as [|r rest IH]; intros groups last gs H; cbn [CamelCase.pass1] in H.
    - inversion H; subst. rewrite app_nil_r. auto.
    - destruct ((if fixed then negb (is_nil groups) else true) && joins (cls r) last).
      + destruct groups as [|g gs0]; [discriminate|].
        apply IH in H. destruct H as [H1 H2]. split.
        * rewrite H1, !concat_rev_cons, <- !app_assoc. reflexivity.
        * intros F. apply H2.
          constructor; [destruct g; discriminate|exact (Forall_inv_tail F)].
      + apply IH in H. destruct H as [H1 H2]. split.
        * rewrite H1, concat_rev_cons, <- app_assoc. reflexivity.
        * intros F. apply H2. constructor; [discriminate|assumption].
  Qed.

  Lemma removelast_last : forall (l : list rune) a, l <> [] -> removelast l ++ [last l a] = l.
  Proof. intros l a H. symmetry. apply app_removelast_last. exact H. Qed.

  (* the invariant of the second loop: every group handed over by the first loop is
     non-empty, hence  carry ++ g  (= runes[i]) and  g2  (= runes[i+1]) are, and all four
     slice accesses of an iteration are in range *)
  Lemma pass2_in_range : forall gs carry,
    Forall (fun g => g <> []) gs -> exists out, pass2 carry gs = Ok out.
  Proof.
    induction gs as [|g tl IH]; intros carry F; cbn [CamelCase.pass2]; [eauto|].
    pose proof (Forall_inv F) as Hg. apply Forall_inv_tail in F.
    destruct tl as [|g2 tl']; [eauto|].
    destruct (carry ++ g) as [|a l] eqn:Eg; [destruct carry; [contradiction|discriminate]|].
    pose proof (Forall_inv F) as Hg2. destruct g2 as [|b l2]; [contradiction|].
    cbn [idx0 idx_last slice_init bind].
    assert (K : forall c k, (forall rest, exists out : list (list rune), k rest = Ok out) ->
                exists out, bind (pass2 c ((b :: l2) :: tl')) k = Ok out).
    { intros c k Hk. destruct (IH c F) as [rest ->]. apply Hk. }
    destruct (r_upper rune cls a); [destruct (r_lower rune cls b)|]; cbn [bind]; apply K; eauto.
  Qed.

  (* the accesses ARE checked: an empty group in either position makes the loop panic *)
  Lemma pass2_empty_group_panics : forall g tl, pass2 [] ([] :: g :: tl) = Panic.
  Proof. reflexivity. Qed.
  Lemma pass2_empty_next_group_panics : forall a g tl,
    r_upper rune cls a = true -> pass2 [] ((a :: g) :: [] :: tl) = Panic.
  Proof. intros a g tl H. cbn. rewrite H. reflexivity. Qed.

  Lemma pass2_concat : forall tl g carry out,
    pass2 carry (g :: tl) = Ok out -> concat out = carry ++ concat (g :: tl).
  Proof.
    intros tl g carry out H. cbn [CamelCase.pass2] in H. revert g carry out H.
    induction tl as [|g2 tl' IH]; intros g carry out H.
    - inversion H; subst. cbn. rewrite !app_nil_r. reflexivity.
    - rewrite concat_cons, app_assoc.
      destruct (carry ++ g) as [|a l]; [discriminate|].
      cbn [idx0 idx_last slice_init bind] in H.
      destruct (if r_upper rune cls a then _ else _) as [[|]| |]; cbn [bind] in H; try discriminate.
      + (* the last rune of this group moves to the front of the next *)
        destruct (pass2 [last (a :: l) a] (g2 :: tl')) as [rest| |] eqn:Er; try discriminate.
        cbn [bind] in H. replace out with (removelast (a :: l) :: rest) by congruence.
        rewrite concat_cons, (IH _ _ _ Er).
        rewrite app_assoc, removelast_last by discriminate. reflexivity.
      + destruct (pass2 [] (g2 :: tl')) as [rest| |] eqn:Er; try discriminate.
        cbn [bind] in H. replace out with ((a :: l) :: rest) by congruence.
        rewrite concat_cons, (IH _ _ _ Er). reflexivity.
  Qed.

  Lemma concat_filter_nonempty : forall (l : list (list rune)),
    concat (filter (fun g => negb (is_nil g)) l) = concat l.
  Proof.
    induction l as [|g l IH]; cbn; [reflexivity|].
    destruct g; cbn; [exact IH| rewrite IH; reflexivity].
  Qed.

  Lemma pass1_groups_nonempty : forall fixed src gs,
    pass1 fixed src [] COther = Ok gs -> Forall (fun g => g <> []) (rev gs).
  Proof.
    intros fixed src gs H. apply pass1_concat in H. destruct H as [_ H].
    apply Forall_rev. apply H. constructor.
  Qed.

  Lemma split_runes_total : forall src, exists ws, split_runes true src = Ok ws.
  Proof.
    intros src. unfold CamelCase.split_runes.
    destruct (pass1_fixed_ok src [] COther) as [gs E]. rewrite E.
    destruct (pass2_in_range (rev gs) [] (pass1_groups_nonempty _ _ _ E)) as [out ->].
    cbn [bind]. eauto.
  Qed.

  Lemma split_runes_lossless : forall fixed src ws,
    split_runes fixed src = Ok ws -> concat ws = src /\ Forall (fun w => w <> []) ws.
  Proof.
    intros fixed src ws H. unfold CamelCase.split_runes in H.
    destruct (pass1 fixed src [] COther) as [gs| |] eqn:E; try discriminate.
    destruct (pass2 [] (rev gs)) as [out| |] eqn:E2; try discriminate.
    cbn [bind] in H. inversion H; subst; clear H.
    apply pass1_concat in E. destruct E as [E _]. cbn in E. split.
    - rewrite concat_filter_nonempty. destruct (rev gs) as [|g0 gl] eqn:Er.
      + cbn in *. inversion E2; subst. cbn. congruence.
      + apply pass2_concat in E2. rewrite E2. cbn [app]. exact E.
    - apply Forall_forall. intros w Hin. apply filter_In in Hin.
      destruct Hin as [_ Hw]. destruct w; discriminate.
  Qed.

  Lemma split_total : forall s, exists ws, split true s = Ok ws.
  Proof. intros [rs|bs]; cbn; [apply split_runes_total|eauto]. Qed.

  Lemma split_never_panics : forall s, split true s <> Panic /\ split true s <> OutOfFuel.
  Proof. intros s. destruct (split_total s) as [ws ->]. split; discriminate. Qed.

  Lemma split_lossless : forall fixed s ws,
    split fixed s = Ok ws -> concat ws = content s /\ (content s <> [] -> Forall (fun w => w <> []) ws).
  Proof.
    intros fixed [rs|bs] ws H; cbn in *.
    - apply split_runes_lossless in H. destruct H; auto.
    - inversion H; subst. cbn. rewrite app_nil_r. split; [reflexivity|]. intros Hne. constructor; auto.
  Qed.

  Lemma split_valid_nonempty_words : forall fixed rs ws,
    split fixed (Valid rs) = Ok ws -> Forall (fun w => w <> []) ws.
  Proof. intros fixed rs ws H. exact (proj2 (split_runes_lossless fixed rs ws H)). Qed.

  Lemma split_invalid : forall fixed bs, split fixed (Invalid bs) = Ok [bs].
  Proof. reflexivity. Qed.

  (* the old loop panics exactly when the first rune joins the (non-existent) last group, i.e.
     when its class is RuneOther: characterisation of the pre-fix failure class *)
  Lemma pass1_old_first_other : forall r rest,
    cls r = COther -> CamelCase.pass1 rune cls false (r :: rest) [] COther = Panic.
  Proof. intros r rest H. cbn. rewrite H. reflexivity. Qed.

  Section Conv.
    Variable blen : rune -> nat.
    Variable drop1 : rune -> bool.
    Variable lower upper title : list rune -> list rune.
    Variable is_id : list rune -> bool.
    Variable id_word underscore hyphen : list rune.

    Lemma make_case_total : forall linker trans s,
      exists r, make_case rune cls blen drop1 true linker trans s = Ok r.
    Proof.
      intros linker trans s. unfold make_case.
      destruct (split_total s) as [ws ->]. eauto.
    Qed.

    Lemma conv_total : forall k s,
      exists r, conv rune cls blen drop1 lower upper title is_id id_word underscore hyphen true k s = Ok r.
    Proof.
      intros k s. unfold conv.
      destruct k as [|[|[|[|[|k]]]]]; apply make_case_total.
    Qed.
  End Conv.
End S.

(* the pre-fix loop is not total: "_id" *)
Lemma split_old_refuted :
  exists s, split crune c_cls false s = Panic.
Proof. exists (Valid [(95, COther); (105, CLower); (100, CLower)]%N). vm_compute. reflexivity. Qed.
