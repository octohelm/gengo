(* C02's crash theorem (Proofs/PipelineC02.v: the sum is written last, by open-with-truncate and one write) composed
   with the real gengo.sum parser (Proofs/WholeTorn.v): whatever point a run is killed at — between any two effects,
   or INSIDE the write of gengo.sum, leaving any prefix of its bytes — the next run skips a package only if the hash it
   computes is the one recorded by the untouched previous gengo.sum or the one the killed run was recording.
   [crash_state], DEFINED here, says which states a killed run can leave (after any number of effects, or part-way
   through the write of gengo.sum); Props/C02.v and Props/Whole.v state the crash theorems with it. *)
Require Import Gengo.Base.Bytes Gengo.Model.Pipeline Gengo.Model.Whole.
Require Import Gengo.Proofs.Pipeline Gengo.Proofs.PipelinePkg Gengo.Proofs.PipelineC02 Gengo.Proofs.WholeSum.
Require Gengo.Model.SumFile Gengo.Proofs.SumFile Gengo.Proofs.WholeTorn.
From Coq Require Import PeanoNat.

Section Crash.
  Variable E : env.
  Hypothesis Hload : e_sum_load E = SumFile.sumfile_load.
  Hypothesis Hbytes : e_sum_bytes E = SumFile.sumfile_bytes.

  (* the states a killed run can leave: after any number of effects, or part-way through the write of gengo.sum *)
  Inductive crash_state (a : args) (w : world) (gens : list generator) (s : fs) : fs -> Prop :=
  | cs_between : forall k, crash_state a w gens s (apply_all (firstn k (effects E a w gens s)) s)
  | cs_torn : forall n,
      exec_outcome E a w gens s = Done -> a_all a = true ->
      crash_state a w gens s
        (apply_effect (EAppend (sum_path w) (firstn n (e_sum_bytes E (current_sum w))))
           (apply_all (pkgs_effects E a w gens s ++ [ETruncate (sum_path w)]) s)).

  (* gengo.sum in such a state: untouched, or a prefix of the bytes being written *)
  Lemma crash_sum_content : forall a w gens s s',
    files_ok w -> crash_state a w gens s s' ->
    fs_lookup (sum_path w) s' = fs_lookup (sum_path w) s
    \/ exists n, fs_lookup (sum_path w) s' = Some (firstn n (SumFile.sumfile_bytes (current_sum w))).
  Proof.
    intros a w gens s s' Hfiles Hc. destruct Hc as [k | n Hdone Hall].
    - destruct (sum_written_last E a w gens s Hfiles) as [tail [Heff [Hnot Htail]]].
      destruct Htail as [->|[-> _]].
      + (* the run does not save: no effect is on gengo.sum *)
        left. rewrite Heff, app_nil_r. apply apply_all_other. intros e He. apply Hnot. eapply Order.firstn_In. exact He.
      + destruct (Nat.le_gt_cases k (List.length (pkgs_effects E a w gens s))) as [Hk|Hk].
        * left. apply crash_before_save; assumption.
        * right.
          rewrite Heff, firstn_app, firstn_all2 by lia. rewrite apply_all_app.
          destruct (k - List.length (pkgs_effects E a w gens s)) as [|[|d]] eqn:Hd; [lia| |].
          -- exists 0. cbn [save_effects firstn apply_all fold_left apply_effect]. apply lookup_set_same.
          -- exists (List.length (SumFile.sumfile_bytes (current_sum w))).
             cbn [save_effects firstn]. rewrite firstn_nil. cbn [apply_all fold_left apply_effect].
             rewrite lookup_set_same, lookup_set_same, Hbytes, firstn_all. reflexivity.
    - right. exists n. rewrite apply_all_app. cbn [apply_all fold_left apply_effect].
      rewrite lookup_set_same, lookup_set_same, Hbytes. reflexivity.
  Qed.

  (* a skip on the strength of a torn gengo.sum is a skip the complete file would justify too *)
  Lemma torn_skip_justified : forall a w s p m n,
    Gengo.Proofs.SumFile.kv_ok m ->
    fs_lookup (sum_path w) s = Some (firstn n (SumFile.sumfile_bytes m)) ->
    (SumFile.sum_sum m (pk_path p) = []
     \/ List.length (SumFile.sum_sum m (pk_path p)) = List.length (sum_get (current_sum w) (pk_path p))) ->
    pkg_changed a w (load_prev E a w s) p = false ->
    SumFile.sum_sum m (pk_path p) = sum_get (current_sum w) (pk_path p)
    /\ sum_get (current_sum w) (pk_path p) <> [].
  Proof.
    intros a w s p m n Hok Hs Hlen Hch.
    destruct (not_changed_inv E a w s p Hch) as [_ [_ [b [Hb [Heq Hcur]]]]]. rewrite Hs in Hb. injection Hb as <-.
    rewrite Hload in Heq.
    pose proof (WholeTorn.torn_sum_prefix m n (pk_path p) Hok) as Hp.
    rewrite <- sum_get_sum_sum, Heq in Hp.
    split; [|exact Hcur].
    destruct Hlen as [Hnil|Hlen].
    - exfalso. rewrite Hnil in Hp. destruct Hp as [t Ht]. apply Hcur.
      destruct (sum_get (current_sum w) (pk_path p)); [reflexivity | discriminate Ht].
    - symmetry. apply WholeTorn.prefix_same_length; [exact Hp | symmetry; exact Hlen].
  Qed.

  (* THE COMPOSITE.  Run 1 (a, w, gens) is killed anywhere and leaves s'.  Run 2 (any arguments, any loaded world
     w2 of the same module) skips p only if the hash of p it computed is recorded for p by the gengo.sum that run 1
     found and had not touched yet, or by the map run 1 was saving.  Side conditions: the paths and hashes run 1
     records are tokens (kv_ok: non-empty ASCII without white space; distinct paths), and a recorded hash has the
     length of the one computed now (dirhash.Hash1: "h1:" + base64 of a SHA-256) or is empty. *)
  Theorem crash_then_skip_justified : forall a w gens s s' a2 w2 p,
    files_ok w -> crash_state a w gens s s' ->
    Gengo.Proofs.SumFile.kv_ok (current_sum w) ->
    sum_path w2 = sum_path w ->
    (sum_get (current_sum w) (pk_path p) = []
     \/ List.length (sum_get (current_sum w) (pk_path p)) = List.length (sum_get (current_sum w2) (pk_path p))) ->
    pkg_changed a2 w2 (load_prev E a2 w2 s') p = false ->
    sum_get (current_sum w2) (pk_path p) <> []
    /\ ((exists b, fs_lookup (sum_path w) s = Some b
                   /\ SumFile.sum_sum (SumFile.sumfile_load b) (pk_path p) = sum_get (current_sum w2) (pk_path p))
        \/ sum_get (current_sum w) (pk_path p) = sum_get (current_sum w2) (pk_path p)).
  Proof.
    intros a w gens s s' a2 w2 p Hfiles Hcs Hok Hsp Hlen Hch.
    destruct (crash_sum_content a w gens s s' Hfiles Hcs) as [Hold | [n Hn]].
    - (* gengo.sum untouched: the ordinary reading of pkgChanged *)
      destruct (not_changed_inv E a2 w2 s' p Hch) as [_ [_ [b [Hb [Heq Hcur]]]]]. rewrite Hsp, Hold in Hb.
      split; [exact Hcur|]. left. exists b. split; [exact Hb|]. rewrite <- sum_get_sum_sum, <- Hload. exact Heq.
    - rewrite <- Hsp in Hn. rewrite (sum_get_sum_sum (current_sum w)) in Hlen |- *.
      destruct (torn_skip_justified a2 w2 s' p (current_sum w) n Hok Hn Hlen Hch) as [Heq Hne].
      exact (conj Hne (or_intror Heq)).
  Qed.
End Crash.
