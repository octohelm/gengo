(* C12: the model's commentLinesFrom (trim_space, split_nl, the "go:" filter) meets the relational
   specification [lines_of_text] of Spec/Comments.v, and that relation is functional: it holds of exactly one
   list of lines.  The specification mentions no function of the model; everything that ties the two together
   is proved here. *)
Require Import Gengo.Base.Bytes Gengo.Base.Order.
Require Gengo.Base.Assoc.
From Coq Require Import NArith Lia ZifyBool PeanoNat.
Require Import Gengo.Model.Comments Gengo.Spec.Comments.
Require Gengo.Proofs.Comments.
Require Gengo.Model.Snippet Gengo.Proofs.Snippet.

Definition ws_mem_b (w : bytes) : bool := existsb (bytes_eqb w) ws_chars.

Lemma ws_mem_b_in w : ws_mem_b w = true -> In w ws_chars.
Proof. apply existsb_bytes_eqb_in. Qed.

Lemma ws_nonempty w : In w ws_chars -> w <> [].
Proof.
  intros H ->. apply (proj1 (forallb_forall (fun w => negb (is_nil w)) ws_chars) eq_refl) in H. discriminate H.
Qed.

(* checked on the list, character by character: the model's tests recognise each at the head of a string, and
   turned round at the head of the reversed string, with its length *)
Lemma ws_table w : In w ws_chars ->
  (forall r, space_head (w ++ r) = length w) /\ (forall r, space_last (rev w ++ r) = length w).
Proof.
  revert w. apply Forall_forall. unfold ws_chars, ws_codes. cbn [map].
  repeat (constructor; [split; intros r; vm_compute; reflexivity|]). constructor.
Qed.

Lemma space_head_ws w r : In w ws_chars -> space_head (w ++ r) = length w.
Proof. intros H. apply (ws_table w H). Qed.

Lemma space_last_ws w r : In w ws_chars -> space_last (rev w ++ r) = length w.
Proof. intros H. apply (ws_table w H). Qed.

Lemma byte_code c : exists n, c = ascii_of_N n /\ N_of_ascii (ascii_of_N n) = n.
Proof. exists (N_of_ascii c). rewrite ascii_N_embedding. auto. Qed.

Lemma ws_among pre ks n :
  In n ks -> forallb (fun k => ws_mem_b (map ascii_of_N (pre ++ [k]))) ks = true ->
  In (map ascii_of_N (pre ++ [n])) ws_chars.
Proof. intros Hn H. apply ws_mem_b_in. exact (proj1 (forallb_forall _ _) H n Hn). Qed.

Lemma eqb3 a b c x y z : ((a =? x) && (b =? y) && (c =? z))%N = true -> a = x /\ b = y /\ c = z.
Proof. lia. Qed.

(* whatever the model recognises at the head is a listed character: each test pins the bytes it looks at (lia reads
   the boolean tests through ZifyBool) *)
Lemma space_head_inv s : space_head s <> 0 -> In (firstn (space_head s) s) ws_chars.
Proof.
  destruct s as [|c r]; [intros []; reflexivity|]. unfold space_head, is_ascii_space. cbv zeta.
  destruct (byte_code c) as (n & -> & ->).
  destruct ((9 <=? n) && (n <=? 13) || (n =? 32))%N eqn:E; [intros _|].
  { apply (ws_among [] [9; 10; 11; 12; 13; 32]%N n); [cbn; lia|reflexivity]. }
  clear E. destruct r as [|c1 r]; [congruence|]. destruct (byte_code c1) as (n1 & -> & ->).
  destruct ((n =? 194) && ((n1 =? 133) || (n1 =? 160)))%N eqn:E; [intros _|].
  { assert (n = 194)%N as -> by lia. apply (ws_among [194] [133; 160] n1)%N; [cbn; lia|reflexivity]. }
  clear E. destruct r as [|c2 r]; [congruence|]. destruct (byte_code c2) as (n2 & -> & ->).
  destruct ((n =? 225) && (n1 =? 154) && (n2 =? 128))%N eqn:E; [intros _|].
  { destruct (eqb3 _ _ _ _ _ _ E) as (-> & -> & ->). apply ws_mem_b_in. reflexivity. }
  clear E. destruct ((n =? 226) && (n1 =? 128) &&
            (((128 <=? n2) && (n2 <=? 138)) || (n2 =? 168) || (n2 =? 169) || (n2 =? 175)))%N eqn:E; [intros _|].
  { assert (n = 226 /\ n1 = 128)%N as (-> & ->) by lia.
    apply (ws_among [226; 128] [128; 129; 130; 131; 132; 133; 134; 135; 136; 137; 138; 168; 169; 175] n2)%N;
      [cbn; lia|reflexivity]. }
  clear E. destruct ((n =? 226) && (n1 =? 129) && (n2 =? 159))%N eqn:E; [intros _|].
  { destruct (eqb3 _ _ _ _ _ _ E) as (-> & -> & ->). apply ws_mem_b_in. reflexivity. }
  clear E. destruct ((n =? 227) && (n1 =? 128) && (n2 =? 128))%N eqn:E; [intros _|congruence].
  destruct (eqb3 _ _ _ _ _ _ E) as (-> & -> & ->). apply ws_mem_b_in. reflexivity.
Qed.

Lemma space_head_0_iff s : space_head s = 0 <-> ~ starts_ws s.
Proof.
  split.
  - intros H (w & r & Hw & ->). rewrite (space_head_ws w r Hw) in H.
    apply ws_nonempty in Hw. destruct w; [congruence|discriminate].
  - intros H. destruct (Nat.eq_dec (space_head s) 0) as [E|E]; [exact E|]. exfalso. apply H.
    exists (firstn (space_head s) s), (skipn (space_head s) s).
    split; [exact (space_head_inv s E)|symmetry; apply firstn_skipn].
Qed.

(* the same at the end of a string (the model looks at the reversed string, and tests its head turned round) *)
Lemma space_last_inv r0 : space_last r0 <> 0 -> In (rev (firstn (space_last r0) r0)) ws_chars.
Proof.
  destruct r0 as [|c r]; [intros []; reflexivity|]. unfold space_last.
  destruct (is_ascii_space c) eqn:Ea; [intros _|].
  { pose proof (space_head_inv [c]) as H. unfold space_head in H. rewrite Ea in H. apply H. discriminate. }
  destruct r as [|c0 r1]; [congruence|].
  destruct (Nat.eqb (space_head [c0; c]) 2) eqn:E2; [intros _|].
  { apply Nat.eqb_eq in E2. pose proof (space_head_inv [c0; c]) as H. rewrite E2 in H. apply H. discriminate. }
  destruct r1 as [|cm r2]; [congruence|].
  destruct (Nat.eqb (space_head [cm; c0; c]) 3) eqn:E3; [intros _|congruence].
  apply Nat.eqb_eq in E3. pose proof (space_head_inv [cm; c0; c]) as H. rewrite E3 in H. apply H. discriminate.
Qed.

Lemma space_last_0_iff s : space_last (rev s) = 0 <-> ~ ends_ws s.
Proof.
  split.
  - intros H (w & r & Hw & ->). rewrite rev_app_distr, (space_last_ws w _ Hw) in H.
    apply ws_nonempty in Hw. destruct w; [congruence|discriminate].
  - intros H. destruct (Nat.eq_dec (space_last (rev s)) 0) as [E|E]; [exact E|]. exfalso. apply H.
    exists (rev (firstn (space_last (rev s)) (rev s))), (rev (skipn (space_last (rev s)) (rev s))).
    split; [exact (space_last_inv _ E)|]. rewrite <- rev_app_distr, firstn_skipn, rev_involutive. reflexivity.
Qed.

Lemma blank_nil : blank [].
Proof. exists []. split; [constructor|reflexivity]. Qed.

Lemma blank_cons_ws w s : In w ws_chars -> blank s -> blank (w ++ s).
Proof. intros Hw (ws & F & ->). exists (w :: ws). split; [constructor; assumption|reflexivity]. Qed.

Lemma blank_snoc_ws w s : In w ws_chars -> blank s -> blank (s ++ w).
Proof.
  intros Hw (ws & F & ->). exists (ws ++ [w]). split.
  - apply Forall_app. split; [exact F|constructor; [exact Hw|constructor]].
  - rewrite concat_app. cbn. rewrite app_nil_r. reflexivity.
Qed.

Lemma blank_app a c : blank a -> blank c -> blank (a ++ c).
Proof.
  intros (ws & F & ->) (ws' & F' & ->). exists (ws ++ ws'). split.
  - apply Forall_app. auto.
  - rewrite concat_app. reflexivity.
Qed.

Lemma blank_concat ws : forallb ws_mem_b ws = true -> blank (concat ws).
Proof.
  intros H. exists ws. split; [|reflexivity]. apply Forall_forall. intros w Hw. apply ws_mem_b_in.
  exact (proj1 (forallb_forall _ _) H w Hw).
Qed.

Lemma blank_rev_cases s : blank s -> s = [] \/ exists s' w, In w ws_chars /\ blank s' /\ s = s' ++ w.
Proof.
  intros (ws & F & ->). destruct ws as [|w0 ws0] using rev_ind; [left; reflexivity|]. right.
  apply Forall_app in F. destruct F as [F Fw]. inversion Fw; subst.
  exists (concat ws0), w0. split; [assumption|]. split; [exists ws0; auto|].
  rewrite concat_app. cbn. rewrite app_nil_r. reflexivity.
Qed.

(* no character of the list begins with a byte that occurs inside (after the first byte of) a listed character:
   UTF-8 continuation bytes are never lead bytes.  Checked on the list. *)
Definition hd_is (h : ascii) (w : bytes) : bool := match w with c :: _ => Ascii.eqb c h | [] => false end.
Definition no_straddle_b : bool :=
  forallb (fun w => forallb (fun h => negb (existsb (hd_is h) ws_chars)) (tl w)) ws_chars.

Lemma no_straddle w h r : In w ws_chars -> In h (tl w) -> ~ In (h :: r) ws_chars.
Proof.
  intros Hw Hh Hw2.
  assert (Hb : no_straddle_b = true) by (vm_compute; reflexivity).
  unfold no_straddle_b in Hb. rewrite forallb_forall in Hb. specialize (Hb _ Hw).
  rewrite forallb_forall in Hb. specialize (Hb _ Hh). apply negb_true_iff in Hb.
  apply diff_false_true. rewrite <- Hb. apply existsb_exists. exists (h :: r). split; [exact Hw2|apply Ascii.eqb_refl].
Qed.

(* a non-empty string that does not start with white space still does not when blanks follow it *)
Lemma space_head_core_suf core suf :
  core <> [] -> ~ starts_ws core -> blank suf -> space_head (core ++ suf) = 0.
Proof.
  intros Hne Hns Hb. apply space_head_0_iff. intros (w & r & Hw & E).
  apply app_eq_app in E. destruct E as [l [[E1 E2]|[E1 E2]]].
  - apply Hns. exists w, l. auto.
  - (* w = core ++ l, suf = l ++ r *)
    destruct l as [|h l'].
    + apply Hns. exists w, []. rewrite app_nil_r in E1. rewrite app_nil_r. auto.
    + destruct Hb as (ws & F & Es). destruct ws as [|w2 ws'].
      * cbn in Es. rewrite Es in E2. discriminate.
      * inversion F as [|? ? Hw2 F']; subst.
        pose proof (ws_nonempty _ Hw2) as Hne2. destruct w2 as [|h2 r2]; [congruence|].
        cbn in E2. inversion E2; subst h2.
        destruct core as [|c core']; [congruence|].
        apply (no_straddle (c :: core' ++ h :: l') h r2); [exact Hw| |exact Hw2].
        cbn. apply in_or_app. right. left. reflexivity.
Qed.

Lemma ws_len_pos w : In w ws_chars -> 0 < length w.
Proof. intros H. apply ws_nonempty in H. destruct w; [congruence|cbn; lia]. Qed.

(* The two trimming loops are one loop: [trim_left_space] runs it with the test [space_head], [trim_left_space_rev]
   with [space_last].  [test] gives the length of the character at the head (0 for none), [C] the characters it
   recognises; what the loop removes is a sequence of them, and it stops where the test fails. *)
Section Loop.
  Variables (test : bytes -> nat) (C : bytes -> Prop).
  Hypothesis test_inv : forall s, test s <> 0 -> C (firstn (test s) s).
  Hypothesis test_ws : forall w r, C w -> test (w ++ r) = length w.
  Hypothesis C_nonempty : forall w, C w -> w <> [].

  Fixpoint trim_by (fuel : nat) (s : bytes) : bytes :=
    match fuel with
    | O => s
    | S f => match test s with
             | O => s
             | n => trim_by f (skipn n s)
             end
    end.

  (* [P]: any set of strings that holds [] and is closed under putting a recognised character in front *)
  Lemma trim_by_sound (P : bytes -> Prop) : P [] -> (forall w p, C w -> P p -> P (w ++ p)) ->
    forall fuel s, length s <= fuel -> exists p, P p /\ s = p ++ trim_by fuel s /\ test (trim_by fuel s) = 0.
  Proof.
    intros P0 Pc. induction fuel as [|f IH]; intros s Hl.
    - destruct s; [|cbn in Hl; lia]. exists []. split; [exact P0|]. split; [reflexivity|].
      destruct (Nat.eq_dec (test []) 0) as [E|E]; [exact E|]. destruct (C_nonempty _ (test_inv _ E)). apply firstn_nil.
    - cbn [trim_by]. destruct (test s) as [|n] eqn:E.
      + exists []. auto.
      + destruct (IH (skipn (S n) s)) as (p & Hp & Hr & H0); [rewrite skipn_length; lia|].
        exists (firstn (S n) s ++ p). split; [apply Pc; [rewrite <- E; apply test_inv; congruence|exact Hp]|].
        split; [|exact H0]. rewrite <- app_assoc, <- Hr. symmetry. apply firstn_skipn.
  Qed.

  Lemma chars_length_le ws : Forall C ws -> length ws <= length (concat ws).
  Proof.
    induction 1 as [|w ws Hw F IH]; cbn; [lia|]. rewrite app_length.
    apply C_nonempty in Hw. destruct w; [congruence|cbn; lia].
  Qed.

  Lemma trim_by_complete : forall ws rest fuel, Forall C ws -> length ws <= fuel -> test rest = 0 ->
    trim_by fuel (concat ws ++ rest) = rest.
  Proof.
    induction ws as [|w ws IH]; intros rest fuel F Hl H0.
    - cbn. destruct fuel; cbn; [reflexivity|]. rewrite H0. reflexivity.
    - inversion F as [|? ? Hw F']; subst. destruct fuel as [|f]; [cbn in Hl; lia|].
      cbn [trim_by concat]. rewrite <- app_assoc, (test_ws w _ Hw).
      destruct (length w) as [|k] eqn:Ek; [apply C_nonempty in Hw; destruct w; [congruence|discriminate]|].
      rewrite <- Ek, skipn_app_exact. apply IH; [assumption|cbn in Hl; lia|assumption].
  Qed.
End Loop.

Lemma trim_left_sound : forall fuel s, length s <= fuel ->
  exists pre, blank pre /\ s = pre ++ trim_left_space fuel s /\ space_head (trim_left_space fuel s) = 0.
Proof. exact (trim_by_sound space_head _ space_head_inv ws_nonempty blank blank_nil blank_cons_ws). Qed.

Lemma trim_left_complete : forall ws rest fuel,
  Forall (fun w => In w ws_chars) ws -> length ws <= fuel -> space_head rest = 0 ->
  trim_left_space fuel (concat ws ++ rest) = rest.
Proof. exact (trim_by_complete space_head _ (fun w r => space_head_ws w r) ws_nonempty). Qed.

Lemma concat_length_le (ws : list bytes) :
  Forall (fun w => In w ws_chars) ws -> length ws <= length (concat ws).
Proof. exact (chars_length_le _ ws_nonempty ws). Qed.

(* on the right the loop runs over the reversed string: its characters are the listed ones read backwards *)
Definition ws_rev (w : bytes) : Prop := In (rev w) ws_chars.

Lemma ws_rev_nonempty w : ws_rev w -> w <> [].
Proof. intros H E. exact (ws_nonempty _ H (f_equal (@rev _) E)). Qed.

Lemma space_last_ws_rev w r : ws_rev w -> space_last (w ++ r) = length w.
Proof. intros H. rewrite <- (rev_involutive w) at 1. rewrite (space_last_ws _ r H). apply rev_length. Qed.

Lemma rev_concat {A} (ls : list (list A)) : rev (concat ls) = concat (map (@rev A) (rev ls)).
Proof.
  induction ls as [|l ls IH]; cbn; [reflexivity|].
  rewrite rev_app_distr, IH, map_app, concat_app. cbn. rewrite app_nil_r. reflexivity.
Qed.

Lemma blank_rev s : blank s -> exists ws, Forall ws_rev ws /\ rev s = concat ws.
Proof.
  intros (ws & F & ->). exists (map (@rev _) (rev ws)). split; [|apply rev_concat].
  apply Forall_map, Forall_rev. revert F. apply Forall_impl. intros w. unfold ws_rev. rewrite rev_involutive. auto.
Qed.

Lemma trim_right_sound : forall fuel r, length r <= fuel ->
  exists suf, blank suf /\ r = rev suf ++ trim_left_space_rev fuel r /\ space_last (trim_left_space_rev fuel r) = 0.
Proof.
  intros fuel r Hl.
  destruct (trim_by_sound space_last _ space_last_inv ws_rev_nonempty (fun p => blank (rev p)) blank_nil) with (2 := Hl)
    as (p & Hp & E); [intros w p Hw Hp; rewrite rev_app_distr; exact (blank_snoc_ws _ _ Hw Hp)|].
  exists (rev p). rewrite rev_involutive. auto.
Qed.

Lemma trim_right_complete : forall suf rest fuel,
  blank suf -> length suf <= fuel -> space_last rest = 0 ->
  trim_left_space_rev fuel (rev suf ++ rest) = rest.
Proof.
  intros suf rest fuel Hb Hl H0. destruct (blank_rev suf Hb) as (ws & F & E). rewrite E.
  apply (trim_by_complete space_last _ space_last_ws_rev ws_rev_nonempty); [exact F| |exact H0].
  pose proof (chars_length_le _ ws_rev_nonempty ws F) as Hc. rewrite <- E, rev_length in Hc. lia.
Qed.

(* the relational reading of TrimSpace *)
Definition trimmed (text core : bytes) : Prop :=
  exists pre suf, text = pre ++ core ++ suf /\ blank pre /\ blank suf /\ ~ starts_ws core /\ ~ ends_ws core.

Lemma trim_space_sound text : trimmed text (trim_space text).
Proof.
  unfold trim_space.
  destruct (trim_left_sound (length text) text (le_n _)) as (pre & Hpre & Ht & H0).
  set (l := trim_left_space (length text) text) in *.
  destruct (trim_right_sound (length l) (rev l)) as (suf & Hsuf & Hr & H1); [rewrite rev_length; lia|].
  set (k := trim_left_space_rev (length l) (rev l)) in *.
  assert (El : l = rev k ++ suf).
  { rewrite <- (rev_involutive l), Hr, rev_app_distr, rev_involutive. reflexivity. }
  exists pre, suf. split; [rewrite <- El; exact Ht|]. split; [exact Hpre|]. split; [exact Hsuf|]. split.
  - intros (w & r & Hw & E). rewrite El, E, <- app_assoc, (space_head_ws w _ Hw) in H0.
    pose proof (ws_len_pos _ Hw). lia.
  - apply space_last_0_iff. rewrite rev_involutive. exact H1.
Qed.

Lemma blank_trim_left : forall s fuel, blank s -> length s <= fuel -> trim_left_space fuel s = [].
Proof.
  intros s fuel (ws & F & ->) Hl. rewrite <- (app_nil_r (concat ws)).
  apply trim_left_complete; [exact F| |reflexivity].
  pose proof (concat_length_le ws F). lia.
Qed.

Lemma trim_space_complete text core : trimmed text core -> trim_space text = core.
Proof.
  intros (pre & suf & -> & Hpre & Hsuf & Hs & He). unfold trim_space.
  destruct core as [|c core'] eqn:Ec.
  - cbn [app]. rewrite (blank_trim_left (pre ++ suf)); [reflexivity|apply blank_app; assumption|lia].
  - rewrite <- Ec in *.
    assert (El : trim_left_space (length (pre ++ core ++ suf)) (pre ++ core ++ suf) = core ++ suf).
    { destruct Hpre as (ws & F & ->). apply trim_left_complete; [exact F| |].
      - pose proof (concat_length_le ws F). rewrite app_length. lia.
      - apply space_head_core_suf; [rewrite Ec; discriminate|assumption|assumption]. }
    rewrite El, rev_app_distr.
    rewrite trim_right_complete; [apply rev_involutive|exact Hsuf|rewrite app_length; lia|].
    apply space_last_0_iff. exact He.
Qed.

Lemma trim_space_spec text core : trimmed text core <-> trim_space text = core.
Proof. split; [apply trim_space_complete|intros <-; apply trim_space_sound]. Qed.

Lemma nl_is_c_nl : nl = c_nl.
Proof. reflexivity. Qed.

(* [Gengo.Proofs.Snippet.no_nl] is the test "no newline" of C09's proofs; here it decides [no_nl] *)
Lemma no_nl_b ls : forallb Gengo.Proofs.Snippet.no_nl ls = true <-> Forall no_nl ls.
Proof.
  rewrite forallb_forall, Forall_forall. split; intros H l Hl; specialize (H l Hl).
  - intros Hin. apply (proj1 (forallb_forall _ _) H) in Hin. rewrite Ascii.eqb_refl in Hin. discriminate.
  - apply forallb_forall. intros c Hc.
    destruct (Ascii.eqb_spec c Gengo.Model.Snippet.c_nl) as [->|]; [destruct (H Hc)|reflexivity].
Qed.

(* The accumulator holds the line being read, backwards: the loop computes C09's strings.Split (Model/Snippet.v),
   and what Proofs/Snippet.v proves of that function serves here. *)
Lemma split_nl_acc_eq : forall s cur,
  split_nl_acc s cur
  = (rev cur ++ hd [] (Gengo.Model.Snippet.split_nl s)) :: tl (Gengo.Model.Snippet.split_nl s).
Proof.
  induction s as [|c r IH]; intros cur; cbn [split_nl_acc Gengo.Model.Snippet.split_nl hd tl];
    [rewrite app_nil_r; reflexivity|].
  rewrite !IH. pose proof (Gengo.Proofs.Snippet.split_nl_nonempty r) as Hne. change c_nl with Gengo.Model.Snippet.c_nl.
  destruct (Ascii.eqb c Gengo.Model.Snippet.c_nl), (Gengo.Model.Snippet.split_nl r) as [|h t];
    try congruence; cbn [hd tl rev app].
  - rewrite app_nil_r. reflexivity.
  - rewrite <- app_assoc. reflexivity.
Qed.

Lemma split_nl_acc_nonempty : forall s cur, split_nl_acc s cur <> [].
Proof. intros s cur. rewrite split_nl_acc_eq. discriminate. Qed.

Lemma split_nl_eq s : split_nl s = Gengo.Model.Snippet.split_nl s.
Proof.
  unfold split_nl. rewrite split_nl_acc_eq. pose proof (Gengo.Proofs.Snippet.split_nl_nonempty s).
  destruct (Gengo.Model.Snippet.split_nl s); [congruence|reflexivity].
Qed.

Lemma split_join : forall all cur, Forall no_nl all -> all <> [] ->
  split_nl_acc (join_nl all) cur = (rev cur ++ hd [] all) :: tl all.
Proof.
  intros all cur F Hne. rewrite split_nl_acc_eq. change join_nl with Gengo.Model.SnippetSpec.join_nl.
  rewrite (Gengo.Proofs.Snippet.split_join_nl all Hne (proj2 (no_nl_b all) F)). reflexivity.
Qed.

(* strings.Split(core, "\n"), relationally *)
Lemma split_nl_spec core all :
  (all <> [] /\ Forall no_nl all /\ join_nl all = core) <-> split_nl core = all.
Proof.
  rewrite split_nl_eq. split.
  - intros (Hne & F & <-). exact (Gengo.Proofs.Snippet.split_join_nl all Hne (proj2 (no_nl_b all) F)).
  - intros <-. split; [apply Gengo.Proofs.Snippet.split_nl_nonempty|].
    split; [apply no_nl_b, Gengo.Proofs.Snippet.split_nl_no_nl|exact (Gengo.Proofs.Snippet.join_split_nl core)].
Qed.

Lemma has_prefix_iff p : forall s, has_prefix p s = true <-> exists r, s = p ++ r.
Proof. exact (Assoc.has_prefix_iff p). Qed.

Lemma has_prefix_go_iff l : has_prefix go_colon l = true <-> is_go l.
Proof. apply has_prefix_iff. Qed.

Lemma without_go_spec all ls :
  without_go all ls <-> filter (fun l => negb (has_prefix go_colon l)) all = ls.
Proof.
  split.
  - induction 1 as [|l all ls Hg _ IH|l all ls Hg _ IH]; cbn [filter].
    + reflexivity.
    + apply has_prefix_go_iff in Hg. rewrite Hg. exact IH.
    + destruct (has_prefix go_colon l) eqn:E; [apply has_prefix_go_iff in E; contradiction|].
      cbn [negb]. rewrite IH. reflexivity.
  - intros <-. induction all as [|l all IH]; cbn [filter]; [constructor|].
    destruct (has_prefix go_colon l) eqn:E; cbn [negb].
    + apply wg_skip; [apply has_prefix_go_iff; exact E|exact IH].
    + apply wg_keep; [|exact IH]. intros Hg. apply has_prefix_go_iff in Hg. congruence.
Qed.

(* the model's commentLinesFrom computes exactly the lines the relation describes *)
Theorem group_lines_meets_relation text ls : lines_of_text text ls <-> group_lines true text = ls.
Proof.
  unfold group_lines. cbn [andb]. split.
  - intros (pre & core & suf & Et & Hp & Hs & Hns & Hne & Hcases).
    assert (Etr : trim_space text = core) by (apply trim_space_complete; exists pre, suf; auto).
    rewrite Etr. destruct Hcases as [[-> ->]|[Hc (all & F & J & W)]]; [reflexivity|].
    destruct core as [|c0 core']; [congruence|]. cbn [is_nil].
    assert (Es : split_nl (c0 :: core') = all).
    { apply split_nl_spec. split; [|auto]. intros ->. cbn in J. discriminate. }
    rewrite Es. apply without_go_spec. exact W.
  - intros <-. destruct (trim_space_sound text) as (pre & suf & Et & Hp & Hs & Hns & Hne).
    exists pre, (trim_space text), suf. repeat (split; [assumption|]).
    destruct (trim_space text) as [|c0 core'] eqn:Ec; cbn [is_nil]; [left; auto|right].
    split; [discriminate|]. exists (split_nl (c0 :: core')).
    destruct (proj2 (split_nl_spec (c0 :: core') _) eq_refl) as (_ & F & J).
    split; [exact F|]. split; [exact J|]. apply without_go_spec. reflexivity.
Qed.

(* the relation determines the lines: it is functional and total *)
Corollary lines_of_text_functional text l1 l2 : lines_of_text text l1 -> lines_of_text text l2 -> l1 = l2.
Proof. intros H1 H2. apply group_lines_meets_relation in H1, H2. congruence. Qed.

Corollary lines_of_text_total text : exists ls, lines_of_text text ls.
Proof. exists (group_lines true text). apply group_lines_meets_relation. reflexivity. Qed.

(* the executable form [spec_lines] (Spec/Comments.v, evaluated by Corr/C12.v) computes the relation too *)
Corollary spec_lines_meets_relation text ls : lines_of_text text ls <-> spec_lines text = ls.
Proof. rewrite <- (Gengo.Proofs.Comments.group_lines_spec text). apply group_lines_meets_relation. Qed.

(* a witness: tab, space, U+00A0 | "first" NL "  second " NL "go:generate x" NL "+tag=1" | NL NL U+2028 *)
Definition ex_text : bytes :=
  map ascii_of_N [9; 32; 194; 160]%N ++ bs "first" ++ [nl] ++ bs "  second " ++ [nl] ++ bs "go:generate x"
  ++ [nl] ++ bs "+tag=1" ++ [nl; nl] ++ map ascii_of_N [226; 128; 168]%N.
Definition ex_lines : list bytes := [bs "first"; bs "  second "; bs "+tag=1"].

Lemma ex_lines_of_text : lines_of_text ex_text ex_lines.
Proof. apply group_lines_meets_relation. vm_compute. reflexivity. Qed.

(* the same, clause by clause from the definition of the relation; that the core neither starts nor ends with a
   listed character is decided by the model's byte tests, through space_head_0_iff and space_last_0_iff *)
Lemma ex_lines_of_text_direct : lines_of_text ex_text ex_lines.
Proof.
  pose (all := [bs "first"; bs "  second "; bs "go:generate x"; bs "+tag=1"]).
  exists (concat [[b 9]; [b 32]; [b 194; b 160]]), (join_nl all), (concat [[nl]; [nl]; [b 226; b 128; b 168]]).
  split; [reflexivity|].
  split; [apply blank_concat; reflexivity|]. split; [apply blank_concat; reflexivity|].
  split; [apply space_head_0_iff; reflexivity|]. split; [apply space_last_0_iff; reflexivity|].
  right. split; [discriminate|]. exists all. split; [|split; [reflexivity|]].
  - apply no_nl_b. reflexivity.
  - apply wg_keep. { intros [r H]. discriminate H. }
    apply wg_keep. { intros [r H]. discriminate H. }
    apply wg_skip. { exists (bs "generate x"). reflexivity. }
    apply wg_keep. { intros [r H]. discriminate H. }
    constructor.
Qed.
