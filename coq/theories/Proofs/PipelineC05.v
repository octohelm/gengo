(* C05: a package alone, and any order of the package map: two runs whose selected packages are nested
   ([sub_run_same]).
   [alone], DEFINED here (the run in which only p is requested), occurs in the statements of Props/C05.v. *)
Require Import Gengo.Base.Bytes Gengo.Model.Pipeline Gengo.Proofs.Pipeline Gengo.Proofs.PipelinePkg.
From Coq Require Import Permutation.

(* the run in which only p is requested *)
Definition alone (w : world) (p : pkginfo) : world :=
  {| w_modroot := w_modroot w; w_pkgs := [p]; w_direct := [pk_path p] |}.

Section C05.
Variable E : env.

Lemma alone_ok : forall w p, world_ok (alone w p).
Proof. intros w p. split; cbn; repeat constructor; intros []. Qed.

Lemma alone_direct : forall w p, has_direct (alone w p) = true.
Proof.
  intros w p. unfold has_direct, alone, is_direct, mem_bytes. cbn. rewrite bytes_eqb_refl. reflexivity.
Qed.

Lemma alone_selected : forall a w p, selected a (alone w p) p = true.
Proof.
  intros a w p. unfold selected, is_direct, alone, mem_bytes. cbn. rewrite bytes_eqb_refl. apply orb_true_r.
Qed.

Lemma sub_run_same : forall a gens s w1 w2 p f,
  w_modroot w1 = w_modroot w2 -> world_ok w1 -> world_ok w2 ->
  (a_all a = true -> has_direct w1 = has_direct w2) ->
  (forall q, In q (w_pkgs w2) -> selected a w2 q = true -> In q (w_pkgs w1) /\ selected a w1 q = true) ->
  In p (w_pkgs w2) -> selected a w2 p = true ->
  exec_outcome E a w1 gens s = Done ->
  (pk_dir p, f) <> sum_path w1 ->
  exec_outcome E a w2 gens s = Done /\
  fs_lookup (pk_dir p, f) (exec_fs E a w1 gens s) = fs_lookup (pk_dir p, f) (exec_fs E a w2 gens s).
Proof.
  intros a gens s w1 w2 p f Hroot Hok1 Hok2 Hdir Hsub Hp2 Hs2 Hdone Hq.
  destruct (Hsub p Hp2 Hs2) as [Hp1 Hs1].
  assert (Hdone2 : exec_outcome E a w2 gens s = Done)
    by (apply (outcome_done_transfer E a gens s w1 w2 Hroot (proj2 Hok1) (proj2 Hok2)); assumption).
  split; [exact Hdone2 | apply (independent_gen E a gens s w1 w2 p f); assumption].
Qed.

Theorem alone_same : forall a gens s w p f,
  world_ok w -> In p (w_pkgs w) -> selected a w p = true ->
  (a_all a = true -> has_direct w = true) ->
  exec_outcome E a w gens s = Done ->
  (pk_dir p, f) <> sum_path w ->
  exec_outcome E a (alone w p) gens s = Done /\
  fs_lookup (pk_dir p, f) (exec_fs E a w gens s) = fs_lookup (pk_dir p, f) (exec_fs E a (alone w p) gens s).
Proof.
  intros a gens s w p f Hok Hp Hsel Hdir Hdone Hq.
  apply sub_run_same; try assumption; try reflexivity.
  - apply alone_ok.
  - intros Hall. rewrite (Hdir Hall), alone_direct. reflexivity.
  - intros p' [<-|[]] _. split; assumption.
  - left. reflexivity.
  - apply alone_selected.
Qed.

(* The local-package map may be presented in any order (Go map iteration, order of the entrypoints): same
   outcome, same files for every package. *)
Theorem order_independent : forall a gens s w w' p f,
  Permutation (w_pkgs w) (w_pkgs w') -> w_modroot w = w_modroot w' -> w_direct w = w_direct w' ->
  world_ok w -> In p (w_pkgs w) -> selected a w p = true ->
  exec_outcome E a w gens s = Done ->
  (pk_dir p, f) <> sum_path w ->
  exec_outcome E a w' gens s = Done /\
  fs_lookup (pk_dir p, f) (exec_fs E a w gens s) = fs_lookup (pk_dir p, f) (exec_fs E a w' gens s).
Proof.
  intros a gens s w w' p f Hperm Hroot Hdirect [Hd Hpth] Hp Hsel Hdone Hq.
  assert (Hin : forall q, In q (w_pkgs w') <-> In q (w_pkgs w)).
  { intros q. split; apply Permutation_in; [symmetry|]; exact Hperm. }
  assert (Hisd : forall q, is_direct w' q = is_direct w q) by (intros q; unfold is_direct; rewrite Hdirect; reflexivity).
  assert (Hsel' : forall q, selected a w' q = selected a w q) by (intros q; unfold selected; rewrite Hisd; reflexivity).
  apply sub_run_same; try assumption.
  - split; assumption.
  - split; (eapply Permutation_NoDup; [apply Permutation_map; exact Hperm | assumption]).
  - intros _. unfold has_direct, is_direct. rewrite Hdirect. symmetry. apply Order.existsb_ext_in, Hin.
  - intros q Hq' Hs. rewrite <- Hin, <- Hsel'. split; assumption.
  - apply Hin. exact Hp.
  - rewrite Hsel'. exact Hsel.
Qed.

End C05.
