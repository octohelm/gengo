(* C02_whole_crash_then_skip_justified / C02_whole_crash_sum_content, non-vacuity: concrete crash states with a
   NON-EMPTY gengo.sum after which the next run skips one package (pkg_changed = false) and regenerates the others.
     (A) a FAILED All run over three packages — m/a cached through the previous gengo.sum, m/b regenerated, m/c fails —
         stopped where Execute returns the error: sum and every previous file of m/a and m/c untouched;
     (B) a successful All run killed INSIDE the write of gengo.sum, which holds the complete first line and a piece of
         the second.
   Closed computation, plus the theorem applied with every hypothesis discharged. *)
Require Import Gengo.Base.Bytes Gengo.Model.Pipeline Gengo.Model.Whole Gengo.Spec.PipelineSpec.
Require Import Gengo.Proofs.Pipeline Gengo.Proofs.PipelinePkg Gengo.Proofs.PipelineC02 Gengo.Proofs.PipelineWitness
  Gengo.Proofs.PipelineWitnessC02 Gengo.Proofs.WholeCrash Gengo.Corr.Pipe.
Require Gengo.Model.SumFile Gengo.Proofs.SumFile.

Definition wk_a (h : string) : pkginfo :=
  mk_pkg (bs "m/a") (bs "a") (bs "a") [bs "a.go"; bs "zz_generated.g1.go"] [mk_ty (bs "T0") KNamed (tag "g1")] (bs h).
Definition wk_b (h : string) : pkginfo :=
  mk_pkg (bs "m/b") (bs "b") (bs "b") [bs "b.go"; bs "zz_generated.g1.go"] [mk_ty (bs "T0") KNamed (tag "g1")] (bs h).
Definition wk_c (h : string) : pkginfo :=
  mk_pkg (bs "m/c") (bs "c") (bs "c") [bs "c.go"; bs "zz_generated.g1.go"] [mk_ty (bs "T0") KNamed (tag "g1")] (bs h).
(* the load of the killed / failed run *)
Definition wk_world : world := mk_world [wk_c "h1:c"; wk_b "h1:b"; wk_a "h1:a"] [bs "m/a"; bs "m/b"; bs "m/c"].
(* the load of the NEXT run: m/b's directory has changed (its generated file was rewritten) *)
Definition wk_world2 : world := mk_world [wk_c "h1:c"; wk_b "h1:B"; wk_a "h1:a"] [bs "m/a"; bs "m/b"; bs "m/c"].
Definition wk_args : args := {| a_all := true; a_force := false; a_base := bs "zz_generated" |}.

(* the previous gengo.sum: m/a with its current hash, m/b and m/c with other hashes *)
Definition wk_sum0 : bytes := bs "m/a h1:a" ++ nl ++ bs "m/b h1:0" ++ nl ++ bs "m/c h1:0" ++ nl.
Definition wk_fs : fs :=
  [((bs "a", bs "a.go"), bs "A"); ((bs "a", bs "zz_generated.g1.go"), bs "old a g1");
   ((bs "b", bs "b.go"), bs "B"); ((bs "b", bs "zz_generated.g1.go"), bs "old b g1");
   ((bs "c", bs "c.go"), bs "C"); ((bs "c", bs "zz_generated.g1.go"), bs "old c g1");
   ((bs "", bs "gengo.sum"), wk_sum0)].

(* g1 renders in every package; in m/c it returns an error (run A) or renders too (run B) *)
Definition wk_g1 (c_step : sstep) : generator :=
  script_gen (mk_sgen (bs "g1") false
    [((bs "m/a", bs "T0"), ok_step "var A = 1"); ((bs "m/b", bs "T0"), ok_step "var B = 1"); ((bs "m/c", bs "T0"), c_step)]).
Definition wk_gens_fail : list generator := [wk_g1 (mk_step (bs "var C = 1") RErr false false [])].
Definition wk_gens_ok : list generator := [wk_g1 (ok_step "var C = 1")].

Lemma wk_files_ok : files_ok wk_world.
Proof. intros p [<-|[<-|[<-|[]]]]; cbn; intuition discriminate. Qed.

Lemma wk_kv_ok : Gengo.Proofs.SumFile.kv_ok (current_sum wk_world).
Proof.
  split; [cbn; nodup|]. repeat (constructor; [split; vm_compute; reflexivity|]). constructor.
Qed.

Lemma wk_env_sums : e_sum_load wf_env = SumFile.sumfile_load /\ e_sum_bytes wf_env = SumFile.sumfile_bytes.
Proof. split; reflexivity. Qed.

(* (A) the failed run *)

Definition wk_effects_fail : list effect := effects wf_env wk_args wk_world wk_gens_fail wk_fs.
(* where Execute returns: every effect of the failed run has been applied *)
Definition wk_after_fail : fs := apply_all (firstn (List.length wk_effects_fail) wk_effects_fail) wk_fs.

Lemma wk_crash_state_fail : crash_state wf_env wk_args wk_world wk_gens_fail wk_fs wk_after_fail.
Proof. apply cs_between. Qed.

Definition lookups (s : fs) (qs : list path) : list (option bytes) := map (fun q => fs_lookup q s) qs.
Definition wk_paths : list path :=
  [(bs "a", bs "a.go"); (bs "a", bs "zz_generated.g1.go"); (bs "b", bs "b.go"); (bs "b", bs "zz_generated.g1.go");
   (bs "c", bs "c.go"); (bs "c", bs "zz_generated.g1.go"); (bs "", bs "gengo.sum")].

(* the run: m/a is cached (no call), m/b is regenerated, m/c fails; the state it leaves IS what Execute leaves;
   gengo.sum (non-empty) and the previous files of m/a and m/c are byte-identical, m/b's file is the new one *)
Lemma wk_failed_run :
  exec_outcome wf_env wk_args wk_world wk_gens_fail wk_fs = Failed (EGen (bs "g1") (bs "m/c"))
  /\ map (fun p => pkg_changed wk_args wk_world (load_prev wf_env wk_args wk_world wk_fs) p) (sorted_pkgs wk_world)
     = [false; true; true]
  /\ map (fun e => match e with EvCall _ p _ _ r => (p, r) | EvDefer _ p _ _ r => (p, r) end)
         (exec_trace wf_env wk_args wk_world wk_gens_fail wk_fs) = [(bs "m/b", RNil); (bs "m/c", RErr)]
  /\ List.length wk_effects_fail = 2
  /\ wk_after_fail = exec_fs wf_env wk_args wk_world wk_gens_fail wk_fs
  /\ lookups wk_after_fail wk_paths
     = [Some (bs "A"); Some (bs "old a g1"); Some (bs "B"); Some (assemble (bs "b") (bs "g1") (bs "var B = 1"));
        Some (bs "C"); Some (bs "old c g1"); Some wk_sum0].
Proof. splits; vm_compute; reflexivity. Qed.

(* the next run (same arguments, m/b re-hashed): m/a is skipped, m/b and m/c are regenerated *)
Lemma wk_next_after_fail :
  map (fun p => pkg_changed wk_args wk_world2 (load_prev wf_env wk_args wk_world2 wk_after_fail) p) (sorted_pkgs wk_world2)
  = [false; true; true].
Proof. vm_compute. reflexivity. Qed.

(* C02_whole_crash_then_skip_justified applied: the skip of m/a rests on the line of the gengo.sum the failed run found *)
Lemma wk_skip_justified_after_fail :
  sum_get (current_sum wk_world2) (bs "m/a") <> []
  /\ ((exists b, fs_lookup (sum_path wk_world) wk_fs = Some b
                 /\ SumFile.sum_sum (SumFile.sumfile_load b) (bs "m/a") = sum_get (current_sum wk_world2) (bs "m/a"))
      \/ sum_get (current_sum wk_world) (bs "m/a") = sum_get (current_sum wk_world2) (bs "m/a")).
Proof.
  apply (crash_then_skip_justified wf_env eq_refl eq_refl wk_args wk_world wk_gens_fail wk_fs wk_after_fail
           wk_args wk_world2 (wk_a "h1:a") wk_files_ok wk_crash_state_fail wk_kv_ok eq_refl).
  - right. vm_compute. reflexivity.
  - vm_compute. reflexivity.
Qed.

(* (B) killed inside the write of gengo.sum *)

(* 14 bytes of "m/a h1:a\nm/b h1:b\nm/c h1:c\n" are on disk: the first line and "m/b h" *)
Definition wk_torn : fs :=
  apply_effect (EAppend (sum_path wk_world) (firstn 14 (e_sum_bytes wf_env (current_sum wk_world))))
    (apply_all (pkgs_effects wf_env wk_args wk_world wk_gens_ok wk_fs ++ [ETruncate (sum_path wk_world)]) wk_fs).

Lemma wk_run_ok : exec_outcome wf_env wk_args wk_world wk_gens_ok wk_fs = Done.
Proof. vm_compute. reflexivity. Qed.

Lemma wk_crash_state_torn : crash_state wf_env wk_args wk_world wk_gens_ok wk_fs wk_torn.
Proof. apply cs_torn; [exact wk_run_ok|reflexivity]. Qed.

Lemma wk_torn_state :
  lookups wk_torn wk_paths
  = [Some (bs "A"); Some (bs "old a g1"); Some (bs "B"); Some (assemble (bs "b") (bs "g1") (bs "var B = 1"));
     Some (bs "C"); Some (assemble (bs "c") (bs "g1") (bs "var C = 1")); Some (bs "m/a h1:a" ++ nl ++ bs "m/b h")]
  /\ SumFile.sumfile_load (bs "m/a h1:a" ++ nl ++ bs "m/b h") = [(bs "m/a", bs "h1:a"); (bs "m/b", bs "h")]
  (* the next run on the same load: m/a is skipped on the strength of the complete line, m/b (torn line) and m/c
     (no line yet) are regenerated *)
  /\ map (fun p => pkg_changed wk_args wk_world (load_prev wf_env wk_args wk_world wk_torn) p) (sorted_pkgs wk_world)
     = [false; true; true].
Proof. splits; vm_compute; reflexivity. Qed.

(* the theorems applied at that crash state *)
Lemma wk_torn_sum_content :
  fs_lookup (sum_path wk_world) wk_torn = fs_lookup (sum_path wk_world) wk_fs
  \/ exists n, fs_lookup (sum_path wk_world) wk_torn = Some (firstn n (SumFile.sumfile_bytes (current_sum wk_world))).
Proof. exact (crash_sum_content wf_env eq_refl wk_args wk_world wk_gens_ok wk_fs wk_torn wk_files_ok wk_crash_state_torn). Qed.

Lemma wk_skip_justified_torn :
  sum_get (current_sum wk_world) (bs "m/a") <> []
  /\ ((exists b, fs_lookup (sum_path wk_world) wk_fs = Some b
                 /\ SumFile.sum_sum (SumFile.sumfile_load b) (bs "m/a") = sum_get (current_sum wk_world) (bs "m/a"))
      \/ sum_get (current_sum wk_world) (bs "m/a") = sum_get (current_sum wk_world) (bs "m/a")).
Proof.
  apply (crash_then_skip_justified wf_env eq_refl eq_refl wk_args wk_world wk_gens_ok wk_fs wk_torn
           wk_args wk_world (wk_a "h1:a") wk_files_ok wk_crash_state_torn wk_kv_ok eq_refl).
  - right. reflexivity.
  - vm_compute. reflexivity.
Qed.

Print Assumptions wk_skip_justified_after_fail.
Print Assumptions wk_skip_justified_torn.
