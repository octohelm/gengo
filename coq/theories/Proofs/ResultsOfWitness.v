(* A concrete well-typed program for the non-vacuity Examples of Props/C14.v: the hypotheses of
   C14_sound / C14_no_panic / C14_total ([wt_b], [entry_ok]) are PROVED for it by computation
   ([wt_b] is a boolean function) and the theorems are instantiated.

     package w                                     // package 0, one file; positions = made-up offsets
     type MyErr struct{}
     func (e *MyErr) Error() string { return "e" }  // the type *MyErr is TErrImpl 1

     func Leaf() error { return &MyErr{} }                                   // 0
     func Mid() error { return Leaf() }                                      // 1
     func Top() error { return Mid() }                                       // 2
     func Entry() error { err := Top(); return err }                         // 3   assignment through a local
     func Pair() (int, error) { return 1, Entry() }                          // 4
     func Multi() (int, error) { if c { return 0, nil }; return Pair() }     // 5   multi-result call
     func Even(n int) error { if n == 0 { return nil }; return Odd(n - 1) }  // 6 \ mutually
     func Odd(n int) error { if n == 0 { return &MyErr{} }; return Even(n - 1) }   // 7 / recursive
     func All() (int, error) {                                               // 8
         n, err := Multi()                      // multi-result call assigned to two locals
         if err != nil { return 0, err }
         e2 := Even(n)
         return n, e2
     }

   Call chain from All's error result: All -> Multi -> Pair -> Entry -> (local err) -> Top -> Mid -> Leaf
   (depth 7), and All -> (local e2) -> Even <-> Odd. *)
Require Import Gengo.Base.Bytes Gengo.Model.ResultsOf.
Require Import Gengo.Proofs.ResultsOf Gengo.Proofs.ResultsOfSound.

Definition w_int := mk_rdecl TInt (bs "int") None.
Definition w_err := mk_rdecl TError (bs "error") None.

(* objects: 1 = the universe's nil; locals of Entry and All *)
Definition wo_nil := 1%N.
Definition wo_entry_err := 10%N.
Definition wo_n := 11%N.
Definition wo_err := 12%N.
Definition wo_e2 := 13%N.
Definition w_otys : otys :=
  [(wo_nil, TNil); (wo_entry_err, TError); (wo_n, TInt); (wo_err, TError); (wo_e2, TError)].

Definition w_myerr (pos : N) := mk_alt (bs "*w.MyErr") false (TErrImpl 1) XOther 0 pos.
Definition w_nil (pos : N) := mk_alt (bs "untyped nil") false TNil (XIdent false wo_nil) 0 pos.
Definition w_lit (txt : string) (pos : N) := mk_alt (bs txt) true TUntyped XOther 0 pos.
Definition w_var (t : ty) (txt : string) (o : N) (pos : N) := mk_alt (bs txt) false t (XIdent true o) 0 pos.
Definition w_intexpr (pos : N) := mk_alt (bs "int") false TInt XOther 0 pos.      (* n - 1 *)

Definition w_call1 (f : nat) (perr : list bool) (pos : N) := mk_call true [w_err] perr (TgBody f) 0 pos.
Definition w_call2 (f : nat) (pos : N) := mk_call true [w_int; w_err] [] (TgBody f) 0 pos.

Definition w_prog : prog :=
  [ (* 0 Leaf  *) mk_fdef 0 [w_err] (Some [SReturn 120%N (Some [EVal (w_myerr 110)])]);
    (* 1 Mid   *) mk_fdef 0 [w_err] (Some [SReturn 160%N (Some [ECall (w_call1 0 [] 150) []])]);
    (* 2 Top   *) mk_fdef 0 [w_err] (Some [SReturn 200%N (Some [ECall (w_call1 1 [] 190) []])]);
    (* 3 Entry *) mk_fdef 0 [w_err]
                    (Some [SAssign (mk_assign 230 [LIdent (Some wo_entry_err)] [ECall (w_call1 2 [] 237) []]);
                           SReturn 260%N (Some [EVal (w_var TError "error" wo_entry_err 255)])]);
    (* 4 Pair  *) mk_fdef 0 [w_int; w_err]
                    (Some [SReturn 320%N (Some [EVal (w_lit "1" 305); ECall (w_call1 3 [] 308) []])]);
    (* 5 Multi *) mk_fdef 0 [w_int; w_err]
                    (Some [SGroup [SReturn 375%N (Some [EVal (w_lit "0" 368); EVal (w_nil 371)])];
                           SReturn 395%N (Some [ECall (w_call2 4 388) []])]);
    (* 6 Even  *) mk_fdef 0 [w_err]
                    (Some [SGroup [SReturn 450%N (Some [EVal (w_nil 447)])];
                           SReturn 475%N (Some [ECall (w_call1 7 [false] 462) [EVal (w_intexpr 466)]])]);
    (* 7 Odd   *) mk_fdef 0 [w_err]
                    (Some [SGroup [SReturn 530%N (Some [EVal (w_myerr 522)])];
                           SReturn 556%N (Some [ECall (w_call1 6 [false] 542) [EVal (w_intexpr 547)]])]);
    (* 8 All   *) mk_fdef 0 [w_int; w_err]
                    (Some [SAssign (mk_assign 600 [LIdent (Some wo_n); LIdent (Some wo_err)] [ECall (w_call2 5 610) []]);
                           SGroup [SReturn 650%N (Some [EVal (w_lit "0" 642); EVal (w_var TError "error" wo_err 645)])];
                           SAssign (mk_assign 660 [LIdent (Some wo_e2)]
                                      [ECall (w_call1 6 [false] 666) [EVal (w_var TInt "int" wo_n 671)]]);
                           SReturn 690%N (Some [EVal (w_var TInt "int" wo_n 683); EVal (w_var TError "error" wo_e2 686)])]) ].

Definition w_fuel := S (length (nodes w_prog)).

(* what ResultsOf(All) reports: result 0: the literal 0 and Multi()'s int; result 1: nil (Multi), &MyErr{} (Leaf,
   reached through Multi -> Pair -> Entry -> err -> Top -> Mid), nil (Even), &MyErr{} (Odd; the call back to Even
   is cut by the visits map) *)
Definition w_results : list (list alt) :=
  [ [w_lit "0" 642; type_alt w_int 0 610];
    [w_nil 371; w_myerr 110; w_nil 447; w_myerr 522] ].

Lemma w_wt : wt_b w_otys w_prog = true.
Proof. vm_compute. reflexivity. Qed.

Lemma w_entry_ok : entry_ok w_prog (EnBody 8) [w_int; w_err] = true.
Proof. vm_compute. reflexivity. Qed.

Lemma w_run : results_of all_fixed w_prog w_fuel (EnBody 8) [w_int; w_err] = Ok (w_results, 2).
Proof. vm_compute. reflexivity. Qed.

(* the theorems instantiated: their hypotheses are the three lemmas above *)
Lemma w_sound_instance : forall i l r a,
  nth_error w_results i = Some l -> nth_error [w_int; w_err] i = Some r -> In a l ->
  a_const a = true \/ assignable (a_ty a) (r_ty r) = true.
Proof.
  intros i l r a Hl Hr Hin. apply orb_true_iff.
  exact (proj2 (results_of_sound all_fixed w_otys w_prog w_fuel _ _ eq_refl w_wt w_entry_ok) _ w_run i l r a Hl Hr Hin).
Qed.

Lemma w_no_panic_instance : forall fuel, results_of all_fixed w_prog fuel (EnBody 8) [w_int; w_err] <> Panic.
Proof. intros fuel. exact (proj1 (results_of_sound all_fixed w_otys w_prog fuel _ _ eq_refl w_wt w_entry_ok)). Qed.

Lemma w_total_instance : exists ls n, results_of all_fixed w_prog w_fuel (EnBody 8) [w_int; w_err] = Ok (ls, n).
Proof. exact (results_of_total all_fixed w_otys w_prog w_fuel _ _ eq_refl eq_refl w_wt w_entry_ok (le_n _)). Qed.

(* [wt_b] is a real condition, and the leaf hypothesis inside it is needed: the same program with
     func Leaf() error { return s }      // s of type string: rejected by Go's type checker
   is rejected by [wt_b], and ResultsOf(All) faithfully propagates the string to All's error result. *)
Definition w_bad_leaf := mk_alt (bs "string") false TString XOther 0 110.
Definition w_prog_bad : prog :=
  mk_fdef 0 [w_err] (Some [SReturn 120%N (Some [EVal w_bad_leaf])]) :: tl w_prog.

Lemma w_bad_rejected : wt_b w_otys w_prog_bad = false.
Proof. vm_compute. reflexivity. Qed.

Lemma w_bad_propagates :
  exists ls l, results_of all_fixed w_prog_bad w_fuel (EnBody 8) [w_int; w_err] = Ok (ls, 2) /\
               nth_error ls 1 = Some l /\ In w_bad_leaf l /\
               a_const w_bad_leaf = false /\ assignable (a_ty w_bad_leaf) TError = false.
Proof.
  eexists. eexists. split; [vm_compute; reflexivity|].
  split; [reflexivity|]. split; [right; left; reflexivity|]. split; reflexivity.
Qed.
