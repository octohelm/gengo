(* A richer concrete world for the cache state machine than [Good] of SumCacheExamples.v, in which every
   hypothesis of the C08 theorems is PROVED and [converges] is applied:
   - four packages m/a, m/a/sub, m/c, m/d; the directory of m/a/sub is NESTED in the directory of m/a (the
     directory hash of m/a is recursive and covers the files of m/a/sub), so [contains] is used with two
     different packages in [gen_local];
   - an import edge m/c -> m/a that is PART OF THE TREE (an edit adds or removes it) and a fixed edge
     m/a -> m/a/sub; [locals] depends on the tree and on the entrypoints: the packages named by the entrypoints
     (direct) plus what they reach through imports (non-direct), listed in an unsorted order;
   - a stale gengo.sum at the start, edits of the import edge and of the nested package between runs. *)
Require Import Gengo.Base.Bytes Gengo.Base.Order Gengo.Model.SumFile Gengo.Model.SumCache Gengo.Proofs.SumFile Gengo.Proofs.SumCache.
Require Import Gengo.Proofs.SumCacheExamples.

Module Deep.
  Definition pa : bytes := bs "m/a".
  Definition ps : bytes := bs "m/a/sub".
  Definition pc : bytes := bs "m/c".
  Definition pd : bytes := bs "m/d".

  (* per package: the version of its sources, and what its generated file was generated from + 1 (0 = there is no
     generated file);  imp: the sources of m/c import m/a.  (m/a always imports m/a/sub.) *)
  Record tree := T {
    a_src : nat; a_gen : nat;
    s_src : nat; s_gen : nat;
    c_src : nat; c_gen : nat;
    d_src : nat; d_gen : nat;
    imp : bool
  }.

  (* what dirhash reads below a package directory: the files' contents, in order *)
  Definition content := list nat.

  Definition enc (c : content) : bytes := concat (map (fun n => repeat one n ++ [xx]) c).
  Definition H (c : content) : option bytes := Some (hh :: enc c).

  (* recursive: the directory of m/a includes the files of m/a/sub *)
  Definition dirc (t : tree) (_ : option bytes) (p : bytes) : content :=
    if bytes_eqb p pa then [a_src t; a_gen t; s_src t; s_gen t]
    else if bytes_eqb p ps then [s_src t; s_gen t]
    else if bytes_eqb p pc then [c_src t; c_gen t; if imp t then 1 else 0]
    else if bytes_eqb p pd then [d_src t; d_gen t]
    else [].

  (* the generators write the package's generated file from the package's own sources; nothing else changes *)
  Definition gen (t : tree) (p : bytes) : tree :=
    if bytes_eqb p pa then
      T (a_src t) (S (a_src t)) (s_src t) (s_gen t) (c_src t) (c_gen t) (d_src t) (d_gen t) (imp t)
    else if bytes_eqb p ps then
      T (a_src t) (a_gen t) (s_src t) (S (s_src t)) (c_src t) (c_gen t) (d_src t) (d_gen t) (imp t)
    else if bytes_eqb p pc then
      T (a_src t) (a_gen t) (s_src t) (s_gen t) (c_src t) (S (c_src t)) (d_src t) (d_gen t) (imp t)
    else if bytes_eqb p pd then
      T (a_src t) (a_gen t) (s_src t) (s_gen t) (c_src t) (c_gen t) (d_src t) (S (d_src t)) (imp t)
    else t.

  Definition mem (p : bytes) (l : list bytes) : bool := existsb (bytes_eqb p) l.

  (* go/packages: the packages named by the entrypoints (direct) and everything they reach through imports
     (m/c -> m/a if the tree has the edge, m/a -> m/a/sub always); keys of a Go map, here in the order d, c, sub, a *)
  Definition locals (t : tree) (entry : list bytes) : list (bytes * bool) :=
    let has_c := mem pc entry in
    let has_a := mem pa entry || (has_c && imp t) in
    let has_s := mem ps entry || has_a in
    let has_d := mem pd entry in
    (if has_d then [(pd, mem pd entry)] else [])
    ++ (if has_c then [(pc, mem pc entry)] else [])
    ++ (if has_s then [(ps, mem ps entry)] else [])
    ++ (if has_a then [(pa, mem pa entry)] else []).

  Lemma enc_cons : forall n c, enc (n :: c) = repeat one n ++ xx :: enc c.
  Proof. intros n c. unfold enc. cbn [map concat]. rewrite <- app_assoc. reflexivity. Qed.

  Lemma enc_plain : forall c, forallb plain (enc c) = true.
  Proof.
    induction c as [|n c IH]; [reflexivity|].
    rewrite enc_cons, forallb_app. cbn [forallb]. rewrite forallb_repeat_plain, IH. reflexivity.
  Qed.

  Lemma enc_inj : forall c c', enc c = enc c' -> c = c'.
  Proof.
    induction c as [|n c IH]; intros [|m c'] E.
    - reflexivity.
    - rewrite enc_cons in E. destruct m; discriminate E.
    - rewrite enc_cons in E. destruct n; discriminate E.
    - rewrite !enc_cons in E. apply unary_inj in E. destruct E as [En Ec].
      subst m. rewrite (IH _ Ec). reflexivity.
  Qed.

  Lemma H_tokens_ok : H_tokens content H.
  Proof.
    intros c h E. unfold H in E. inversion E; subst h. unfold token_ok. cbn [is_nil negb andb forallb].
    rewrite enc_plain. reflexivity.
  Qed.

  Lemma H_injective_ok : H_injective content H.
  Proof.
    intros c1 c2 h E1 E2. unfold H in *. rewrite <- E2 in E1. inversion E1 as [E]. apply enc_inj. exact E.
  Qed.

  (* [gen], [dirc] and [locals] look at a path only to find out which of the four packages it names *)
  Inductive pkg := A | Sub | C | Dp.

  Definition path (k : pkg) : bytes := match k with A => pa | Sub => ps | C => pc | Dp => pd end.

  Definition pkg_of (p : bytes) : option pkg :=
    if bytes_eqb p pa then Some A else if bytes_eqb p ps then Some Sub
    else if bytes_eqb p pc then Some C else if bytes_eqb p pd then Some Dp else None.

  Definition gen_pkg (t : tree) (k : option pkg) : tree :=
    match k with Some k => gen t (path k) | None => t end.

  Definition dirc_pkg (t : tree) (k : option pkg) : content :=
    match k with Some k => dirc t None (path k) | None => [] end.

  Lemma pkg_of_spec : forall p,
    match pkg_of p with
    | Some k => p = path k
    | None => forall t o, gen t p = t /\ dirc t o p = []
    end.
  Proof.
    intros p. unfold pkg_of, gen, dirc.
    destruct (bytes_eqbP p pa) as [->|_]; [reflexivity|]. destruct (bytes_eqbP p ps) as [->|_]; [reflexivity|].
    destruct (bytes_eqbP p pc) as [->|_]; [reflexivity|]. destruct (bytes_eqbP p pd) as [->|_]; [reflexivity|].
    split; reflexivity.
  Qed.

  Lemma gen_pkg_of : forall t p, gen t p = gen_pkg t (pkg_of p).
  Proof.
    intros t p. pose proof (pkg_of_spec p) as Hp.
    destruct (pkg_of p); [rewrite Hp; reflexivity|exact (proj1 (Hp t None))].
  Qed.

  Lemma dirc_pkg_of : forall t o p, dirc t o p = dirc_pkg t (pkg_of p).
  Proof.
    intros t o p. pose proof (pkg_of_spec p) as Hp.
    destruct (pkg_of p); [rewrite Hp; reflexivity|exact (proj2 (Hp t o))].
  Qed.

  Lemma locals_paths : forall t e, exists f, map fst (locals t e) = map path (filter f [Dp; C; Sub; A]).
  Proof.
    intros t e. unfold locals. cbv zeta.
    set (hd := mem pd e). set (hc := mem pc e). set (ha := mem pa e || hc && imp t). set (hs := mem ps e || ha).
    exists (fun k => match k with A => ha | Sub => hs | C => hc | Dp => hd end).
    clearbody hs. clearbody ha. clearbody hd hc. destruct hd, hc, hs, ha; reflexivity.
  Qed.

  Lemma locals_ok_ok : locals_ok tree locals.
  Proof.
    intros t e. destruct (locals_paths t e) as [f ->]. split.
    - apply NoDup_map_filter. cbn [map path]. repeat (constructor; [cbn [In]; intuition discriminate|]). constructor.
    - apply Forall_forall. intros p Hp. apply in_map_iff in Hp. destruct Hp as [k [<- _]]. destruct k; reflexivity.
  Qed.

  Lemma gen_idem_ok : gen_idem tree gen.
  Proof. intros t p. rewrite !gen_pkg_of. destruct (pkg_of p) as [[]|]; reflexivity. Qed.

  Lemma gen_comm_ok : gen_comm tree gen.
  Proof.
    intros t p q. rewrite !gen_pkg_of. destruct (pkg_of p) as [[]|], (pkg_of q) as [[]|]; reflexivity.
  Qed.

  (* m/a/sub lies below m/a: what is below m/a determines what is below m/a/sub *)
  Lemma contains_a_sub : contains tree content dirc pa ps.
  Proof. intros t t' E. unfold D in *. cbn in *. injection E as _ _ -> ->. reflexivity. Qed.

  (* generating k changes the directory of k and, for k = m/a/sub, the directory of m/a that contains it *)
  Lemma gen_pkg_dirc : forall t k k',
    k' = k \/ (k = Sub /\ k' = A) \/ dirc_pkg (gen_pkg t (Some k)) (Some k') = dirc_pkg t (Some k').
  Proof. intros t [] []; auto. Qed.

  Lemma gen_local_ok : gen_local tree content dirc gen.
  Proof.
    intros t p q. unfold D. rewrite !dirc_pkg_of, gen_pkg_of.
    pose proof (pkg_of_spec p) as Hp. pose proof (pkg_of_spec q) as Hq.
    destruct (pkg_of p) as [k|]; [subst p|right; reflexivity].
    destruct (pkg_of q) as [k'|]; [subst q|right; reflexivity].
    destruct (gen_pkg_dirc t k k') as [->|[[-> ->]|E]].
    - left. apply contains_refl.
    - left. exact contains_a_sub.
    - right. exact E.
  Qed.

  (* generated files do not change the import edge, hence not the set of loaded packages *)
  Lemma gen_keeps_locals_ok : gen_keeps_locals tree gen locals.
  Proof. intros t p e. rewrite gen_pkg_of. destruct (pkg_of p) as [[]|]; reflexivity. Qed.

  Lemma all_hashable_ok : all_hashable tree content H dirc.
  Proof. intros t p. unfold H. discriminate. Qed.

  Definition run := run tree content H dirc gen locals fixed_all.
  Definition exec := exec tree content H dirc gen locals fixed_all.
  Definition all_run (e : list bytes) : runargs := {| r_all := true; r_force := false; r_entry := e; r_fail := None |}.
  Definition entry : list bytes := [pc; pd].

  (* all sources at version 1, nothing generated, m/c does not import m/a; gengo.sum is a left-over *)
  Definition st0 : state tree :=
    {| st_tree := T 1 0 1 0 1 0 1 0 false; st_sum := SumFile (bs "m/a h1x" ++ [nl] ++ bs "garbage") |}.

  (* m/c's sources are edited: they now import m/a *)
  Definition add_import (t : tree) : tree :=
    T (a_src t) (a_gen t) (s_src t) (s_gen t) (S (c_src t)) (c_gen t) (d_src t) (d_gen t) true.
  (* the sources of the nested package are edited *)
  Definition edit_sub (t : tree) : tree :=
    T (a_src t) (a_gen t) (S (s_src t)) (s_gen t) (c_src t) (c_gen t) (d_src t) (d_gen t) (imp t).
  (* the generated files of m/a and m/a/sub are deleted *)
  Definition del_gen (t : tree) : tree :=
    T (a_src t) 0 (s_src t) 0 (c_src t) (c_gen t) (d_src t) (d_gen t) (imp t).
  (* a gengo.sum whose only line is the hash of m/a's directory as [del_gen] leaves it after [edit_sub]
     (sources a = 1, sub = 2, no generated files) *)
  Definition old_sum : bytes := bs "m/a h1xx11xx" ++ [nl].

  Definition after (s : state tree) (n : nat) : state tree := exec s (repeat (Run (all_run entry)) n).

  (* which packages each run executes in; the entrypoints are m/c and m/d throughout:
       from the stale gengo.sum (m/a not loaded): run, run, run, run;
       m/c starts to import m/a (m/a, m/a/sub loaded as non-direct packages): run, run, run;
       the nested m/a/sub is edited: run, run, run;
       the generated files of m/a and m/a/sub are deleted and gengo.sum is replaced by one that records the
       current directory of m/a and nothing else: run, run, run, run *)
  Definition demo : list (list bytes) :=
    let r s := executed (fst (snd (run (all_run entry) s))) in
    let e1 := exec (after st0 3) [Edit add_import] in
    let e2 := exec (after e1 3) [Edit edit_sub] in
    let e3 := exec (after e2 3) [Edit del_gen; CorruptSum old_sum] in
    [r st0; r (after st0 1); r (after st0 2); r (after st0 3);
     r e1; r (after e1 1); r (after e1 2);
     r e2; r (after e2 1); r (after e2 2);
     r e3; r (after e3 1); r (after e3 2); r (after e3 3)].

  (* the state the instance of [converges] starts from: the stale gengo.sum, the import edge already added *)
  Definition s_imp : state tree := exec st0 [Edit add_import].
End Deep.

(* [converges] applied to this world, every hypothesis discharged by the lemmas above: from the stale gengo.sum,
   with the import edge present (four local packages, two of them non-direct, one nested in another), after
   three plain All runs a fourth one executes nothing and changes nothing *)
Lemma deep_converges_instance :
  let r := Deep.run (Deep.all_run Deep.entry) in
  let s3 := fst (r (fst (r (fst (r Deep.s_imp))))) in
  fst (r s3) = s3 /\ executed (fst (snd (r s3))) = [] /\ snd (snd (r s3)) = ENone.
Proof.
  assert (Hp : plain_run (Deep.all_run Deep.entry)) by (repeat split; reflexivity).
  assert (Hs : st_sum Deep.s_imp <> SumUnreadable) by (cbn; discriminate).
  exact (converges Deep.tree Deep.content Deep.H Deep.dirc Deep.gen Deep.locals
           Deep.H_tokens_ok Deep.H_injective_ok Deep.locals_ok_ok Deep.gen_idem_ok Deep.gen_comm_ok
           Deep.gen_local_ok Deep.gen_keeps_locals_ok Deep.all_hashable_ok
           (Deep.all_run Deep.entry) Hp
           [(Deep.pd, true); (Deep.pc, true); (Deep.ps, false); (Deep.pa, false)] eq_refl
           Deep.s_imp eq_refl Hs).
Qed.
Print Assumptions deep_converges_instance.
