(* RenderStack: two models of the same code agree.  snippet.ID(string) -> ParseRef -> rawNamer.Name -> processName is
   modelled twice: by C15 (Model/TypeRef.v [snippet_id], text, abstract tracker) and by C11 (Model/TypeLit.v
   [ident_frag (IdStr s)], syntax tree, tracker = [pick], parser = [parse_tref]).  With C03's tracker under both and
   C15's parser under C11 they compute the same thing on EVERY string: same panics, same text, same tracker. *)
Require Import Gengo.Base.Bytes.
Require Import Gengo.Model.RenderStack Gengo.Proofs.RenderStackTracker.
Require Gengo.Model.TypeLit Gengo.Proofs.TypeLit Gengo.Model.TypeRef Gengo.Proofs.TypeRef.
Require Import Gengo.Proofs.RenderStackLeaves.

From Coq Require Import Arith.
Open Scope nat_scope.

(* ---- the byte searches are the same functions ---- *)
Lemma index_agree : forall c s, TL.index_of c s = TR.index_byte c s.
Proof. reflexivity. Qed.

Lemma last_index_agree : forall c s, TL.last_index_of c s = TR.last_index_byte c s.
Proof. reflexivity. Qed.

Lemma index_byte_lt : forall c s i, TR.index_byte c s = Some i -> i < length s.
Proof.
  intros c s i H. destruct (Gengo.Proofs.TypeRef.index_byte_spec c s i H) as (a & b & -> & <- & _). rewrite app_length. cbn. lia.
Qed.

Lemma last_index_byte_lt : forall c s i, TR.last_index_byte c s = Some i -> i < length s.
Proof.
  intros c s i H. destruct (Gengo.Proofs.TypeRef.last_index_byte_spec c s i H) as (a & b & -> & <- & _). rewrite app_length. cbn. lia.
Qed.

Lemma substr_prefix : forall s i, i <= length s -> TR.substr s 0 i = Ok (firstn i s).
Proof. intros s i H. rewrite Gengo.Proofs.TypeRef.substr_ok by lia. rewrite PeanoNat.Nat.sub_0_r. reflexivity. Qed.

Lemma substr_suffix : forall s k, k <= length s -> TR.substr s k (length s) = Ok (skipn k s).
Proof.
  intros s k H. rewrite Gengo.Proofs.TypeRef.substr_ok by lia. rewrite <- (skipn_length k s), firstn_all. reflexivity.
Qed.

Lemma cut_bracket_agree : forall s,
  TR.cut_bracket s = Ok (match TL.index_of TL.lbrack s with Some (S i) => firstn (S i) s | _ => s end).
Proof.
  intros s. unfold TR.cut_bracket. change TL.index_of with TR.index_byte. unfold TL.lbrack, TR.lbr.
  destruct (TR.index_byte "["%char s) as [[|i]|] eqn:E; try reflexivity.
  apply substr_prefix, Nat.lt_le_incl, (index_byte_lt _ _ _ E).
Qed.

Lemma parse_ref_agree : forall s, TR.parse_ref s = Ok (TL.parse_ref s).
Proof.
  intros s. unfold TR.parse_ref, TL.parse_ref. rewrite cut_bracket_agree. change TL.last_index_of with TR.last_index_byte. cbn [bind].
  set (base := match TL.index_of TL.lbrack s with Some (S i) => firstn (S i) s | _ => s end).
  assert (Lb : length base <= length s).
  { unfold base. destruct (TL.index_of TL.lbrack s) as [[|i]|]; try apply le_n. rewrite firstn_length. apply Nat.le_min_r. }
  unfold TL.dot, TR.dot. destruct (TR.last_index_byte "."%char base) as [[|j]|] eqn:E; try reflexivity.
  pose proof (last_index_byte_lt _ _ _ E) as L. cbn [Nat.ltb Nat.leb].
  rewrite substr_prefix by lia. cbn [bind]. replace (S j + 1) with (S (S j)) by lia.
  rewrite substr_suffix by lia. reflexivity.
Qed.

(* ---- printing: C15's String() on its trees = C11's on the converted trees ---- *)
Lemma to15_of15 : forall t, to15 (of15 t) = t.
Proof.
  induction t as [p n args IH] using Gengo.Proofs.TypeRef.tref_ind'. rewrite of15_eq. cbn [to15]. f_equal.
  induction IH as [|a r Ha _ IHr]; [reflexivity|]. cbn [of15s to15s]. rewrite Ha, IHr. reflexivity.
Qed.

Lemma print_of15 : forall t, TL.tref_string (of15 t) = TR.print t.
Proof. intros t. rewrite <- (proj1 print_to15 (of15 t)), to15_of15. reflexivity. Qed.

Lemma print_named_eq : forall quote q name args,
  TL.print quote (TL.ANamed q name args) =
  (if is_nil q then [] else q ++ [TL.dot]) ++ name ++
  (match args with TL.ANil => [] | _ => [TL.lbrack] ++ TL.print_args quote args ++ [TL.rbrack] end).
Proof. reflexivity. Qed.

Lemma tref_string_eq : forall pkg name args,
  TL.tref_string (TL.TRef pkg name args) =
  (if is_nil pkg then [] else pkg ++ [TL.dot]) ++ name ++
  (match args with TL.TRNil => [] | _ => [TL.lbrack] ++ TL.trefs_string args ++ [TL.rbrack] end).
Proof. reflexivity. Qed.

Lemma print_args_cons : forall quote t r,
  TL.print_args quote (TL.ACons t r) =
  match r with TL.ANil => TL.print quote t | _ => TL.print quote t ++ [TL.comma] ++ TL.print_args quote r end.
Proof. intros quote t [|t2 r2]; reflexivity. Qed.

Lemma trefs_string_cons : forall t r,
  TL.trefs_string (TL.TRCons t r) =
  match r with TL.TRNil => TL.tref_string t | _ => TL.tref_string t ++ [TL.comma] ++ TL.trefs_string r end.
Proof. intros t [|t2 r2]; reflexivity. Qed.

Lemma print_asts :
  (forall t quote, TL.print quote (TL.ast_of_tref t) = TL.tref_string t) /\
  (forall l quote, TL.print_args quote (TL.asts_of_trefs l) = TL.trefs_string l).
Proof.
  apply tref_mutind.
  - intros pkg name args IH quote.
    change (TL.ast_of_tref (TL.TRef pkg name args)) with (TL.ANamed pkg name (TL.asts_of_trefs args)).
    rewrite print_named_eq, tref_string_eq, (IH quote). destruct args; reflexivity.
  - reflexivity.
  - intros t IHt r IHr quote.
    change (TL.asts_of_trefs (TL.TRCons t r)) with (TL.ACons (TL.ast_of_tref t) (TL.asts_of_trefs r)).
    rewrite print_args_cons, trefs_string_cons, IHt, (IHr quote). destruct r; reflexivity.
Qed.

Lemma print_named_self : forall quote t, TL.print quote (TL.named_ast false [] t []) = TL.tref_string t.
Proof.
  intros quote [[|c q] n args]; cbn [TL.named_ast andb]; [|reflexivity].
  change (TL.ANamed [] n (TL.asts_of_trefs args)) with (TL.ast_of_tref (TL.TRef [] n args)). apply print_asts.
Qed.

Lemma print_named_foreign : forall quote q t, TL.print quote (TL.named_ast true q t []) = q ++ [TL.dot] ++ TL.tref_string t.
Proof.
  intros quote q [[|c p] n args]; cbn [TL.named_ast andb]; [|cbn [TL.print]; rewrite <- app_assoc; reflexivity].
  destruct q as [|c q]; cbn [is_nil]; [reflexivity|].
  rewrite print_named_eq, tref_string_eq. cbn [is_nil app]. rewrite <- app_assoc. f_equal. f_equal. f_equal.
  rewrite (proj2 print_asts args quote). destruct args; reflexivity.
Qed.

Section Agree.
  Variable pre : list bytes.
  Variable std : option Tk.tracker.
  Variable self : bytes.
  Variable cbq : bytes -> bool.
  Variables fe ft : bool.
  Variable quote : bytes -> bytes.

  Notation pick := (pick_c03 pre std).
  Notation cadd := (cadd pre std).
  Notation walk11 := (TL.walk pick self).
  Notation walks11 := (TL.walks pick self).
  Notation walk15 := (TR.walk Tk.tracker cadd cname self).
  Notation walk_list15 := (TR.walk_list Tk.tracker cadd cname self).

  Definition nd (e : TL.renv) : Prop := NoDup (map fst e).

  Lemma walk15_eq : forall p n args tr,
    walk15 (TR.TRef p n args) tr =
    let '(p', tr1) := TR.visit Tk.tracker cadd cname self p tr in
    let '(args', tr2) := walk_list15 args tr1 in
    (TR.TRef p' n args', tr2).
  Proof. reflexivity. Qed.

  Lemma walk_list15_cons : forall a r tr,
    walk_list15 (a :: r) tr =
    let '(a', tra) := walk15 a tr in let '(r', trr) := walk_list15 r tra in (a' :: r', trr).
  Proof. reflexivity. Qed.

  (* the C15 side computes what the C11 side does, read through [conv] and [tr_of]; the C11 table stays duplicate-free *)
  Definition same {A B} (conv : B -> A) (x : A * Tk.tracker) (y : B * TL.renv) : Prop :=
    nd (snd y) /\ x = (conv (fst y), tr_of (snd y)).

  Definition walk_ok (t : TR.tref) : Prop :=
    forall e, nd e -> same to15 (walk15 t (tr_of e)) (walk11 (of15 t) e).

  Lemma walks_agree : forall l, Forall walk_ok l -> forall e, nd e ->
    same to15s (walk_list15 l (tr_of e)) (walks11 (of15s l) e).
  Proof.
    intros l H. induction H as [|t r Ht _ IHr]; intros e He; [split; [exact He|reflexivity]|].
    rewrite walk_list15_cons. cbn [of15s]. rewrite Proofs.TypeLit.walks_cons_eq.
    destruct (Ht e He) as (A & ->). destruct (walk11 (of15 t) e) as [t1 e1]. cbn [fst snd] in *.
    destruct (IHr e1 A) as (B & ->). destruct (walks11 (of15s r) e1) as [r1 e2]. split; [exact B|reflexivity].
  Qed.

  Lemma walk_agree : forall t, walk_ok t.
  Proof.
    induction t as [p n args IH] using Gengo.Proofs.TypeRef.tref_ind'. intros e He.
    (* the arguments, from whatever table [e'] and qualifier [q] the head leaves *)
    assert (K : forall q e', nd e' ->
              same to15 (let '(args', tr2) := walk_list15 args (tr_of e') in (TR.TRef q n args', tr2))
                        (let '(args', e2) := walks11 (of15s args) e' in (TL.TRef q n args', e2))).
    { intros q e' He'. destruct (walks_agree args IH e' He') as (B & ->).
      destruct (walks11 (of15s args) e') as [r1 e2]. split; [exact B|reflexivity]. }
    rewrite of15_eq, Proofs.TypeLit.walk_eq, walk15_eq. unfold TR.visit.
    destruct (is_nil p); [exact (K p e He)|]. destruct (bytes_eqb p self); [exact (K [] e He)|].
    cbv zeta. rewrite <- (tr_add_simulation pre std p e).
    pose proof (tr_add_nodup pre std p e He) as He1. rewrite <- (local_name_simulation p _ He1). exact (K _ _ He1).
  Qed.

  (* processName *)
  Lemma process_name_agree : forall name e, nd e ->
    match TR.process_name Tk.tracker cadd cname self true (tr_of e) name,
          TL.process_name pick parse_c15 self name e with
    | Ok (tn, tr1), Ok (t1, e1) => tn = TL.tref_string t1 /\ tr1 = tr_of e1 /\ nd e1
    | Panic, Panic => True
    | _, _ => False
    end.
  Proof.
    intros name e He. unfold TR.process_name, TL.process_name, parse_c15.
    destruct (Gengo.Proofs.TypeRef.parse_type_ref_total true name) as [r ->]. cbn [bind].
    destruct r as [t|err]; [|exact I].
    destruct t as [p n args]. rewrite of15_eq. cbn [TR.t_args TR.t_name].
    destruct args as [|a r]; cbn [is_nil of15s].
    - cbn [TL.tref_string is_nil app]. rewrite app_nil_r. auto.
    - change (TL.TRef p n (TL.TRCons (of15 a) (of15s r))) with (TL.TRef p n (of15s (a :: r))). rewrite <- of15_eq.
      destruct (walk_agree (TR.TRef p n (a :: r)) e He) as (A & ->).
      destruct (walk11 (of15 (TR.TRef p n (a :: r))) e) as [t1 e1]. cbn [fst snd] in *.
      rewrite (proj1 print_to15). auto.
  Qed.

  Lemma tref_string_nil : forall t, TL.tref_string t = [] <-> t = TL.TRef [] [] TL.TRNil.
  Proof.
    intros [[|c p] [|d n] [|a r]]; cbn; split; intros H; try reflexivity; try discriminate; try (inversion H; fail).
    all: try (destruct (p ++ [TL.dot]); discriminate).
  Qed.

  (* rawNamer.Name on a Ref(p, n) *)
  Lemma namer_name_agree : forall p n e, nd e ->
    match TR.namer_name Tk.tracker cadd cname self true (tr_of e) p n,
          TL.namer_name pick parse_c15 self p n [] e with
    | Ok (txt, tr1), Ok (a, e1) => txt = TL.print quote a /\ tr1 = tr_of e1 /\ nd e1
    | Panic, Panic => True
    | _, _ => False
    end.
  Proof.
    intros p n e He. pose proof (process_name_agree n e He) as PN.
    destruct (TR.process_name Tk.tracker cadd cname self true (tr_of e) n) as [[tn tr1]| |] eqn:E15;
      destruct (TL.process_name pick parse_c15 self n e) as [[t1 e1]| |] eqn:E11; try contradiction;
      unfold TR.namer_name, TL.namer_name; rewrite E15, E11; cbn [bind]; [|exact I].
    destruct PN as (-> & -> & He1).
    destruct (bytes_eqb p self) eqn:Es.
    - destruct (is_nil (TL.tref_string t1)) eqn:En; cbn [negb].
      + assert (E : t1 = TL.TRef [] [] TL.TRNil) by (apply tref_string_nil; destruct (TL.tref_string t1); [reflexivity|discriminate]).
        subst t1. cbn [TL.print]. unfold TR.ref_string. cbn [fst snd]. auto.
      + rewrite (self_branch_eq p n [] t1 e1). replace (self_ast p n [] t1) with (TL.named_ast false [] t1 []).
        * rewrite print_named_self. auto.
        * destruct t1 as [[|c q] [|d m] [|a r]]; try reflexivity. discriminate.
    - cbv zeta. rewrite <- (tr_add_simulation pre std p e1).
      pose proof (tr_add_nodup pre std p e1 He1) as He2. rewrite <- (local_name_simulation p _ He2).
      rewrite print_named_foreign. auto.
  Qed.

  (* snippet.ID(s) *)
  Theorem id_string_agree : forall s e, nd e ->
    match TR.snippet_id Tk.tracker cadd cname self true (tr_of e) s,
          TL.ident_frag pick parse_c15 self cbq fe ft (TL.IdStr s) e with
    | Ok (txt, tr1), Ok (a, e1) => txt = TL.print quote a /\ tr1 = tr_of e1 /\ nd e1
    | Panic, Panic => True
    | _, _ => False
    end.
  Proof.
    intros s e He. unfold TR.snippet_id. rewrite parse_ref_agree. cbn [bind TL.ident_frag].
    destruct (TL.parse_ref s) as [[p n]|].
    - apply namer_name_agree, He.
    - unfold TL.raw_ast. destruct (TL.is_ident s); cbn [TL.print is_nil app]; [rewrite app_nil_r|]; auto.
  Qed.
End Agree.
