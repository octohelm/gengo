(* Lemmas for C09: the scanner loops of the snippet package compute tokenise-then-substitute.
   DEFINED here and used in statements of Props/C09.v: [verbs] (the number of verbs in a token list) and the data of
   the refutations, [Bk] and [before_bom_fix]. *)
Require Import Gengo.Base.Bytes Gengo.Model.Snippet Gengo.Model.SnippetSpec.
Require Import Lia.

(* a character known to equal a constant is replaced by it; a false equation between constants closes the goal *)
Ltac chars :=
  repeat match goal with
         | H : Ascii.eqb ?x ?y = true |- _ =>
             first [ is_var x; apply Ascii.eqb_eq in H; subst x
                   | exfalso; vm_compute in H; discriminate H ]
         end.

Lemma emitr_nil : forall k, emitr (Ok []) k = k.
Proof. intros [b| |]; reflexivity. Qed.

Lemma lookup_Forall : forall {A} (P : A -> Prop) n (l : list (bytes * A)) v,
  Forall (fun p => P (snd p)) l -> lookup n l = Some v -> P v.
Proof.
  intros A P n l v Hall. induction Hall as [|[k x] r Hx _ IH]; cbn [lookup]; [discriminate|].
  destruct (lookup n r) as [y|].
  - exact IH.
  - destruct (bytes_eqb k n); [|discriminate]. intros [= <-]. exact Hx.
Qed.

Lemma lookup_map : forall {X Y} (f : X -> Y) n (l : list (bytes * X)),
  lookup n (map (fun p => (fst p, f (snd p))) l) = option_map f (lookup n l).
Proof.
  intros X Y f n l. induction l as [|[k x] r IH]; [reflexivity|]. cbn [map lookup fst snd]. rewrite IH.
  destruct (lookup n r); [reflexivity|]. destruct (bytes_eqb k n); reflexivity.
Qed.

Lemma cat_res_cons : forall a l, cat_res (a :: l) = emitr a (cat_res l).
Proof. reflexivity. Qed.

Lemma suntok_cons : forall t r, suntok (t :: r) = suntok1 t ++ suntok r.
Proof. reflexivity. Qed.

Lemma untok_cons : forall t r, untok (t :: r) = untok1 t ++ untok r.
Proof. reflexivity. Qed.

Lemma span_eq : forall p s a b,
  span p s = (a, b) -> s = a ++ b /\ forallb p a = true /\ head_is p b = false.
Proof.
  intros p s. induction s as [|c r IH]; intros a b H; cbn [span] in H.
  - injection H as <- <-. auto.
  - destruct (p c) eqn:E.
    + destruct (span p r) as [a' b']. injection H as <- <-.
      destruct (IH a' b' eq_refl) as (-> & H2 & H3). cbn [app forallb]. rewrite E. auto.
    + injection H as <- <-. cbn [head_is]. auto.
Qed.

Lemma span_app : forall p n r,
  forallb p n = true -> head_is p r = false -> span p (n ++ r) = (n, r).
Proof.
  intros p n r. induction n as [|c n IH]; cbn; intros Hn Hr.
  - destruct r as [|d r]; cbn in *; [reflexivity | rewrite Hr; reflexivity].
  - apply andb_true_iff in Hn as [H1 H2]. rewrite H1, (IH H2 Hr). reflexivity.
Qed.

Lemma untok1_hole : forall n a r,
  untok1 (Hole n a) ++ r = c_at :: n ++ (if a then c_apos :: r else r).
Proof.
  intros n a r. cbn [untok1 app]. rewrite <- app_assoc. destruct a; reflexivity.
Qed.

Lemma Tokens_cons : forall t r ts,
  Tokens r ts -> wf_tok t r = true -> Tokens (untok1 t ++ r) (t :: ts).
Proof.
  intros t r ts [H1 H2] Ht. split.
  - rewrite untok_cons, H1. reflexivity.
  - cbn [wf_toks]. rewrite H1, Ht, H2. reflexivity.
Qed.

Lemma tf_cons : forall k t r,
  wf_tok t r = true -> tokenize_fuel (S k) (untok1 t ++ r) = t :: tokenize_fuel k r.
Proof.
  intros k t r H. destruct t as [c|n a].
  - cbn [untok1 app tokenize_fuel wf_tok] in *. destruct (Ascii.eqb c c_at) eqn:E; [|reflexivity].
    chars. apply negb_true_iff in H.
    rewrite (span_app is_name [] r eq_refl H : span is_name r = ([], r)). reflexivity.
  - rewrite untok1_hole. cbn [wf_tok tokenize_fuel] in *.
    apply andb_true_iff in H as [H Ha]. apply andb_true_iff in H as [Hne Hn].
    rewrite Ascii.eqb_refl. destruct n as [|n0 n']; [discriminate|]. destruct a.
    + rewrite (span_app is_name _ (c_apos :: r) Hn eq_refl), Ascii.eqb_refl. reflexivity.
    + apply negb_true_iff in Ha. destruct r as [|d r'].
      * rewrite (span_app is_name _ [] Hn eq_refl). destruct k; reflexivity.
      * cbn [head_is] in Ha. apply orb_false_iff in Ha as [Hd Hap].
        rewrite (span_app is_name _ (d :: r') Hn Hd), Hap. reflexivity.
Qed.

Lemma tf_tokens : forall k s, length s < k -> Tokens s (tokenize_fuel k s).
Proof.
  induction k as [|k IH]; intros s Hl; [lia|].
  destruct s as [|c r]; [split; reflexivity|]. cbn [length tokenize_fuel] in *.
  destruct (Ascii.eqb c c_at) eqn:E.
  2: { apply (Tokens_cons (Lit c)); [apply IH; lia | cbn; rewrite E; reflexivity]. }
  chars. destruct (span is_name r) as [n rest] eqn:Es. apply span_eq in Es as (-> & E2 & E3).
  rewrite app_length in Hl. destruct n as [|n0 n'].
  - apply (Tokens_cons (Lit c_at)); [apply (IH rest); cbn in Hl; lia | cbn; rewrite E3; reflexivity].
  - destruct rest as [|d rest']; [|destruct (Ascii.eqb d c_apos) eqn:Ed].
    + rewrite <- (untok1_hole _ false). apply (Tokens_cons _ [] []); [split; reflexivity|].
      cbn [wf_tok is_nil negb andb]. rewrite E2. reflexivity.
    + chars. rewrite <- (untok1_hole _ true). apply Tokens_cons; [apply IH; cbn [length] in Hl; lia|].
      cbn [wf_tok is_nil negb andb]. rewrite E2. reflexivity.
    + rewrite <- (untok1_hole _ false). apply Tokens_cons; [apply IH; lia|].
      cbn [wf_tok is_nil negb andb orb head_is] in *. unfold name_or_apos. rewrite E2, E3, Ed. reflexivity.
Qed.

Lemma untok1_length : forall t, 1 <= length (untok1 t).
Proof. intros [c|n a]; cbn; lia. Qed.

Lemma tf_unique : forall ts, wf_toks ts = true ->
  forall k, length (untok ts) < k -> tokenize_fuel k (untok ts) = ts.
Proof.
  induction ts as [|t r IH]; intros H k Hk.
  - destruct k; [cbn in Hk; lia | reflexivity].
  - cbn [wf_toks] in H. apply andb_true_iff in H as [Ht Hr]. rewrite untok_cons in *.
    destruct k as [|k]; [lia|]. rewrite (tf_cons k t _ Ht). f_equal.
    apply (IH Hr). rewrite app_length in Hk. pose proof (untok1_length t). lia.
Qed.

Lemma tf_irrel : forall k k' s,
  length s < k -> length s < k' -> tokenize_fuel k s = tokenize_fuel k' s.
Proof.
  intros k k' s Hk Hk'. destruct (tf_tokens k s Hk) as [E W].
  pose proof (tf_unique _ W k') as U. rewrite E in U. symmetry. exact (U Hk').
Qed.

Lemma tokenize_tokens : forall s, Tokens s (tokenize s).
Proof. intros s. apply tf_tokens. lia. Qed.

Lemma tokens_unique : forall s ts, Tokens s ts -> ts = tokenize s.
Proof. intros s ts [H1 H2]. subst s. symmetry. apply tf_unique; [exact H2 | lia]. Qed.

(* not an instance of [tf_cons]: [tokenize] takes its fuel from the whole text, so the tail runs with fuel to spare;
   uniqueness of the reading bridges that *)
Lemma tokenize_cons : forall t r, wf_tok t r = true -> tokenize (untok1 t ++ r) = t :: tokenize r.
Proof.
  intros t r H. symmetry. apply tokens_unique, Tokens_cons; [apply tokenize_tokens | exact H].
Qed.

Lemma tokenize_nil : tokenize [] = [].
Proof. reflexivity. Qed.

Lemma scan_cons : forall fx args c r,
  scan fx args (c :: r) =
  if Ascii.eqb c c_at then name_loop fx args r [] else emit [c] (scan fx args r).
Proof. reflexivity. Qed.

Lemma name_loop_nil : forall fx args named,
  name_loop fx args [] named = after_name fx args named None (Ok []).
Proof. reflexivity. Qed.

Lemma name_loop_cons : forall fx args c r' named,
  name_loop fx args (c :: r') named =
  if Ascii.eqb c c_apos then after_name fx args named (Some c) (scan fx args r')
  else if is_name c then name_loop fx args r' (named ++ [c])
  else after_name fx args named (Some c)
         (if Ascii.eqb c c_at then name_loop fx args r' [] else scan fx args r').
Proof. reflexivity. Qed.

Lemma emit_not_ok : forall b k, is_ok k = false -> is_ok (emit b k) = false.
Proof. intros b [x| |] H; [discriminate H | reflexivity | reflexivity]. Qed.

Lemma emitr_not_ok : forall o k, is_ok k = false -> is_ok (emitr o k) = false.
Proof. intros [a| |] [x| |] H; (reflexivity || discriminate H). Qed.

Lemma is_name_apos : forall c, is_name c = true -> Ascii.eqb c c_apos = false.
Proof.
  intros c H. destruct (Ascii.eqb c c_apos) eqn:E; [|reflexivity]. chars. discriminate H.
Qed.

Section TplProof.
  Variable args : list (bytes * aview).

  (* [piece] does not look at the apostrophe flag of a hole: any [a] will do *)
  Lemma after_name_hole : forall named a c k, named <> [] ->
    after_name all_fixed args named c k = emitr (piece args (Hole named a)) (tail all_fixed true c k).
  Proof.
    intros named a c k Hne. destruct named as [|n0 n']; [congruence|]. cbn [after_name piece].
    destruct (lookup (n0 :: n') args) as [[|[|] out]|]; [rewrite emitr_nil..| |]; reflexivity.
  Qed.

  Lemma tail_scan : forall b c r,
    Ascii.eqb c c_apos = false ->
    tail all_fixed b (Some c)
      (if Ascii.eqb c c_at then name_loop all_fixed args r [] else scan all_fixed args r)
    = scan all_fixed args (c :: r).
  Proof.
    intros b c r Ea. rewrite scan_cons. unfold tail. rewrite Ea. destruct (Ascii.eqb c c_at); reflexivity.
  Qed.

  Lemma name_loop_app : forall n s named, forallb is_name n = true ->
    name_loop all_fixed args (n ++ s) named = name_loop all_fixed args s (named ++ n).
  Proof.
    induction n as [|c n IH]; intros s named H; [rewrite app_nil_r; reflexivity|].
    cbn [forallb] in H. apply andb_true_iff in H as [Hc Hn]. cbn [app].
    rewrite name_loop_cons, (is_name_apos c Hc), Hc, (IH _ _ Hn), <- app_assoc. reflexivity.
  Qed.

  Lemma scan_tok : forall t r, wf_tok t r = true ->
    scan all_fixed args (untok1 t ++ r) = emitr (piece args t) (scan all_fixed args r).
  Proof.
    intros [c|n a] r H.
    - cbn [untok1 app wf_tok] in *. rewrite scan_cons. destruct (Ascii.eqb c c_at) eqn:E; [|reflexivity].
      chars. destruct r as [|d r']; [reflexivity|].
      cbn [head_is] in H. apply negb_true_iff in H. rewrite name_loop_cons, H.
      destruct (Ascii.eqb d c_apos) eqn:Ea; [chars; reflexivity|].
      cbn [after_name all_fixed fx_at]. rewrite (tail_scan _ _ _ Ea). reflexivity.
    - cbn [wf_tok] in H. apply andb_true_iff in H as [H Ha]. apply andb_true_iff in H as [Hne Hn].
      assert (Hne' : n <> []) by (intros ->; discriminate Hne).
      rewrite untok1_hole, scan_cons, Ascii.eqb_refl, (name_loop_app n _ [] Hn). cbn [app]. destruct a.
      + rewrite name_loop_cons, Ascii.eqb_refl. exact (after_name_hole n true (Some c_apos) _ Hne').
      + destruct r as [|d r']; [rewrite name_loop_nil; exact (after_name_hole n false None _ Hne')|].
        apply negb_true_iff, orb_false_iff in Ha as [Hd Hap].
        rewrite name_loop_cons, Hap, Hd, (after_name_hole n false _ _ Hne'), (tail_scan _ _ _ Hap). reflexivity.
  Qed.

  Lemma scan_toks : forall s ts, Tokens s ts -> scan all_fixed args s = subst args ts.
  Proof.
    intros s ts [<- Hw]. induction ts as [|t r IH]; [reflexivity|].
    cbn [wf_toks] in Hw. apply andb_true_iff in Hw as [Ht Hr].
    rewrite untok_cons, (scan_tok t _ Ht), (IH Hr). reflexivity.
  Qed.

  Lemma scan_spec : forall s, scan all_fixed args s = subst args (tokenize s).
  Proof. intros s. apply scan_toks, tokenize_tokens. Qed.

  Lemma tpl_spec : forall f,
    tpl_impl all_fixed args f = subst args (tokenize (sc_view (trim_nl f))).
  Proof. intros f. apply scan_spec. Qed.

  Lemma subst_missing : forall ts n a,
    In (Hole n a) ts -> lookup n args = None -> is_ok (subst args ts) = false.
  Proof.
    induction ts as [|t r IH]; intros n a Hin Hl; [destruct Hin|].
    destruct Hin as [->|Hin].
    - cbn [subst piece]. rewrite Hl. reflexivity.
    - exact (emitr_not_ok _ _ (IH n a Hin Hl)).
  Qed.
End TplProof.

Lemma list_ind2 : forall (A : Type) (P : list A -> Prop),
  P [] -> (forall a, P [a]) -> (forall a b l, P l -> P (b :: l) -> P (a :: b :: l)) ->
  forall l, P l.
Proof.
  intros A P H0 H1 H2. assert (H : forall l, P l /\ forall a, P (a :: l)); [|intros l; apply H].
  induction l as [|b l [IH1 IH2]]; [split; [exact H0 | exact H1]|].
  split; [apply IH2 | intros a; apply H2; [exact IH1 | apply IH2]].
Qed.

Lemma sp_scan_spec : forall s args, sp_scan all_fixed s args = ssubst (stokenize s) args.
Proof.
  induction s as [|c|c d r IH1 IH2] using list_ind2; intros args.
  - reflexivity.
  - cbn. destruct (Ascii.eqb c c_pct); reflexivity.
  - cbn [sp_scan stokenize]. destruct (Ascii.eqb c c_pct); [|exact (f_equal (emit _) (IH2 args))].
    destruct (Ascii.eqb d c_T) eqn:ET; [|destruct (Ascii.eqb d c_v) eqn:EV].
    1,2: chars; destruct args as [|a args']; [reflexivity | exact (f_equal (emitr _) (IH1 args'))].
    destruct (Ascii.eqb d c_pct); [exact (f_equal (emit _) (IH1 args)) | reflexivity].
Qed.

Lemma sp_spec : forall f args, sp_impl all_fixed f args = ssubst (stokenize (sc_view f)) args.
Proof. intros f args. apply sp_scan_spec. Qed.

Lemma stok_tokens : forall s, suntok (stokenize s) = s /\ swf (stokenize s) = true.
Proof.
  induction s as [|c|c d r [H1 H2] [H3 H4]] using list_ind2.
  - split; reflexivity.
  - cbn [stokenize]. destruct (Ascii.eqb c c_pct) eqn:E; [chars; split; reflexivity|].
    cbn. rewrite E. split; reflexivity.
  - cbn [stokenize]. destruct (Ascii.eqb c c_pct) eqn:E.
    + chars. rewrite suntok_cons. cbn [swf]. rewrite H1, H2.
      destruct (Ascii.eqb d c_v) eqn:EV; [chars; split; reflexivity|].
      destruct (Ascii.eqb d c_T) eqn:ET; [chars; split; reflexivity|].
      destruct (Ascii.eqb d c_pct) eqn:EP; [chars; split; reflexivity|].
      rewrite EV, ET, EP. split; reflexivity.
    + change (suntok (KLit c :: stokenize (d :: r)) = c :: d :: r /\ swf (KLit c :: stokenize (d :: r)) = true).
      rewrite suntok_cons. cbn [swf]. rewrite H3, H4, E. split; reflexivity.
Qed.

Lemma stok_unique : forall ts, swf ts = true -> stokenize (suntok ts) = ts.
Proof.
  induction ts as [|t r IH]; intros H; [reflexivity|].
  cbn [swf] in H. apply andb_true_iff in H as [Ht Hr]. specialize (IH Hr).
  rewrite suntok_cons. destruct t as [c| | | |[d|]]; cbn [suntok1 app stokenize].
  2-4: rewrite IH; reflexivity.
  - apply negb_true_iff in Ht. rewrite Ht, IH. reflexivity.
  - apply andb_true_iff in Ht as [Ht H3]. apply andb_true_iff in Ht as [H1 H2].
    apply negb_true_iff in H1, H2, H3. rewrite Ascii.eqb_refl, H1, H2, H3, IH. reflexivity.
  - destruct r; [reflexivity | cbn in Ht; discriminate].
Qed.

(* any other verb: no output *)
Lemma ssubst_bad : forall ts c args, In (KBad c) ts -> is_ok (ssubst ts args) = false.
Proof.
  induction ts as [|t r IH]; intros c args Hin; [destruct Hin|].
  destruct Hin as [->|Hin]; [reflexivity|].
  destruct t as [d| | | |d]; cbn [ssubst].
  1,4: exact (emit_not_ok _ _ (IH c args Hin)).
  3: reflexivity.
  all: destruct args as [|a args']; [reflexivity | exact (emitr_not_ok _ _ (IH c args' Hin))].
Qed.

(* more verbs than arguments: no output *)
Definition verbs (ts : list stok) : nat :=
  length (filter (fun t => match t with KV | KT => true | _ => false end) ts).

Lemma ssubst_missing : forall ts args, length args < verbs ts -> is_ok (ssubst ts args) = false.
Proof.
  unfold verbs. induction ts as [|t r IH]; intros args H; [cbn in H; lia|].
  destruct t as [d| | | |d]; cbn [filter length ssubst] in *.
  1,4: exact (emit_not_ok _ _ (IH args H)).
  3: reflexivity.
  all: destruct args as [|a args']; [reflexivity|]; apply emitr_not_ok, IH; cbn [length] in H; lia.
Qed.

Lemma comment_loop_join : forall r l i,
  comment_loop i (l :: r)
  = match i with O => [] | S _ => [c_nl] end ++ join_nl (map (app slashes) (l :: r)).
Proof.
  induction r as [|l2 r IH]; intros l i.
  - cbn [comment_loop map join_nl]. rewrite app_nil_r. reflexivity.
  - change (comment_loop i (l :: l2 :: r))
      with (match i with O => [] | S _ => [c_nl] end ++ slashes ++ l ++ comment_loop (S i) (l2 :: r)).
    rewrite IH. cbn [map join_nl app]. rewrite <- app_assoc. reflexivity.
Qed.

Lemma comment_impl_spec : forall v, comment_impl v = comment_spec v.
Proof.
  intros v. unfold comment_impl, comment_spec. destruct (is_nil v); [reflexivity|].
  destruct (split_nl v) as [|l r]; [reflexivity | exact (comment_loop_join r l 0)].
Qed.

Definition no_nl (l : bytes) : bool := forallb (fun c => negb (Ascii.eqb c c_nl)) l.

Lemma split_nl_nonempty : forall s, split_nl s <> [].
Proof.
  induction s as [|c r IH]; cbn; [discriminate|].
  destruct (Ascii.eqb c c_nl); [discriminate|]. destruct (split_nl r); [congruence | discriminate].
Qed.

Lemma split_nl_no_nl : forall s, forallb no_nl (split_nl s) = true.
Proof.
  induction s as [|c r IH]; [reflexivity|]. cbn [split_nl].
  destruct (Ascii.eqb c c_nl) eqn:E; [exact IH|].
  destruct (split_nl r) as [|h t]; cbn in *; rewrite E; cbn [negb andb]; [reflexivity | exact IH].
Qed.

Lemma join_split_nl : forall s, join_nl (split_nl s) = s.
Proof.
  induction s as [|c r IH]; [reflexivity|]. cbn [split_nl].
  pose proof (split_nl_nonempty r) as Hne. destruct (Ascii.eqb c c_nl) eqn:E.
  - chars.
    cbn [join_nl]. destruct (split_nl r) as [|h t]; [congruence|]. rewrite IH. reflexivity.
  - destruct (split_nl r) as [|h t]; [congruence|]. rewrite <- IH. destruct t; reflexivity.
Qed.

Lemma split_nl_app_line : forall l s, no_nl l = true ->
  split_nl (l ++ c_nl :: s) = l :: split_nl s.
Proof.
  induction l as [|c l IH]; intros s Hl.
  - cbn [app split_nl]. rewrite Ascii.eqb_refl. reflexivity.
  - cbn in Hl. apply andb_true_iff in Hl as [Hc Hl]. apply negb_true_iff in Hc.
    cbn [app split_nl]. rewrite Hc, (IH s Hl). reflexivity.
Qed.

Lemma split_nl_line : forall l, no_nl l = true -> split_nl l = [l].
Proof.
  induction l as [|c l IH]; intros Hl; [reflexivity|].
  cbn in Hl. apply andb_true_iff in Hl as [Hc Hl]. apply negb_true_iff in Hc.
  cbn [split_nl]. rewrite Hc, (IH Hl). reflexivity.
Qed.

Lemma split_join_nl : forall ls, ls <> [] -> forallb no_nl ls = true -> split_nl (join_nl ls) = ls.
Proof.
  induction ls as [|l r IH]; intros Hne Hl; [congruence|].
  cbn in Hl. apply andb_true_iff in Hl as [H1 H2]. cbn [join_nl].
  destruct r as [|l2 r2]; [apply split_nl_line; exact H1|].
  rewrite (split_nl_app_line _ _ H1), IH; [reflexivity | discriminate | exact H2].
Qed.

Lemma no_nl_map_slashes : forall ls,
  forallb no_nl ls = true -> forallb no_nl (map (app slashes) ls) = true.
Proof.
  induction ls as [|l r IH]; intros H; [reflexivity|].
  cbn [forallb] in H. apply andb_true_iff in H as [H1 H2]. cbn [map forallb].
  rewrite (IH H2), andb_true_r. unfold no_nl in *. rewrite forallb_app, H1. reflexivity.
Qed.

Lemma directive_args_spec : forall args,
  directive_args args = concat (map (app (bs " ")) (filter nonempty args)).
Proof.
  induction args as [|a r IH]; [reflexivity|]. cbn [directive_args filter].
  change (nonempty a) with (negb (is_nil a)).
  destruct (negb (is_nil a)); [|exact IH]. cbn [map concat]. rewrite IH, <- app_assoc. reflexivity.
Qed.

Lemma directive_impl_spec : forall d args, directive_impl d args = directive_spec d args.
Proof.
  intros d args. unfold directive_impl, directive_spec. rewrite directive_args_spec. reflexivity.
Qed.

(* text/scanner, as the repaired code uses it, is transparent on well-formed UTF-8 *)

Lemma sc_go_id : forall s k, utf8_go s k = true -> sc_go s k = s.
Proof.
  induction s as [|b r IH]; intros k H; [reflexivity|].
  cbn [sc_go utf8_go] in *. destruct k as [|k].
  - destruct (rune_len (b :: r)) as [|k']; [discriminate|]. f_equal. apply IH. exact H.
  - f_equal. apply IH. exact H.
Qed.

(* the byte order mark the scanner discards is the one the code put in front *)
Lemma sc_view_go : forall f, sc_view f = sc_go f 0.
Proof. reflexivity. Qed.

Lemma sc_view_id : forall f, utf8b f = true -> sc_view f = f.
Proof. intros f. exact (sc_go_id f 0). Qed.

(* ... and as the code before fixes/C09-5-leading-bom.diff used it, when there is no leading U+FEFF *)
Lemma sc_raw_id : forall f, utf8b f = true -> has_bom f = false -> sc_raw f = f.
Proof. intros f H1 H2. unfold sc_raw, drop_bom. rewrite H2. apply sc_go_id. exact H1. Qed.

Lemma rng_iff : forall lo hi c, rng lo hi c = true <-> (lo <= nb c /\ nb c <= hi)%N.
Proof.
  intros lo hi c. unfold rng. rewrite andb_true_iff, !N.leb_le. reflexivity.
Qed.

Lemma rng_sub : forall lo hi lo' hi' c,
  rng lo hi c = true -> N.leb lo' lo = true -> N.leb hi hi' = true -> rng lo' hi' c = true.
Proof.
  intros lo hi lo' hi' c H H1 H2. apply rng_iff in H. apply N.leb_le in H1, H2. apply rng_iff. lia.
Qed.

Lemma rng_disj : forall lo hi lo' hi' c,
  rng lo hi c = true -> N.ltb hi' lo = true -> rng lo' hi' c = false.
Proof.
  intros lo hi lo' hi' c H Hd. apply rng_iff in H. apply N.ltb_lt in Hd.
  destruct (rng lo' hi' c) eqn:E; [|reflexivity]. apply rng_iff in E. lia.
Qed.

(* the ranges of the first byte of a two-, three- and four-byte sequence *)
Lemma wf2_first : forall b0 b1, wf2 b0 b1 = true -> rng 194 223 b0 = true.
Proof. intros b0 b1 H. apply andb_true_iff in H as [H _]. exact H. Qed.

Lemma wf3_first : forall b0 b1 b2, wf3 b0 b1 b2 = true -> rng 224 239 b0 = true.
Proof.
  intros b0 b1 b2 H. unfold wf3 in H. apply andb_true_iff in H as [H _].
  repeat (apply orb_true_iff in H as [H|H]); apply andb_true_iff in H as [H _];
    exact (rng_sub _ _ 224 239 _ H eq_refl eq_refl).
Qed.

Lemma wf4_first : forall b0 b1 b2 b3, wf4 b0 b1 b2 b3 = true -> rng 240 244 b0 = true.
Proof.
  intros b0 b1 b2 b3 H. unfold wf4 in H. apply andb_true_iff in H as [H _].
  apply andb_true_iff in H as [H _].
  repeat (apply orb_true_iff in H as [H|H]); apply andb_true_iff in H as [H _];
    exact (rng_sub _ _ 240 244 _ H eq_refl eq_refl).
Qed.

(* a first byte in a later range fails the earlier tests of [rune_len] *)
Lemma not_ascii : forall lo hi c, rng lo hi c = true -> N.leb 128 lo = true -> N.ltb (nb c) 128 = false.
Proof.
  intros lo hi c H Hlo. apply rng_iff in H. apply N.leb_le in Hlo. apply N.ltb_ge. lia.
Qed.

Lemma not_wf2 : forall lo hi b0 b1, rng lo hi b0 = true -> N.ltb 223 lo = true -> wf2 b0 b1 = false.
Proof. intros lo hi b0 b1 H Hlo. unfold wf2. rewrite (rng_disj lo hi 194 223 b0 H Hlo). reflexivity. Qed.

Lemma not_wf3 : forall lo hi b0 b1 b2,
  rng lo hi b0 = true -> N.ltb 239 lo = true -> wf3 b0 b1 b2 = false.
Proof.
  intros lo hi b0 b1 b2 H Hlo. destruct (wf3 b0 b1 b2) eqn:E; [|reflexivity].
  apply wf3_first in E. rewrite (rng_disj lo hi 224 239 b0 H Hlo) in E. discriminate E.
Qed.

Lemma utf8_utf8b : forall s, utf8 s -> utf8b s = true.
Proof.
  unfold utf8b. induction 1 as [|b0 r H1 _ IH|b0 b1 r H2 _ IH|b0 b1 b2 r H3 _ IH|b0 b1 b2 b3 r H4 _ IH].
  - reflexivity.
  - cbn [utf8_go rune_len]. rewrite H1. exact IH.
  - pose proof (wf2_first _ _ H2) as Hf.
    cbn [utf8_go rune_len]. rewrite (not_ascii _ _ _ Hf eq_refl), H2. exact IH.
  - pose proof (wf3_first _ _ _ H3) as Hf.
    assert (E : rune_len (b0 :: b1 :: b2 :: r) = 3).
    { cbn [rune_len]. rewrite (not_ascii _ _ _ Hf eq_refl), (not_wf2 _ _ _ b1 Hf eq_refl), H3. reflexivity. }
    cbn [utf8_go]. rewrite E. exact IH.
  - pose proof (wf4_first _ _ _ _ H4) as Hf.
    assert (E : rune_len (b0 :: b1 :: b2 :: b3 :: r) = 4).
    { cbn [rune_len].
      rewrite (not_ascii _ _ _ Hf eq_refl), (not_wf2 _ _ _ b1 Hf eq_refl), (not_wf3 _ _ _ b1 b2 Hf eq_refl), H4.
      reflexivity. }
    cbn [utf8_go]. rewrite E. exact IH.
Qed.

Lemma rune_len_utf8 : forall b0 r k, rune_len (b0 :: r) = S k -> utf8 (skipn k r) -> utf8 (b0 :: r).
Proof.
  intros b0 r k H U. cbn [rune_len] in H.
  destruct (N.ltb (nb b0) 128) eqn:E0; [injection H as <-; exact (U1 _ _ E0 U)|].
  destruct r as [|b1 r1]; [discriminate|].
  destruct (wf2 b0 b1) eqn:E2; [injection H as <-; exact (U2 _ _ _ E2 U)|].
  destruct r1 as [|b2 r2]; [discriminate|].
  destruct (wf3 b0 b1 b2) eqn:E3; [injection H as <-; exact (U3 _ _ _ _ E3 U)|].
  destruct r2 as [|b3 r3]; [discriminate|].
  destruct (wf4 b0 b1 b2 b3) eqn:E4; [injection H as <-; exact (U4 _ _ _ _ _ E4 U) | discriminate].
Qed.

Lemma utf8_go_utf8 : forall s k, utf8_go s k = true -> utf8 (skipn k s).
Proof.
  induction s as [|b r IH]; intros k H.
  - destruct k; exact U0.
  - destruct k as [|k]; cbn [utf8_go skipn] in *; [|exact (IH k H)].
    destruct (rune_len (b :: r)) as [|k'] eqn:E; [discriminate|].
    exact (rune_len_utf8 b r k' E (IH k' H)).
Qed.

Section SnipInd.
  Variable P : snip -> Prop.
  Hypothesis HNil : P SNil.
  Hypothesis HBlock : forall b, P (SBlock b).
  Hypothesis HT : forall f args, Forall (fun p => P (snd p)) args -> P (ST f args).
  Hypothesis HSp : forall f args, Forall P args -> P (SSprintf f args).
  Hypothesis HVal : forall a b, P (SVal a b).
  Hypothesis HC : forall v, P (SComment v).
  Hypothesis HD : forall d a, P (SDirective d a).
  Hypothesis HSn : forall l, Forall P l -> P (SSnippets l).
  Hypothesis HF : forall x, P x -> P (SFragments x).
  Hypothesis HO : forall n o, P (SOpaque n o).

  Definition snip_all {A} (g : A -> snip) (f : forall s, P s) : forall l, Forall (fun a => P (g a)) l :=
    fix go l := match l with [] => Forall_nil _ | a :: r => Forall_cons a (f (g a)) (go r) end.

  Fixpoint snip_ind' (s : snip) : P s :=
    match s with
    | SNil => HNil
    | SBlock b => HBlock b
    | ST f args => HT f args (snip_all snd snip_ind' args)
    | SSprintf f args => HSp f args (snip_all (fun x => x) snip_ind' args)
    | SVal a b => HVal a b
    | SComment v => HC v
    | SDirective d a => HD d a
    | SSnippets l => HSn l (snip_all (fun x => x) snip_ind' l)
    | SFragments x => HF x (snip_ind' x)
    | SOpaque n o => HO n o
    end.
End SnipInd.

Lemma view_of_ext : forall (f g : snip -> res bytes) v, f v = g v -> view_of f v = view_of g v.
Proof. intros f g v H. unfold view_of. rewrite H. reflexivity. Qed.

Lemma sview_of_ext : forall nl (f g : snip -> res bytes) v, f v = g v -> sview_of nl f v = sview_of nl g v.
Proof. intros nl f g v H. unfold sview_of. rewrite H. reflexivity. Qed.

Lemma is_nil_call_fixed : forall c, is_nil_call all_fixed c = Ok (isnil_of c).
Proof. intros c. destruct c; reflexivity. Qed.

Lemma snippets_loop_fixed : forall fr l,
  snippets_loop all_fixed fr l = cat_res (map (fun c => if isnil_of c then Ok [] else fr c) l).
Proof.
  intros fr l. induction l as [|c r IH]; [reflexivity|].
  cbn [snippets_loop map]. rewrite is_nil_call_fixed, cat_res_cons. cbn [bind]. fold (snippets_loop all_fixed fr r).
  rewrite IH. destruct (isnil_of c); [rewrite emitr_nil|]; reflexivity.
Qed.

(* the model of the repaired code renders every snippet term to what the specification says, when
   the specification reads formats through text/scanner and a missing value literal is a panic *)
Lemma frag_spec : forall s, frag all_fixed s = spec_frag sc_view Panic s.
Proof.
  induction s as [|b|f args IH|f args IH|a b|v|d a|l IH|x IH|n o] using snip_ind'; try reflexivity.
  all: cbn [frag spec_frag].
  - rewrite tpl_spec. apply (f_equal (fun a => subst a _)). apply map_ext_Forall. refine (Forall_impl _ _ IH).
    intros p Hp. apply f_equal, view_of_ext, Hp.
  - rewrite sp_spec. apply f_equal, map_ext_Forall. refine (Forall_impl _ _ IH).
    intros p Hp. apply sview_of_ext, Hp.
  - rewrite comment_impl_spec. reflexivity.
  - rewrite directive_impl_spec. reflexivity.
  - rewrite snippets_loop_fixed. apply f_equal, map_ext_Forall. refine (Forall_impl _ _ IH).
    intros c Hc. rewrite Hc. reflexivity.
  - rewrite is_nil_call_fixed. cbn [bind]. rewrite IH. reflexivity.
Qed.

Lemma render_spec : forall s, render all_fixed s = spec_render sc_view Panic s.
Proof.
  intros s. unfold render, spec_render. rewrite frag_spec. destruct s; reflexivity.
Qed.

Lemma Forall_guarded : forall (A : Type) (p q : A -> bool) (Q : A -> Prop) l,
  Forall (fun x => p x = true -> q x = false -> Q x) l ->
  forallb p l = true -> existsb q l = false -> Forall (fun x => q x = false /\ Q x) l.
Proof.
  intros A p q Q l. induction 1 as [|x l Hx _ IH]; cbn [forallb existsb]; intros Hp Hq; [constructor|].
  apply andb_true_iff in Hp as [Hp Hp']. apply orb_false_iff in Hq as [Hq Hq'].
  constructor; [exact (conj Hq (Hx Hp Hq)) | exact (IH Hp' Hq')].
Qed.

Lemma sview_of_dom : forall nl nl' (f g : snip -> res bytes) v,
  cls_nolit v = false -> f v = g v -> sview_of nl f v = sview_of nl' g v.
Proof.
  intros nl nl' f g v Hn H. unfold sview_of. rewrite H. destruct v; try reflexivity.
  destruct vlit; [reflexivity | discriminate Hn].
Qed.

(* on the property's domain the specification does not depend on text/scanner nor on the dumper *)
Lemma spec_frag_dom : forall s, fmts_utf8 s = true -> cls_nolit s = false ->
  spec_frag sc_view Panic s = spec_frag same OutOfFuel s.
Proof.
  induction s as [|b|f args IH|f args IH|a b|v|d a|l IH|x IH|n o] using snip_ind';
    intros Hf Hn; try reflexivity.
  all: cbn [spec_frag fmts_utf8 cls_nolit] in Hf, Hn |- *.
  - apply andb_true_iff in Hf as [Hf1 Hf2].
    rewrite (sc_view_id _ Hf1). change (same (trim_nl f)) with (trim_nl f).
    apply (f_equal (fun a => subst a _)), map_ext_Forall.
    refine (Forall_impl _ _ (Forall_guarded _ _ _ _ _ IH Hf2 Hn)).
    intros p [_ Hp]. apply f_equal, view_of_ext, Hp.
  - apply andb_true_iff in Hf as [Hf1 Hf2].
    rewrite (sc_view_id _ Hf1). change (same f) with f. apply f_equal, map_ext_Forall.
    refine (Forall_impl _ _ (Forall_guarded _ _ _ _ _ IH Hf2 Hn)).
    intros p [Hnp Hp]. apply sview_of_dom; assumption.
  - apply f_equal, map_ext_Forall. refine (Forall_impl _ _ (Forall_guarded _ _ _ _ _ IH Hf Hn)).
    intros c [_ Hc]. rewrite Hc. reflexivity.
  - rewrite (IH Hf Hn). reflexivity.
Qed.

Lemma render_dom : forall s, fmts_utf8 s = true -> cls_nolit s = false ->
  render all_fixed s = spec_render same OutOfFuel s.
Proof.
  intros s Hf Hn. rewrite render_spec. unfold spec_render. rewrite (spec_frag_dom s Hf Hn). reflexivity.
Qed.

(* the nil parts contribute nothing: the property speaks of the others *)
Lemma cat_res_filter : forall (fr : snip -> res bytes) l,
  cat_res (map (fun c => if isnil_of c then Ok [] else fr c) l)
  = cat_res (map fr (filter (fun c => negb (isnil_of c)) l)).
Proof.
  intros fr l. induction l as [|c r IH]; [reflexivity|]. cbn [map filter].
  rewrite cat_res_cons. destruct (isnil_of c); cbn [negb]; [rewrite emitr_nil; exact IH|].
  cbn [map]. rewrite cat_res_cons, IH. reflexivity.
Qed.

(* no fuel anywhere: the model never answers OutOfFuel *)

Definition defined (r : res bytes) : bool := match r with OutOfFuel => false | _ => true end.
Definition vdef (v : aview) : bool := match v with AVNil => true | AV _ o => defined o end.
Definition svdef (v : sview) : bool :=
  match v with SVSnip o => defined o | SVRaw a b => defined a && defined b end.

Lemma emitr_defined : forall a b, defined a = true -> defined b = true -> defined (emitr a b) = true.
Proof. intros [x| |] [y| |]; cbn; auto. Qed.

Lemma subst_defined : forall args ts,
  Forall (fun p => vdef (snd p) = true) args -> defined (subst args ts) = true.
Proof.
  intros args ts H. induction ts as [|t r IH]; [reflexivity|]. cbn [subst].
  apply emitr_defined; [|exact IH]. destruct t as [c|n a]; cbn [piece]; [reflexivity|].
  destruct (lookup n args) as [[|[|] o]|] eqn:E; try reflexivity.
  exact (lookup_Forall (fun v => vdef v = true) n args _ H E).
Qed.

Lemma ssubst_defined : forall ts args,
  Forall (fun a => svdef a = true) args -> defined (ssubst ts args) = true.
Proof.
  induction ts as [|t r IH]; intros args H; [reflexivity|]. destruct t as [c| | | |c]; cbn [ssubst].
  1,4: apply (emitr_defined (Ok _)); [reflexivity | apply IH, H].
  3: reflexivity.
  all: destruct H as [|x args' H1 H2]; [reflexivity|]; apply emitr_defined; [|apply IH, H2].
  all: destruct x; [exact H1|]; apply andb_true_iff in H1; apply H1.
Qed.

Lemma spec_frag_defined : forall vw s, defined (spec_frag vw Panic s) = true.
Proof.
  intros vw. induction s as [|b|f args IH|f args IH|a b|v|d a|l IH|x IH|n o] using snip_ind';
    try reflexivity; cbn [spec_frag].
  - apply subst_defined, Forall_map. revert IH. apply Forall_impl.
    intros [n v] Hv. destruct v; exact Hv.
  - apply ssubst_defined, Forall_map. revert IH. apply Forall_impl.
    intros v Hv. destruct v; try exact Hv. destruct vlit, tid; reflexivity.
  - induction IH as [|c r Hc _ IHr]; [reflexivity|]. cbn [map].
    rewrite cat_res_cons. apply emitr_defined; [|exact IHr]. destruct (isnil_of c); [reflexivity | exact Hc].
  - destruct (isnil_of x); [reflexivity | exact IH].
  - destruct o; reflexivity.
Qed.

(* a Block argument of the witnesses for the code before the repairs (Props/C09.v) *)
Definition Bk (s : string) : aview := AV (is_nil (bs s)) (Ok (bs s)).

(* every repair but fixes/C09-5-leading-bom.diff *)
Definition before_bom_fix := mk_fixes true true true true false.
