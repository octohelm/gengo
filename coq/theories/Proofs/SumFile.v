(* Lemmas about the byte-level model of pkg/sumfile (Model/SumFile.v; for C08, and for C02's crash theorem):
   bytes.Lines and bytes.Fields on the lines Bytes writes, the model's sort as the insertion sort of Base/Order.v, and
   Load after Bytes — the file reads back with the same answer to every query ([load_bytes_sum]) and its bytes do not
   depend on the iteration order of the map ([sumfile_bytes_perm]).
   [kv_ok], DEFINED here, is the well-formedness of a sum that theorems of Props/C08.v, Props/C02.v and Props/Whole.v
   assume: distinct keys that are tokens (non-empty, ASCII, no white space), values of such bytes. *)
Require Import Gengo.Base.Bytes Gengo.Base.Order.
Require Import Gengo.Model.SumFile.
Require Gengo.Base.Assoc.

Lemma byte_eqb_eq : forall a b, byte_eqb a b = true <-> a = b.
Proof. intros a b. unfold byte_eqb. apply Ascii.eqb_eq. Qed.

Lemma byte_eqb_neq : forall a b, a <> b -> byte_eqb a b = false.
Proof. intros a b. apply Ascii.eqb_neq. Qed.

Lemma ascii_space_nl : ascii_space nl = true.
Proof. reflexivity. Qed.
Lemma ascii_space_sp : ascii_space sp = true.
Proof. reflexivity. Qed.

Lemma plain_not_space : forall c, plain c = true -> ascii_space c = false.
Proof. intros c Hc. unfold plain in Hc. apply andb_true_iff in Hc. destruct Hc as [Hc _]. now apply negb_true_iff in Hc. Qed.

Lemma plain_neq_nl : forall c, plain c = true -> c <> nl.
Proof. intros c Hc E. subst c. apply plain_not_space in Hc. rewrite ascii_space_nl in Hc. discriminate. Qed.

Lemma plain_neq_sp : forall c, plain c = true -> c <> sp.
Proof. intros c Hc E. subst c. apply plain_not_space in Hc. rewrite ascii_space_sp in Hc. discriminate. Qed.

(* a plain byte never starts a white-space rune, whatever follows *)
Lemma space_width_plain : forall c r, plain c = true -> space_width (c :: r) = 0.
Proof.
  intros c r Hc. unfold space_width. rewrite (plain_not_space c Hc).
  unfold plain in Hc. apply andb_true_iff in Hc. destruct Hc as [_ Hlt]. apply N.ltb_lt in Hlt.
  destruct (N_of_ascii c) as [|p]; [reflexivity|].
  (* the four lead bytes have eight bits, p has at most seven *)
  do 7 (destruct p as [p|p|]; try reflexivity). all: exfalso; lia.
Qed.

Lemma space_width_ascii_space : forall c r, ascii_space c = true -> space_width (c :: r) = 1.
Proof. intros c r Hc. unfold space_width. rewrite Hc. reflexivity. Qed.

Lemma lines_block : forall body rest,
  ~ In nl body -> lines (body ++ nl :: rest) = (body ++ [nl]) :: lines rest.
Proof.
  induction body as [|c body IH]; intros rest Hn.
  - cbn [app lines]. rewrite (proj2 (byte_eqb_eq nl nl) eq_refl). reflexivity.
  - cbn [app lines]. rewrite byte_eqb_neq.
    + rewrite IH; [reflexivity|]. intros Hin. apply Hn. now right.
    + intros E. apply Hn. left. exact E.
Qed.

Lemma lines_blocks_tail {A} (line body : A -> bytes) : forall xs rest,
  (forall x, In x xs -> line x = body x ++ [nl] /\ ~ In nl (body x)) ->
  lines (flat_map line xs ++ rest) = map line xs ++ lines rest.
Proof.
  induction xs as [|x xs IH]; intros rest Hxs; [reflexivity|].
  destruct (Hxs x (or_introl eq_refl)) as [E Hn].
  cbn [flat_map map]. rewrite E, <- !app_assoc. cbn [app]. rewrite lines_block by exact Hn.
  rewrite IH by (intros y Hy; apply Hxs; right; exact Hy). reflexivity.
Qed.

Lemma lines_blocks {A} (line body : A -> bytes) : forall xs,
  (forall x, In x xs -> line x = body x ++ [nl] /\ ~ In nl (body x)) ->
  lines (flat_map line xs) = map line xs.
Proof.
  intros xs Hxs. rewrite <- (app_nil_r (flat_map line xs)), (lines_blocks_tail line body xs [] Hxs). apply app_nil_r.
Qed.

Lemma fields_go_plain : forall w r cur acc,
  forallb plain w = true ->
  fields_go (w ++ r) 0 cur acc = fields_go r 0 (rev w ++ cur) acc.
Proof.
  induction w as [|c w IH]; intros r cur acc Hw; [reflexivity|].
  cbn [forallb] in Hw. apply andb_true_iff in Hw. destruct Hw as [Hc Hw].
  cbn [app fields_go]. rewrite (space_width_plain c (w ++ r) Hc).
  rewrite IH by exact Hw. cbn [rev]. rewrite <- app_assoc. reflexivity.
Qed.

Lemma fields_go_space1 : forall c r cur acc,
  ascii_space c = true ->
  fields_go (c :: r) 0 cur acc = fields_go r 0 [] (flush cur acc).
Proof. intros c r cur acc Hc. cbn [fields_go]. rewrite (space_width_ascii_space c r Hc). reflexivity. Qed.

Lemma flush_rev_nonempty : forall (w : bytes) acc, w <> [] -> flush (rev w ++ []) acc = w :: acc.
Proof.
  intros w acc Hw. rewrite app_nil_r. unfold flush.
  destruct (rev w) as [|x xs] eqn:E.
  - exfalso. apply Hw. apply (f_equal (@rev _)) in E. rewrite rev_involutive in E. exact E.
  - rewrite <- E. rewrite rev_involutive. reflexivity.
Qed.

Lemma fields_go_end : forall ws cur acc,
  forallb ascii_space ws = true -> fields_go ws 0 cur acc = rev (flush cur acc).
Proof.
  induction ws as [|c ws IH]; intros cur acc Hws; [reflexivity|].
  cbn [forallb] in Hws. apply andb_true_iff in Hws as [Hc Hws]. now rewrite fields_go_space1, IH.
Qed.

Lemma fields_go_last : forall w ws acc,
  forallb plain w = true -> forallb ascii_space ws = true ->
  fields_go (w ++ ws) 0 [] acc = rev (if is_nil w then acc else w :: acc).
Proof.
  intros w ws acc Hw Hws. rewrite fields_go_plain, fields_go_end by assumption.
  destruct w; [reflexivity|]. rewrite flush_rev_nonempty by discriminate. reflexivity.
Qed.

(* "key value" and then white space only: the newline of a complete line, nothing when the line was cut short *)
Lemma fields_kv : forall k v ws,
  token_ok k = true -> forallb plain v = true -> forallb ascii_space ws = true ->
  fields (k ++ sp :: v ++ ws) = if is_nil v then [k] else [k; v].
Proof.
  intros k v ws Hk Hv Hws. apply andb_true_iff in Hk as [Hne Hk]. unfold fields.
  rewrite fields_go_plain, fields_go_space1, flush_rev_nonempty by (assumption || reflexivity || (destruct k; discriminate)).
  rewrite fields_go_last by assumption. destruct v; reflexivity.
Qed.

Lemma fields_key_value : forall k v,
  token_ok k = true -> forallb plain v = true ->
  fields (k ++ sp :: v ++ [nl]) = if is_nil v then [k] else [k; v].
Proof. intros k v Hk Hv. now apply fields_kv. Qed.

(* the model's [sum_get], [sum_set] are Base/Assoc.v's [get], [set]; the stored key is on the left of the test *)
Local Notation beq' := (fun a b : bytes => bytes_eqb b a) (only parsing).

Lemma sum_get_eq : forall m k, sum_get m k = Assoc.get beq' k m.
Proof. intros m k. revert k m. apply (Assoc.get_unfold _ (fun k m => sum_get m k)). intros k [|[k' v] r]; reflexivity. Qed.

Lemma sum_set_eq : forall m k v, sum_set m k v = Assoc.set beq' k v m.
Proof.
  intros m k v. revert k v m. apply (Assoc.set_unfold _ Assoc.bytes_eqbP' (fun k v m => sum_set m k v) (fun k _ => k)); [reflexivity|].
  intros k v [|[k' v'] r]; reflexivity.
Qed.

Lemma sum_set_fresh : forall m k v, ~ In k (map fst m) -> sum_set m k v = m ++ [(k, v)].
Proof. intros m k v. rewrite sum_set_eq. apply Assoc.set_notin, Assoc.bytes_eqbP'. Qed.

Lemma sum_get_app_fresh : forall m k v k', sum_get (m ++ [(k, v)]) k' =
  match sum_get m k' with Some x => Some x | None => if bytes_eqb k k' then Some v else None end.
Proof. intros m k v k'. rewrite !sum_get_eq. exact (Assoc.get_app _ m [(k, v)] k'). Qed.

Lemma sum_get_none : forall m k, ~ In k (map fst m) -> sum_get m k = None.
Proof. intros m k. rewrite sum_get_eq. apply Assoc.get_None, Assoc.bytes_eqbP'. Qed.

Lemma sum_get_in : forall m k v, sum_get m k = Some v -> In (k, v) m.
Proof. intros m k v. rewrite sum_get_eq. apply Assoc.get_Some_In, Assoc.bytes_eqbP'. Qed.

Lemma sum_get_nodup : forall m k v, NoDup (map fst m) -> In (k, v) m -> sum_get m k = Some v.
Proof. intros m k v. rewrite sum_get_eq. apply Assoc.get_In, Assoc.bytes_eqbP'. Qed.

Lemma sum_get_perm : forall m m' k, Permutation m m' -> NoDup (map fst m) -> sum_get m k = sum_get m' k.
Proof. intros m m' k HP ND. rewrite !sum_get_eq. now apply (Assoc.get_perm _ Assoc.bytes_eqbP'). Qed.

Lemma sum_sum_in : forall m k v, NoDup (map fst m) -> In (k, v) m -> sum_sum m k = v.
Proof. intros m k v ND Hin. unfold sum_sum. rewrite (sum_get_nodup m k v ND Hin). reflexivity. Qed.

(* a map given as  key |-> f key  *)
Lemma sum_get_map : forall (f : bytes -> bytes) ks k,
  sum_get (map (fun x => (x, f x)) ks) k = if existsb (fun x => bytes_eqb x k) ks then Some (f k) else None.
Proof.
  induction ks as [|a ks IH]; intros k; [reflexivity|].
  cbn [map sum_get existsb]. destruct (bytes_eqbP a k) as [->|_]; [reflexivity|apply IH].
Qed.

(* ... with the entries whose value is empty left out: Sum does not tell a missing key from an empty value *)
Lemma sum_sum_map_nonempty : forall (f : bytes -> bytes) ks k,
  sum_sum (filter (fun kv => negb (is_nil (snd kv))) (map (fun x => (x, f x)) ks)) k
  = if existsb (fun x => bytes_eqb x k) ks then f k else [].
Proof.
  intros f ks k. induction ks as [|a ks IH]; [reflexivity|].
  cbn [map filter snd existsb]. destruct (bytes_eqbP a k) as [->|Hak]; cbn [orb].
  - destruct (f k) as [|c v] eqn:Ev; cbn [is_nil negb].
    + rewrite IH. destruct (existsb (fun x => bytes_eqb x k) ks); reflexivity.
    + unfold sum_sum. cbn [sum_get]. rewrite bytes_eqb_refl. reflexivity.
  - destruct (negb (is_nil (f a))); [|exact IH].
    unfold sum_sum in *. cbn [sum_get]. rewrite (proj2 (bytes_eqb_neq a k) Hak). exact IH.
Qed.

(* The model's byte order is the one of Base/Order.v and its insertion sort computes what [Order.sort_by] does:
   the order and sorting facts are taken from there. *)
Lemma bytes_leb_Order : bytes_leb = Order.bytes_leb.
Proof. reflexivity. Qed.

Lemma bytes_leb_refl : forall a, bytes_leb a a = true.
Proof. exact Order.bytes_leb_refl. Qed.

Lemma sort_by_eq {A} (key : A -> bytes) : forall l, sort_by key l = Order.sort_by key bytes_leb l.
Proof. apply (sort_by_unfold key bytes_leb (insert_by key)); intros; destruct l; reflexivity. Qed.

Lemma insert_by_eq {A} (key : A -> bytes) : forall x l, insert_by key x l = Order.insert_by key bytes_leb x l.
Proof. induction l as [|y r IH]; cbn; [reflexivity|]. now rewrite IH. Qed.

Lemma insert_by_perm {A} (key : A -> bytes) : forall x l, Permutation (insert_by key x l) (x :: l).
Proof. intros. rewrite insert_by_eq. symmetry. apply Order.insert_by_perm. Qed.

Definition le_key {A} (key : A -> bytes) (x y : A) : Prop := bytes_leb (key x) (key y) = true.

Lemma insert_by_sorted {A} (key : A -> bytes) : forall x l,
  StronglySorted (le_key key) l -> StronglySorted (le_key key) (insert_by key x l).
Proof.
  intros x l. rewrite insert_by_eq. exact (Order.insert_by_sorted key _ Order.bytes_leb_total Order.bytes_leb_trans x l).
Qed.

Lemma sort_by_perm {A} (key : A -> bytes) : forall l, Permutation (sort_by key l) l.
Proof. intros l. rewrite sort_by_eq. symmetry. apply Order.sort_by_perm. Qed.

Lemma sort_by_map_key {A} (key : A -> bytes) : forall l, map key (sort_by key l) = sort_keys (map key l).
Proof. intros l. unfold sort_keys. rewrite !sort_by_eq. symmetry. apply sort_by_map. reflexivity. Qed.

Lemma sort_keys_perm : forall ks, Permutation (sort_keys ks) ks.
Proof. intros ks. apply (sort_by_perm (fun k => k)). Qed.

Lemma sort_keys_sorted : forall ks, StronglySorted (fun a b => bytes_leb a b = true) (sort_keys ks).
Proof.
  intros ks. unfold sort_keys. rewrite sort_by_eq.
  exact (Order.sort_by_sorted (fun k => k) bytes_leb Order.bytes_leb_total Order.bytes_leb_trans ks).
Qed.

Lemma sum_entries : forall m, NoDup (map fst m) ->
  map (fun k => (k, sum_sum m k)) (sort_keys (map fst m)) = sort_by fst m.
Proof. intros m ND. unfold sort_keys. rewrite !sort_by_eq. apply sort_by_entries. intros k v. apply sum_sum_in, ND. Qed.

Definition kv_ok (m : sum) : Prop :=
  NoDup (map fst m) /\ Forall (fun kv => token_ok (fst kv) = true /\ forallb plain (snd kv) = true) m.

Lemma token_plain : forall s, token_ok s = true -> forallb plain s = true.
Proof. intros s Hs. unfold token_ok in Hs. apply andb_true_iff in Hs. tauto. Qed.

Lemma token_no_nl : forall k, forallb plain k = true -> ~ In nl k.
Proof.
  intros k Hk Hin. rewrite forallb_forall in Hk. apply Hk in Hin.
  apply plain_neq_nl in Hin. apply Hin. reflexivity.
Qed.

Lemma load_line_kv : forall m k v ws,
  token_ok k = true -> forallb plain v = true -> forallb ascii_space ws = true ->
  load_line m (k ++ sp :: v ++ ws) = if is_nil v then m else sum_set m k v.
Proof. intros m k v ws Hk Hv Hws. unfold load_line. rewrite fields_kv by assumption. now destruct v. Qed.

Lemma load_lines_fold : forall (val : bytes -> bytes) ks acc,
  NoDup (map fst acc ++ ks) ->
  Forall (fun k => token_ok k = true /\ forallb plain (val k) = true) ks ->
  fold_left load_line (map (fun k => k ++ sp :: val k ++ [nl]) ks) acc
  = acc ++ filter (fun kv => negb (is_nil (snd kv))) (map (fun k => (k, val k)) ks).
Proof.
  intros val. induction ks as [|k ks IH]; intros acc ND HF.
  - cbn. rewrite app_nil_r. reflexivity.
  - apply Forall_cons_iff in HF as [[Hk Hv] HF'].
    cbn [map fold_left filter snd]. rewrite load_line_kv by (assumption || reflexivity).
    assert (Hnin : ~ In k (map fst acc)).
    { intros Hin. apply NoDup_remove_2 in ND. apply ND. apply in_or_app. left. exact Hin. }
    destruct (val k) as [|c v] eqn:Ev; cbn [is_nil negb].
    + apply IH; [|exact HF']. apply NoDup_remove_1 in ND. exact ND.
    + rewrite sum_set_fresh by exact Hnin. rewrite IH; [|
        rewrite map_app; cbn [map fst]; rewrite <- app_assoc; exact ND | exact HF'].
      rewrite <- app_assoc. reflexivity.
Qed.

Lemma sum_line_shape : forall m k, sum_line m k = (k ++ sp :: sum_sum m k) ++ [nl].
Proof. intros m k. unfold sum_line. rewrite <- app_assoc. reflexivity. Qed.

Lemma key_value_no_nl : forall k v, forallb plain k = true -> forallb plain v = true -> ~ In nl (k ++ sp :: v).
Proof.
  intros k v Hk Hv Hin. apply in_app_or in Hin. destruct Hin as [Hin|[Hin|Hin]].
  - exact (token_no_nl k Hk Hin). - discriminate Hin. - exact (token_no_nl v Hv Hin).
Qed.

Lemma kv_ok_values : forall m k, kv_ok m -> In k (map fst m) ->
  token_ok k = true /\ forallb plain (sum_sum m k) = true.
Proof.
  intros m k [ND HF] Hin. apply in_map_iff in Hin. destruct Hin as [[k' v] [E Hin]]. cbn in E. subst k'.
  rewrite Forall_forall in HF. destruct (HF _ Hin) as [Hk Hv]. cbn in Hk, Hv.
  rewrite (sum_sum_in m k v ND Hin). split; assumption.
Qed.

(* the keys Bytes writes, in the order it writes them: distinct tokens with plain values *)
Lemma kv_ok_sorted_keys : forall m, kv_ok m ->
  NoDup (sort_keys (map fst m))
  /\ Forall (fun k => token_ok k = true /\ forallb plain (sum_sum m k) = true) (sort_keys (map fst m)).
Proof.
  intros m Hok. split.
  - eapply Permutation_NoDup; [apply Permutation_sym, sort_keys_perm | exact (proj1 Hok)].
  - apply Forall_forall. intros k Hin. apply kv_ok_values; [exact Hok|]. eapply Permutation_in; [apply sort_keys_perm | exact Hin].
Qed.

Theorem load_bytes_exact : forall m, kv_ok m ->
  sumfile_load (sumfile_bytes m)
  = filter (fun kv => negb (is_nil (snd kv))) (map (fun k => (k, sum_sum m k)) (sort_keys (map fst m))).
Proof.
  intros m Hok. destruct (kv_ok_sorted_keys m Hok) as [ND HF]. unfold sumfile_load, sumfile_bytes.
  rewrite (lines_blocks (sum_line m) (fun k => k ++ sp :: sum_sum m k)).
  - exact (load_lines_fold (sum_sum m) _ [] ND HF).
  - intros k Hin. split; [apply sum_line_shape|].
    rewrite Forall_forall in HF. destruct (HF k Hin) as [Hk Hv]. exact (key_value_no_nl k _ (token_plain k Hk) Hv).
Qed.

(* reading back gives the same answers to every query *)
Theorem load_bytes_sum : forall m k, kv_ok m -> sum_sum (sumfile_load (sumfile_bytes m)) k = sum_sum m k.
Proof.
  intros m k Hok. rewrite load_bytes_exact by exact Hok. rewrite (sum_sum_map_nonempty (sum_sum m)).
  destruct (existsb (fun x => bytes_eqb x k) (sort_keys (map fst m))) eqn:E; [reflexivity|].
  unfold sum_sum. rewrite sum_get_none; [reflexivity|].
  intros Hin. apply (Permutation_in _ (Permutation_sym (sort_keys_perm _))) in Hin.
  apply existsb_bytes_in in Hin. congruence.
Qed.

(* with no empty value the file reads back as the map itself, in sorted order *)
Theorem load_bytes_sorted : forall m, kv_ok m -> Forall (fun kv => snd kv <> []) m ->
  sumfile_load (sumfile_bytes m) = sort_by fst m.
Proof.
  intros m Hok Hne. rewrite load_bytes_exact, (sum_entries m (proj1 Hok)) by exact Hok.
  apply (Permutation_Forall (Permutation_sym (sort_by_perm fst m))) in Hne.
  induction Hne as [|[k v] l Hv _ IH]; [reflexivity|]. cbn [filter snd] in *.
  destruct v; [now contradiction Hv|]. cbn [is_nil negb]. now rewrite IH.
Qed.

Lemma sumfile_bytes_sorted : forall m, NoDup (map fst m) ->
  sumfile_bytes m = flat_map (fun kv => fst kv ++ sp :: snd kv ++ [nl]) (sort_by fst m).
Proof.
  intros m ND. rewrite <- (sum_entries m ND). unfold sumfile_bytes.
  now rewrite (flat_map_concat_map _ (map _ _)), map_map, <- flat_map_concat_map.
Qed.

(* Bytes does not depend on the iteration order of the map *)
Theorem sumfile_bytes_perm : forall m m',
  Permutation m m' -> NoDup (map fst m) -> sumfile_bytes m = sumfile_bytes m'.
Proof.
  intros m m' HP ND. rewrite (sumfile_bytes_sorted m ND).
  rewrite (sumfile_bytes_sorted m') by (eapply Permutation_NoDup; [apply Permutation_map, HP|exact ND]).
  now rewrite !sort_by_eq, bytes_leb_Order, (sort_by_bytes_perm_eq fst m m' HP ND).
Qed.

Theorem load_bytes_entries : forall m, kv_ok m -> Forall (fun kv => snd kv <> []) m ->
  sumfile_load (sumfile_bytes m) = sort_by fst m /\ Permutation (sumfile_load (sumfile_bytes m)) m.
Proof.
  intros m Hk Hn. split; [apply load_bytes_sorted; assumption|].
  rewrite load_bytes_sorted by assumption. apply sort_by_perm.
Qed.
