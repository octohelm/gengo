(* The C07 theorems about a successful run: a generator's file exists iff it rendered something (or signalled
   ErrIgnore and had one), stale files are removed, and the non-All restriction.
   [signalled_ignore], DEFINED here (the trace of the generator on the package holds an ErrIgnore), occurs in the
   statements of Props/C07.v. *)
Require Import Gengo.Base.Bytes Gengo.Model.Pipeline Gengo.Spec.PipelineSpec Gengo.Proofs.Pipeline Gengo.Proofs.PipelinePkg
  Gengo.Proofs.PipelineC02.

Section C07.
Variable E : env.

Definition signalled_ignore (g : generator) (p : pkginfo) : bool :=
  existsb ev_is_ignore (go_trace (gen_run E g p)).

(* after the repair the flag is the signal, however the loop ends: the call that stops it returned no ErrIgnore *)
Lemma call_loop_ignore : e_fixed E = true -> forall g p tys st,
  ro_ignore (call_loop E g p st tys) = existsb ev_is_ignore (ro_trace (call_loop E g p st tys)).
Proof.
  intros Hfix g p tys. induction tys as [|t r IH]; intros st; cbn [call_loop]; [reflexivity|].
  destruct (should_call E g p t); [|apply IH].
  destruct (g_type g st p t) as [st' o]. specialize (IH st').
  destruct (so_res o); cbn [ro_ignore ro_trace existsb ev_is_ignore sets_ignore]; rewrite ?IH; try reflexivity.
  rewrite Hfix. destruct (ty_kind t); reflexivity.
Qed.

Lemma defer_loop_no_ignore : forall fuel g p ids st,
  existsb ev_is_ignore (ro_trace (defer_loop fuel g p st ids)) = false.
Proof.
  intros fuel g p. induction fuel as [|fuel IH]; intros ids st;
    (destruct ids as [|i r]; cbn [defer_loop]; [reflexivity|]); [reflexivity|].
  destruct (g_defer g st p i) as [st' o]. destruct (so_res o); cbn [ro_trace existsb ev_is_ignore]; try reflexivity.
  apply IH.
Qed.

Lemma gen_run_ignore : e_fixed E = true -> forall g p, go_ignore (gen_run E g p) = signalled_ignore g p.
Proof.
  intros Hfix g p. unfold signalled_ignore, gen_run. rewrite (call_loop_ignore Hfix).
  destruct (ro_out (call_loop E g p (g_new g p) (sort_by ty_name (pk_types p)))); cbn [go_ignore go_trace]; try reflexivity.
  rewrite existsb_app, defer_loop_no_ignore, orb_false_r. reflexivity.
Qed.

(* the flag is never set without the signal, fixed or not *)
Lemma call_loop_ignore_sound : forall g p tys st,
  ro_ignore (call_loop E g p st tys) = true -> existsb ev_is_ignore (ro_trace (call_loop E g p st tys)) = true.
Proof.
  intros g p tys. induction tys as [|t r IH]; intros st; cbn [call_loop]; [discriminate|].
  destruct (should_call E g p t); [|apply IH].
  destruct (g_type g st p t) as [st' o]. specialize (IH st').
  destruct (so_res o); cbn [ro_ignore ro_trace existsb ev_is_ignore sets_ignore]; first [exact IH | discriminate | reflexivity].
Qed.

Lemma processed_split {a w s p} :
  processed E a w s p = true -> selected a w p = true /\ pkg_changed a w (load_prev E a w s) p = true.
Proof. intros H. unfold processed in H. apply andb_true_iff in H. exact H. Qed.

Lemma processed_local : forall a w gens s p,
  NoDup (map pk_dir (w_pkgs w)) -> exec_outcome E a w gens s = Done -> In p (w_pkgs w) -> processed E a w s p = true ->
  snd (pkg_effects E a gens p) = Done /\
  forall f, (pk_dir p, f) <> sum_path w ->
    fs_lookup (pk_dir p, f) (exec_fs E a w gens s)
    = fs_lookup (pk_dir p, f) (apply_all (fst (fst (pkg_effects E a gens p))) s).
Proof.
  intros a w gens s p Hok Hdone Hp Hpr. destruct (processed_split Hpr) as [Hsel Hch].
  pose proof (proj1 (exec_done_iff E a w gens s) Hdone p Hp Hsel) as Hpd.
  pose proof (fun f => exec_local E a w gens s p f Hok Hp Hsel Hdone) as Hloc.
  unfold pkg_execute in Hpd, Hloc. rewrite Hch in Hpd, Hloc. exact (conj Hpd Hloc).
Qed.

Lemma gen_file_not_sum : forall a w p n, gen_file a p n <> sum_path w.
Proof.
  intros a w p n H. unfold gen_file, sum_path in H. inversion H as [[H1 H2]]. exact (fname_ne_sum a n H2).
Qed.

Lemma generator_file_after : forall a w gens s p g,
  order_ok E -> NoDup (map g_name gens) -> NoDup (map pk_dir (w_pkgs w)) ->
  exec_outcome E a w gens s = Done ->
  In p (w_pkgs w) -> processed E a w s p = true -> In g gens ->
  fs_lookup (gen_file a p (g_name g)) (exec_fs E a w gens s) =
    (if negb (is_nil (go_body (gen_run E g p))) then e_fmt E (assemble (pk_name p) (g_name g) (go_body (gen_run E g p)))
     else if go_ignore (gen_run E g p) then fs_lookup (gen_file a p (g_name g)) s
     else if mem_bytes (fname a (g_name g)) (pk_files p) then None
     else fs_lookup (gen_file a p (g_name g)) s)
  /\ (go_body (gen_run E g p) <> [] ->
      e_fmt E (assemble (pk_name p) (g_name g) (go_body (gen_run E g p))) <> None)
  /\ go_out (gen_run E g p) = Done.
Proof.
  intros a w gens s p g Hord Hnd Hok Hdone Hp Hpr Hg.
  destruct (processed_local a w gens s p Hok Hdone Hp Hpr) as [Hpe Hloc].
  unfold gen_file at 1. rewrite Hloc by apply gen_file_not_sum.
  destruct (pkg_done_generator E a gens p g Hord Hnd Hpe Hg s) as [H1 H2].
  split; [exact H1 | split; [exact H2|]]. exact (proj1 (pkg_effects_done_inv E Hpe) g Hg).
Qed.

Theorem exists_iff : forall a w gens s p g,
  e_fixed E = true -> order_ok E -> NoDup (map g_name gens) -> NoDup (map pk_dir (w_pkgs w)) ->
  exec_outcome E a w gens s = Done ->
  In p (w_pkgs w) -> processed E a w s p = true -> In g gens ->
  (fs_lookup (gen_file a p (g_name g)) s <> None -> In (fname a (g_name g)) (pk_files p)) ->
  (fs_lookup (gen_file a p (g_name g)) (exec_fs E a w gens s) <> None
   <-> go_body (gen_run E g p) <> [] \/
       (signalled_ignore g p = true /\ fs_lookup (gen_file a p (g_name g)) s <> None)).
Proof.
  intros a w gens s p g Hfix Hord Hnd Hok Hdone Hp Hpr Hg Hlist.
  destruct (generator_file_after a w gens s p g Hord Hnd Hok Hdone Hp Hpr Hg) as [Hlk [Hfmt _]].
  rewrite Hlk, <- (gen_run_ignore Hfix g p).
  destruct (go_body (gen_run E g p)) as [|c b] eqn:Hb; cbn [is_nil negb].
  - destruct (go_ignore (gen_run E g p)).
    + split; [intros H; right; split; [reflexivity | exact H] | intros [H|[_ H]]; [contradiction | exact H]].
    + (* neither rendered nor signalled: the file is gone if it was listed, and it was listed if it was there *)
      split; [|intros [H|[H _]]; [contradiction | discriminate H]].
      destruct (mem_bytes (fname a (g_name g)) (pk_files p)) eqn:Hm; intros H; [contradiction|].
      apply Hlist, mem_bytes_In in H. congruence.
  - split; [intros _; left; discriminate | intros _; apply Hfmt; discriminate].
Qed.

Theorem written_content : forall a w gens s p g,
  order_ok E -> NoDup (map g_name gens) -> NoDup (map pk_dir (w_pkgs w)) ->
  exec_outcome E a w gens s = Done ->
  In p (w_pkgs w) -> processed E a w s p = true -> In g gens ->
  go_body (gen_run E g p) <> [] ->
  exists out, e_fmt E (assemble (pk_name p) (g_name g) (go_body (gen_run E g p))) = Some out /\
              fs_lookup (gen_file a p (g_name g)) (exec_fs E a w gens s) = Some out.
Proof.
  intros a w gens s p g Hord Hnd Hok Hdone Hp Hpr Hg Hne.
  destruct (generator_file_after a w gens s p g Hord Hnd Hok Hdone Hp Hpr Hg) as [Hlk [Hfmt _]].
  specialize (Hfmt Hne). rewrite Hlk.
  destruct (go_body (gen_run E g p)) as [|c b] eqn:Hb; [contradiction|]. cbn [is_nil negb].
  destruct (e_fmt E (assemble (pk_name p) (g_name g) (c :: b))) as [out|]; [|contradiction].
  exists out. split; reflexivity.
Qed.

Theorem stale_removed : forall a w gens s p f,
  order_ok E -> NoDup (map pk_dir (w_pkgs w)) -> files_ok w ->
  exec_outcome E a w gens s = Done ->
  In p (w_pkgs w) -> processed E a w s p = true ->
  In f (pk_files p) -> prefixb (out_prefix a) f = true ->
  (~ exists g, In g gens /\ kept E g p = true /\ f = fname a (g_name g)) ->
  fs_lookup (pk_dir p, f) (exec_fs E a w gens s) = None.
Proof.
  intros a w gens s p f Hord Hok Hfiles Hdone Hp Hpr Hf Hpre Hnone.
  destruct (processed_local a w gens s p Hok Hdone Hp Hpr) as [Hpe Hloc].
  rewrite Hloc, (pkg_done_other E a gens p f Hord Hpe).
  - assert (Hm : mem_bytes f (generated_files a p) = true) by (apply mem_bytes_In, filter_In; split; assumption).
    rewrite Hm. reflexivity.
  - intros g Hg Hk Hfg. apply Hnone. exists g. auto.
  - intros H. injection H as _ ->. exact (Hfiles p Hp Hf).
Qed.

Theorem not_all : forall a w gens s,
  a_all a = false -> files_ok w ->
  fs_lookup (sum_path w) (exec_fs E a w gens s) = fs_lookup (sum_path w) s
  /\ forall q, (~ exists p, In p (w_pkgs w) /\ is_direct w p = true /\ in_pkg_output a p q) ->
               fs_lookup q (exec_fs E a w gens s) = fs_lookup q s.
Proof.
  intros a w gens s Hall Hfiles. split.
  - rewrite (exec_sum E a w gens s Hfiles), Hall. destruct (exec_outcome E a w gens s); reflexivity.
  - intros q Hq. apply frame. intros [[p [Hp [Hpr Hout]]]|[Hc _]]; [|congruence].
    apply Hq. exists p. split; [exact Hp|]. split; [|exact Hout].
    destruct (processed_split Hpr) as [Hsel _]. unfold selected in Hsel. rewrite Hall in Hsel. exact Hsel.
Qed.

(* cached packages are not touched at all (own_output only speaks of processed ones); stated for reference *)
Theorem cached_untouched : forall a w gens s p f,
  NoDup (map pk_dir (w_pkgs w)) -> In p (w_pkgs w) -> processed E a w s p = false -> (pk_dir p, f) <> sum_path w ->
  fs_lookup (pk_dir p, f) (exec_fs E a w gens s) = fs_lookup (pk_dir p, f) s.
Proof.
  intros a w gens s p f Hd Hp Hpr Hq. apply frame. intros [[p' [Hp' [Hpr' [Hdir _]]]]|[_ Hs]]; [|contradiction].
  cbn [fst] in Hdir. assert (p' = p) by (eapply Order.NoDup_map_inj_in; eauto). subst p'. congruence.
Qed.

End C07.
