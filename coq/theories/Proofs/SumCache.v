(* Lemmas for C08 about the cache state machine (Model/SumCache.v), for an abstract tree, hash [H], generator [gen] and
   loader [locals] (section CacheFacts).  [skip_sound_history]: every line of gengo.sum has an origin in the history,
   so a package is skipped only if its directory is as a good earlier run recorded it; [settles] / [converges]: two
   runs reach a state a third one leaves alone — generators are idempotent and commute, and what the second run has to
   regenerate the first has generated already ([chg_settles]).
   The hypotheses of Props/C08.v are DEFINED here: [H_tokens], [H_injective], [all_hashable] (the hash); [locals_ok],
   [gen_idem], [gen_comm], [gen_local] (with [contains]), [gen_keeps_locals] (loader and generators); [in_scope],
   [no_corrupt], [good_run], [plain_run] (runs and histories). *)
Require Import Gengo.Base.Bytes Gengo.Model.SumFile Gengo.Model.SumCache Gengo.Proofs.SumFile.
From Coq Require Import Permutation Sorted.

Lemma opt_bytes_eqb_none : forall p, opt_bytes_eqb None p = false.
Proof. reflexivity. Qed.

Section CacheFacts.
  Variables tree content : Type.
  Variable H : content -> option bytes.
  Variable dirc : tree -> option bytes -> bytes -> content.
  Variable gen : tree -> bytes -> tree.
  Variable locals : tree -> list bytes -> list (bytes * bool).

  Notation State := (state tree).
  Notation hash_of := (hash_of tree content H dirc).
  Notation current_sum := (current_sum tree content H dirc).
  Notation previous_sum := (previous_sum tree).
  Notation pkg_loop := (pkg_loop tree gen).
  Notation run := (run tree content H dirc gen locals).
  Notation step := (step tree content H dirc gen locals).
  Notation exec := (exec tree content H dirc gen locals).

  Definition in_scope (a : runargs) (pd : bytes * bool) : bool := r_all a || snd pd.

  Definition ev_ok (fx : fixes) (a : runargs) (prev : option sum) (cur : sum) (e : ev) : Prop :=
    match e with
    | EvSkip p => pkg_changed fx a prev cur p = false
    | EvExec p => pkg_changed fx a prev cur p = true /\ opt_bytes_eqb (r_fail a) p = false
    | EvFail p => pkg_changed fx a prev cur p = true /\ opt_bytes_eqb (r_fail a) p = true
    end.

  Lemma scope_test : forall a (d : bool), negb (r_all a) && negb d = negb (r_all a || d).
  Proof. intros a d. destruct (r_all a), d; reflexivity. Qed.

  Lemma pkg_loop_cons : forall fx a prev cur p d rest t,
    pkg_loop fx a prev cur ((p, d) :: rest) t =
      if in_scope a (p, d) then
        if pkg_changed fx a prev cur p then
          if opt_bytes_eqb (r_fail a) p then (t, [EvFail p])
          else (fst (pkg_loop fx a prev cur rest (gen t p)), EvExec p :: snd (pkg_loop fx a prev cur rest (gen t p)))
        else (fst (pkg_loop fx a prev cur rest t), EvSkip p :: snd (pkg_loop fx a prev cur rest t))
      else pkg_loop fx a prev cur rest t.
  Proof.
    intros fx a prev cur p d rest t. cbn [SumCache.pkg_loop]. rewrite scope_test. unfold in_scope. cbn [snd].
    destruct (r_all a || d); cbn [negb]; [|reflexivity].
    destruct (pkg_changed fx a prev cur p); [destruct (opt_bytes_eqb (r_fail a) p); [reflexivity|]|].
    - destruct (pkg_loop fx a prev cur rest (gen t p)). reflexivity.
    - destruct (pkg_loop fx a prev cur rest t). reflexivity.
  Qed.

  Lemma pkg_loop_events : forall fx a prev cur order t,
    Forall (ev_ok fx a prev cur) (snd (pkg_loop fx a prev cur order t)).
  Proof.
    intros fx a prev cur. induction order as [|[p d] rest IH]; intros t; [constructor|].
    rewrite pkg_loop_cons. destruct (in_scope a (p, d)); [|apply IH].
    destruct (pkg_changed fx a prev cur p) eqn:Ec; [destruct (opt_bytes_eqb (r_fail a) p) eqn:Ef|];
      cbn [snd]; constructor; cbn [ev_ok]; auto.
  Qed.

  (* the visited packages are a prefix of the packages in scope; all of them unless a generator failed *)
  Lemma pkg_loop_visited : forall fx a prev cur order t,
    exists rest, map fst (filter (in_scope a) order) = visited (snd (pkg_loop fx a prev cur order t)) ++ rest
                 /\ (failed (snd (pkg_loop fx a prev cur order t)) = false -> rest = []).
  Proof.
    intros fx a prev cur. induction order as [|[p d] rest IH]; intros t; [exists []; split; reflexivity|].
    rewrite pkg_loop_cons. cbn [filter]. destruct (in_scope a (p, d)); [|apply IH]. cbn [map fst].
    destruct (pkg_changed fx a prev cur p); [destruct (opt_bytes_eqb (r_fail a) p)|]; cbn [snd].
    - exists (map fst (filter (in_scope a) rest)). split; [reflexivity|discriminate].
    - destruct (IH (gen t p)) as [r [Hr Hf]]. exists r. split; [cbn; rewrite Hr; reflexivity|exact Hf].
    - destruct (IH t) as [r [Hr Hf]]. exists r. split; [cbn; rewrite Hr; reflexivity|exact Hf].
  Qed.

  Lemma in_skipped : forall evs p, In p (skipped evs) <-> In (EvSkip p) evs.
  Proof.
    intros evs p. unfold skipped. rewrite in_flat_map. split.
    - intros [e [He Hp]]. destruct e; cbn in Hp; try contradiction.
      destruct Hp as [Hp|[]]. subst. exact He.
    - intros Hin. exists (EvSkip p). split; [exact Hin|left; reflexivity].
  Qed.

  Lemma in_executed : forall evs p, In p (executed evs) <-> (In (EvExec p) evs \/ In (EvFail p) evs).
  Proof.
    intros evs p. unfold executed. rewrite in_flat_map. split.
    - intros [e [He Hp]]. destruct e; cbn in Hp; try contradiction;
        destruct Hp as [Hp|[]]; subst; [left|right]; exact He.
    - intros [Hin|Hin]; [exists (EvExec p)|exists (EvFail p)]; (split; [exact Hin|left; reflexivity]).
  Qed.

  Lemma visited_split : forall evs p, In p (visited evs) <-> (In p (executed evs) \/ In p (skipped evs)).
  Proof.
    intros evs p. split.
    - intros Hin. apply in_map_iff in Hin. destruct Hin as [e [<- Hin]].
      destruct e; [left; apply in_executed; left|right; apply in_skipped|left; apply in_executed; right]; exact Hin.
    - intros [Hin|Hin]; [apply in_executed in Hin; destruct Hin as [Hin|Hin]|apply in_skipped in Hin];
        exact (in_map ev_visited _ _ Hin).
  Qed.

  (* without a failing package the loop is a filter *)
  Lemma pkg_loop_plain : forall fx a prev cur order t,
    r_all a = true -> r_fail a = None ->
    pkg_loop fx a prev cur order t =
      (fold_left gen (filter (pkg_changed fx a prev cur) (map fst order)) t,
       map (fun p => if pkg_changed fx a prev cur p then EvExec p else EvSkip p) (map fst order)).
  Proof.
    intros fx a prev cur order t Hall Hfail. revert t.
    induction order as [|[p d] rest IH]; intros t; [reflexivity|].
    cbn [SumCache.pkg_loop map fst filter]. rewrite Hall, Hfail. cbn [negb andb opt_bytes_eqb].
    destruct (pkg_changed fx a prev cur p); rewrite IH; reflexivity.
  Qed.

  Lemma executed_plain : forall (chg : bytes -> bool) l,
    executed (map (fun p => if chg p then EvExec p else EvSkip p) l) = filter chg l.
  Proof.
    intros chg. induction l as [|p l IH]; [reflexivity|].
    cbn [map filter]. unfold executed in *. cbn [flat_map]. destruct (chg p); cbn; rewrite IH; reflexivity.
  Qed.

  Lemma failed_plain : forall (chg : bytes -> bool) l,
    failed (map (fun p => if chg p then EvExec p else EvSkip p) l) = false.
  Proof.
    intros chg. induction l as [|p l IH]; [reflexivity|].
    cbn [map]. unfold failed in *. cbn [existsb]. destruct (chg p); cbn; exact IH.
  Qed.

  Lemma current_sum_shape : forall fx st loc,
    current_sum fx st loc = map (fun p => (p, hash_of fx st p)) (map fst loc).
  Proof. intros fx st loc. unfold SumCache.current_sum. rewrite map_map. reflexivity. Qed.

  Lemma current_sum_keys : forall fx st loc, map fst (current_sum fx st loc) = map fst loc.
  Proof. intros. unfold SumCache.current_sum. rewrite map_map. reflexivity. Qed.

  Lemma sum_sum_current : forall fx st loc p,
    sum_sum (current_sum fx st loc) p = if existsb (fun x => bytes_eqb x p) (map fst loc) then hash_of fx st p else [].
  Proof.
    intros fx st loc p. rewrite current_sum_shape. unfold sum_sum. rewrite sum_get_map.
    destruct (existsb (fun x => bytes_eqb x p) (map fst loc)); reflexivity.
  Qed.

  Lemma sum_sum_current_in : forall fx st loc p, In p (map fst loc) ->
    sum_sum (current_sum fx st loc) p = hash_of fx st p.
  Proof.
    intros fx st loc p Hin. rewrite sum_sum_current.
    apply Order.existsb_bytes_in in Hin. rewrite Hin. reflexivity.
  Qed.

  Definition run_loc (a : runargs) (st : State) := locals (st_tree st) (r_entry a).
  Definition run_loop (fx : fixes) (a : runargs) (st : State) :=
    pkg_loop fx a (previous_sum a st (run_loc a st)) (current_sum fx st (run_loc a st))
             (sort_by fst (run_loc a st)) (st_tree st).

  Lemma run_unfold : forall fx a st,
    run fx a st =
      let (t', evs) := run_loop fx a st in
      if failed evs then ({| st_tree := t'; st_sum := st_sum st |}, (evs, EGen))
      else if r_all a then
        match st_sum st with
        | SumUnreadable => ({| st_tree := t'; st_sum := SumUnreadable |}, (evs, ESave))
        | _ => ({| st_tree := t'; st_sum := SumFile (sumfile_bytes (current_sum fx st (run_loc a st))) |}, (evs, ENone))
        end
      else ({| st_tree := t'; st_sum := st_sum st |}, (evs, ENone)).
  Proof. reflexivity. Qed.

  (* the four results of a run as functions of its loop *)
  Lemma run_eq : forall fx a st,
    run fx a st =
      let evs := snd (run_loop fx a st) in
      let err := if failed evs then EGen
                 else if r_all a then match st_sum st with SumUnreadable => ESave | _ => ENone end else ENone in
      ({| st_tree := fst (run_loop fx a st);
          st_sum := if r_all a then match err with
                                    | ENone => SumFile (sumfile_bytes (current_sum fx st (run_loc a st)))
                                    | _ => st_sum st
                                    end
                    else st_sum st |}, (evs, err)).
  Proof.
    intros fx a st. rewrite run_unfold. destruct (run_loop fx a st) as [t' evs]. cbn [fst snd].
    destruct (failed evs), (r_all a); try reflexivity. destruct (st_sum st); reflexivity.
  Qed.

  Lemma run_events : forall fx a st, fst (snd (run fx a st)) = snd (run_loop fx a st).
  Proof. intros fx a st. rewrite run_eq. reflexivity. Qed.

  Lemma run_tree : forall fx a st, st_tree (fst (run fx a st)) = fst (run_loop fx a st).
  Proof. intros fx a st. rewrite run_eq. reflexivity. Qed.

  (* what a run does to gengo.sum: written by a run with All that returns no error, left alone by every other *)
  Lemma run_sum : forall fx a st,
    st_sum (fst (run fx a st))
    = if r_all a then
        match snd (snd (run fx a st)) with
        | ENone => SumFile (sumfile_bytes (current_sum fx st (run_loc a st)))
        | _ => st_sum st
        end
      else st_sum st.
  Proof. intros fx a st. rewrite run_eq. reflexivity. Qed.

  Lemma run_sum_cases : forall fx a st,
    st_sum (fst (run fx a st)) = st_sum st
    \/ (r_all a = true /\ snd (snd (run fx a st)) = ENone
        /\ st_sum (fst (run fx a st)) = SumFile (sumfile_bytes (current_sum fx st (run_loc a st)))).
  Proof.
    intros fx a st. rewrite run_sum. destruct (r_all a); [|left; reflexivity].
    destruct (snd (snd (run fx a st))); [right|left|left]; auto.
  Qed.

  Lemma run_err_keeps_sum : forall fx a st,
    snd (snd (run fx a st)) <> ENone -> st_sum (fst (run fx a st)) = st_sum st.
  Proof.
    intros fx a st Hn. rewrite run_sum. destruct (r_all a); [|reflexivity].
    destruct (snd (snd (run fx a st))); [contradiction|reflexivity|reflexivity].
  Qed.

  Lemma run_not_all_keeps_sum : forall fx a st,
    r_all a = false -> st_sum (fst (run fx a st)) = st_sum st.
  Proof. intros fx a st Hall. rewrite run_sum, Hall. reflexivity. Qed.

  Lemma run_saved : forall fx a st,
    r_all a = true -> snd (snd (run fx a st)) = ENone ->
    st_sum (fst (run fx a st)) = SumFile (sumfile_bytes (current_sum fx st (run_loc a st))).
  Proof. intros fx a st Hall Herr. rewrite run_sum, Hall, Herr. reflexivity. Qed.

  Lemma run_events_ok : forall fx a st,
    Forall (ev_ok fx a (previous_sum a st (run_loc a st)) (current_sum fx st (run_loc a st)))
           (fst (snd (run fx a st))).
  Proof. intros fx a st. rewrite run_events. apply pkg_loop_events. Qed.

  Lemma run_visited_scope : forall fx a st,
    exists rest,
      map fst (filter (in_scope a) (sort_by fst (run_loc a st))) = visited (fst (snd (run fx a st))) ++ rest
      /\ (snd (snd (run fx a st)) <> EGen -> rest = []).
  Proof.
    intros fx a st. rewrite run_events.
    destruct (pkg_loop_visited fx a (previous_sum a st (run_loc a st)) (current_sum fx st (run_loc a st))
                               (sort_by fst (run_loc a st)) (st_tree st)) as [rest [Hr Hf]].
    exists rest. split; [exact Hr|]. intros Hn. apply Hf. fold (run_loop fx a st).
    rewrite run_eq in Hn. cbn [snd] in Hn. destruct (failed _); [now contradiction Hn|reflexivity].
  Qed.

  Lemma sort_by_fst_In : forall (loc : list (bytes * bool)) p, In p (map fst (sort_by fst loc)) -> In p (map fst loc).
  Proof. intros loc p. apply Permutation_in, Permutation_map, sort_by_perm. Qed.

  Lemma visited_local : forall fx a st p,
    In p (visited (fst (snd (run fx a st)))) -> In p (map fst (run_loc a st)).
  Proof.
    intros fx a st p Hin. destruct (run_visited_scope fx a st) as [rest [Hr _]].
    assert (Hin2 : In p (map fst (filter (in_scope a) (sort_by fst (run_loc a st)))))
      by (rewrite Hr; apply in_or_app; now left).
    apply sort_by_fst_In. apply in_map_iff in Hin2 as (pd & <- & Hpd). apply in_map. exact (proj1 (proj1 (filter_In _ _ _) Hpd)).
  Qed.

  Lemma run_skipped_unchanged : forall fx a st p,
    In p (skipped (fst (snd (run fx a st)))) ->
    pkg_changed fx a (previous_sum a st (run_loc a st)) (current_sum fx st (run_loc a st)) p = false.
  Proof.
    intros fx a st p Hsk. apply in_skipped in Hsk.
    pose proof (run_events_ok fx a st) as Hok. rewrite Forall_forall in Hok. exact (Hok _ Hsk).
  Qed.

  Lemma run_skip_only_if : forall fx a st p,
    In p (skipped (fst (snd (run fx a st)))) ->
    r_all a = true /\ r_force a = false /\
    exists b, st_sum st = SumFile b
              /\ sum_sum (sumfile_load b) p = hash_of fx st p
              /\ (fx_empty fx = true -> hash_of fx st p <> []).
  Proof.
    intros fx a st p Hsk.
    assert (Hloc : In p (map fst (run_loc a st))).
    { eapply visited_local. apply visited_split. right. exact Hsk. }
    pose proof (run_skipped_unchanged fx a st p Hsk) as Hok. unfold pkg_changed in Hok.
    destruct (r_force a); [discriminate|].
    unfold SumCache.previous_sum in Hok.
    destruct (r_all a); [|discriminate]. cbn [andb] in Hok.
    destruct (existsb snd (run_loc a st)); [|discriminate].
    destruct (st_sum st) as [|b|]; try discriminate.
    apply orb_false_iff in Hok. destruct Hok as [Hne Heq].
    apply negb_false_iff in Heq. apply bytes_eqb_spec in Heq.
    rewrite (sum_sum_current_in fx st _ p Hloc) in Heq, Hne.
    refine (conj eq_refl (conj eq_refl (ex_intro _ b (conj eq_refl (conj Heq _))))).
    intros Hfx E. now rewrite Hfx, E in Hne.
  Qed.

  Lemma run_regenerates : forall fx a st p,
    In p (visited (fst (snd (run fx a st)))) ->
    (r_force a = true \/ r_all a = false
     \/ (forall b, st_sum st <> SumFile b)
     \/ (exists b, st_sum st = SumFile b /\ sum_sum (sumfile_load b) p <> hash_of fx st p)
     \/ (fx_empty fx = true /\ hash_of fx st p = [])) ->
    In p (executed (fst (snd (run fx a st)))).
  Proof.
    intros fx a st p Hv Hc. apply visited_split in Hv. destruct Hv as [Hv|Hsk]; [exact Hv|]. exfalso.
    (* each alternative contradicts what [run_skip_only_if] says of a skipped package *)
    destruct (run_skip_only_if fx a st p Hsk) as [Hall [Hforce [b [Eb [Hrec Hne]]]]].
    destruct Hc as [Hc|[Hc|[Hc|[[b' [Eb' Hc]]|[Hfx Hh]]]]].
    - congruence.
    - congruence.
    - exact (Hc b Eb).
    - rewrite Eb in Eb'. inversion Eb'; subst b'. exact (Hc Hrec).
    - exact (Hne Hfx Hh).
  Qed.

  (* assumptions about the external components *)
  Definition H_tokens : Prop := forall c h, H c = Some h -> token_ok h = true.
  Definition H_injective : Prop := forall c1 c2 h, H c1 = Some h -> H c2 = Some h -> c1 = c2.
  Definition locals_ok : Prop :=
    forall t e, NoDup (map fst (locals t e)) /\ Forall (fun p => token_ok p = true) (map fst (locals t e)).

  Lemma hash_of_plain : forall fx st p, H_tokens -> forallb plain (hash_of fx st p) = true.
  Proof.
    intros fx st p HT. unfold SumCache.hash_of.
    destruct (H (dirc (st_tree st) (if fx_rootsum fx then None else sum_file_bytes (st_sum st)) p)) as [h|] eqn:E.
    - apply token_plain. eapply HT. exact E.
    - reflexivity.
  Qed.

  Lemma current_sum_ok : forall fx st t e, H_tokens -> locals_ok -> kv_ok (current_sum fx st (locals t e)).
  Proof.
    intros fx st t e HT HL. destruct (HL t e) as [ND HF]. split.
    - rewrite current_sum_keys. exact ND.
    - unfold SumCache.current_sum. apply Forall_forall. intros kv Hin.
      apply in_map_iff in Hin. destruct Hin as [pd [E Hpd]]. subst kv. cbn [fst snd]. split.
      + rewrite Forall_forall in HF. apply HF. apply in_map. exact Hpd.
      + apply hash_of_plain. exact HT.
  Qed.

  (* what the next reader finds for p in the file a successful All run at s1 wrote *)
  Lemma recorded_after_run : forall fx a1 s1 p, H_tokens -> locals_ok ->
    sum_sum (sumfile_load (sumfile_bytes (current_sum fx s1 (run_loc a1 s1)))) p
    = if existsb (fun x => bytes_eqb x p) (map fst (run_loc a1 s1)) then hash_of fx s1 p else [].
  Proof.
    intros fx a1 s1 p HT HL. rewrite load_bytes_sum by (apply current_sum_ok; assumption).
    apply sum_sum_current.
  Qed.

  (* the directory of p as the repaired code hashes it: gengo.sum left out *)
  Definition D (t : tree) (p : bytes) : content := dirc t None p.

  (* what a run that starts from tree t records for p: the hash of p's directory, or "" when it cannot be hashed *)
  Definition hsh (t : tree) (p : bytes) : bytes := match H (D t p) with Some h => h | None => [] end.

  Lemma hash_of_fixed : forall st p, hash_of fixed_all st p = hsh (st_tree st) p.
  Proof. reflexivity. Qed.

  Lemma hsh_some : forall t p, hsh t p <> [] -> H (D t p) = Some (hsh t p).
  Proof. intros t p. unfold hsh. destruct (H (D t p)); [reflexivity|intros E; now contradiction E]. Qed.

  Lemma hsh_inj : forall t t' p, H_injective -> hsh t p = hsh t' p -> hsh t p <> [] -> D t p = D t' p.
  Proof.
    intros t t' p HI E Hne. apply (HI _ _ (hsh t p)); [now apply hsh_some|]. rewrite E in *. now apply hsh_some.
  Qed.

  (* the repaired code: a skipped package is in the state its recorded hash was taken from *)
  Lemma skip_after_write : forall a1 s1 a2 s2 p,
    H_tokens -> H_injective -> locals_ok ->
    st_sum s2 = SumFile (sumfile_bytes (current_sum fixed_all s1 (run_loc a1 s1))) ->
    In p (skipped (fst (snd (run fixed_all a2 s2)))) ->
    In p (map fst (run_loc a1 s1))
    /\ H (D (st_tree s1) p) = Some (hsh (st_tree s2) p)
    /\ D (st_tree s2) p = D (st_tree s1) p.
  Proof.
    intros a1 s1 a2 s2 p HT HI HL Hs Hsk.
    destruct (run_skip_only_if fixed_all a2 s2 p Hsk) as (_ & _ & b & Eb & Hrec & Hne).
    rewrite Hs in Eb. injection Eb as <-. specialize (Hne eq_refl).
    rewrite recorded_after_run, !hash_of_fixed in Hrec by assumption. rewrite hash_of_fixed in Hne.
    destruct (existsb (fun x => bytes_eqb x p) (map fst (run_loc a1 s1))) eqn:Ein; [|congruence].
    rewrite <- Hrec in Hne |- *. split; [apply Order.existsb_bytes_in, Ein|].
    split; [apply hsh_some, Hne|]. symmetry. now apply hsh_inj.
  Qed.

  Definition no_corrupt (ops : list (op tree)) : Prop :=
    Forall (fun o => match o with CorruptSum _ => False | _ => True end) ops.

  Definition good_run (fx : fixes) (a : runargs) (st : State) : Prop :=
    r_all a = true /\ snd (snd (run fx a st)) = ENone.

  Lemma exec_snoc : forall fx st ops o, exec fx st (ops ++ [o]) = step fx o (exec fx st ops).
  Proof. intros fx st ops o. unfold SumCache.exec. rewrite fold_left_app. reflexivity. Qed.

  (* every gengo.sum present in a corruption-free history was written by an earlier successful All run *)
  Definition sum_origin (fx : fixes) (st0 : State) (pre : list (op tree)) (s : State) : Prop :=
    forall b, st_sum s = SumFile b ->
      exists pre1 a1 mid, pre = pre1 ++ Run a1 :: mid
        /\ good_run fx a1 (exec fx st0 pre1)
        /\ b = sumfile_bytes (current_sum fx (exec fx st0 pre1) (run_loc a1 (exec fx st0 pre1))).

  Lemma sum_origin_snoc : forall fx st0 pre o s s',
    sum_origin fx st0 pre s -> st_sum s' = st_sum s -> sum_origin fx st0 (pre ++ [o]) s'.
  Proof.
    intros fx st0 pre o s s' Hs Es b Hb. rewrite Es in Hb.
    destruct (Hs b Hb) as [pre1 [a1 [mid [E [Hg Hbb]]]]].
    exists pre1, a1, (mid ++ [o]). split; [|split; assumption]. rewrite E, <- app_assoc. reflexivity.
  Qed.

  Lemma sum_origin_history : forall fx st0 pre,
    st_sum st0 = SumMissing -> no_corrupt pre -> sum_origin fx st0 pre (exec fx st0 pre).
  Proof.
    intros fx st0 pre H0. induction pre as [|o pre IH] using rev_ind; intros Hnc.
    - intros b Hb. cbn in Hb. rewrite H0 in Hb. discriminate.
    - apply Forall_app in Hnc as [Hnc Ho]. apply Forall_inv in Ho.
      specialize (IH Hnc). rewrite exec_snoc.
      destruct o as [f| |b'| |a]; cbn [SumCache.step].
      + apply (sum_origin_snoc _ _ _ _ _ _ IH). reflexivity.
      + intros b Hb. discriminate.
      + contradiction Ho.
      + intros b Hb. discriminate.
      + destruct (run_sum_cases fx a (exec fx st0 pre)) as [Hsame|[Hall [Herr Hw]]].
        * apply (sum_origin_snoc _ _ _ _ _ _ IH). exact Hsame.
        * intros b Hb. exists pre, a, []. split; [reflexivity|]. split; [split; assumption|].
          rewrite Hw in Hb. inversion Hb. reflexivity.
  Qed.

  Theorem skip_sound_history : forall st0 pre a p,
    H_tokens -> H_injective -> locals_ok ->
    st_sum st0 = SumMissing -> no_corrupt pre ->
    In p (skipped (fst (snd (run fixed_all a (exec fixed_all st0 pre))))) ->
    r_all a = true /\ r_force a = false /\
    exists pre1 a1 mid,
      pre = pre1 ++ Run a1 :: mid
      /\ good_run fixed_all a1 (exec fixed_all st0 pre1)
      /\ In p (map fst (run_loc a1 (exec fixed_all st0 pre1)))
      /\ (exists h, H (D (st_tree (exec fixed_all st0 pre1)) p) = Some h
                    /\ sum_file_bytes (st_sum (exec fixed_all st0 pre)) <> None
                    /\ (forall b, st_sum (exec fixed_all st0 pre) = SumFile b -> sum_sum (sumfile_load b) p = h))
      /\ D (st_tree (exec fixed_all st0 pre)) p = D (st_tree (exec fixed_all st0 pre1)) p.
  Proof.
    intros st0 pre a p HT HI HL H0 Hnc Hsk.
    destruct (run_skip_only_if fixed_all a _ p Hsk) as (Hall & Hforce & b & Eb & Hrec & _).
    destruct (sum_origin_history fixed_all st0 pre H0 Hnc b Eb) as (pre1 & a1 & mid & E & Hg & ->).
    destruct (skip_after_write a1 _ a _ p HT HI HL Eb Hsk) as (Hin & Hh & HD).
    refine (conj Hall (conj Hforce (ex_intro _ pre1 (ex_intro _ a1 (ex_intro _ mid
      (conj E (conj Hg (conj Hin (conj (ex_intro _ _ (conj Hh (conj _ _))) HD))))))))).
    - rewrite Eb. discriminate.
    - intros b' Eb'. rewrite Eb in Eb'. injection Eb' as <-. exact Hrec.
  Qed.

  Lemma saved_lines : forall fx st loc,
    sumfile_bytes (current_sum fx st loc)
    = flat_map (fun p => p ++ sp :: hash_of fx st p ++ [nl]) (sort_keys (map fst loc)).
  Proof.
    intros fx st loc. unfold sumfile_bytes. rewrite current_sum_keys.
    rewrite !flat_map_concat_map. f_equal. apply map_ext_in. intros p Hin.
    unfold sum_line. rewrite sum_sum_current_in; [reflexivity|].
    eapply Permutation_in; [apply sort_keys_perm|exact Hin].
  Qed.

  Lemma current_sum_perm : forall fx st loc loc',
    Permutation loc loc' -> Permutation (current_sum fx st loc) (current_sum fx st loc').
  Proof. intros. unfold SumCache.current_sum. apply Permutation_map. assumption. Qed.

  (* a package gengo.sum has no entry for is regenerated (repaired comparison) *)
  Lemma run_missing_entry : forall fx a st p b,
    fx_empty fx = true ->
    In p (visited (fst (snd (run fx a st)))) ->
    st_sum st = SumFile b -> sum_get (sumfile_load b) p = None ->
    In p (executed (fst (snd (run fx a st)))).
  Proof.
    intros fx a st p b Hfx Hv Hs Hg. apply run_regenerates; [exact Hv|].
    right. right. right.
    destruct (hash_of fx st p) as [|c h] eqn:E.
    - right. split; [assumption|reflexivity].
    - left. exists b. split; [exact Hs|]. unfold sum_sum. rewrite Hg. discriminate.
  Qed.

  (* any difference between the directory now and the directory the recorded hashes were taken from *)
  Lemma run_changed_dir : forall a1 s1 a2 s2 p,
    H_tokens -> H_injective -> locals_ok ->
    st_sum s2 = SumFile (sumfile_bytes (current_sum fixed_all s1 (run_loc a1 s1))) ->
    In p (visited (fst (snd (run fixed_all a2 s2)))) ->
    D (st_tree s2) p <> D (st_tree s1) p ->
    In p (executed (fst (snd (run fixed_all a2 s2)))).
  Proof.
    intros a1 s1 a2 s2 p HT HI HL Hs Hv Hd. apply visited_split in Hv. destruct Hv as [Hv|Hv]; [exact Hv|].
    exfalso. apply Hd.
    destruct (skip_after_write a1 s1 a2 s2 p HT HI HL Hs Hv) as [_ [_ HD]].
    exact HD.
  Qed.

  (* gengo.sum after a successful All run: one "path hash" line per local package, sorted, load-time hashes;
     whatever order the package map was iterated in *)
  Lemma run_saved_exact : forall fx a st,
    r_all a = true -> snd (snd (run fx a st)) = ENone -> NoDup (map fst (locals (st_tree st) (r_entry a))) ->
    exists order,
      Permutation order (map fst (locals (st_tree st) (r_entry a)))
      /\ StronglySorted (fun x y => bytes_leb x y = true) order /\ NoDup order
      /\ st_sum (fst (run fx a st))
         = SumFile (flat_map (fun p => p ++ sp :: hash_of fx st p ++ [nl]) order).
  Proof.
    intros fx a st Hall Herr ND.
    exists (sort_keys (map fst (locals (st_tree st) (r_entry a)))).
    split; [apply sort_keys_perm|]. split; [apply sort_keys_sorted|]. split.
    - eapply Permutation_NoDup; [apply Permutation_sym, sort_keys_perm|exact ND].
    - rewrite run_saved by assumption. rewrite saved_lines. reflexivity.
  Qed.

  Lemma saved_bytes_perm : forall fx st loc loc',
    Permutation loc loc' ->
    sumfile_bytes (current_sum fx st loc) = sumfile_bytes (current_sum fx st loc').
  Proof.
    intros fx st loc loc' HP. rewrite !saved_lines. unfold sort_keys.
    rewrite !sort_by_eq, bytes_leb_Order, (Order.sort_bytes_perm_eq _ _ (Permutation_map fst HP)). reflexivity.
  Qed.

  (* the directory of q contains the directory of p: what is below q determines what is below p *)
  Definition contains (q p : bytes) : Prop := forall t t', D t q = D t' q -> D t p = D t' p.

  Lemma contains_refl : forall p, contains p p.
  Proof. intros p t t' E. exact E. Qed.

  (* the generated files of a package are a function of that package's own sources *)
  Definition gen_idem : Prop := forall t p, gen (gen t p) p = gen t p.
  Definition gen_comm : Prop := forall t p q, gen (gen t p) q = gen (gen t q) p.
  (* generating p touches only p's directory *)
  Definition gen_local : Prop := forall t p q, contains q p \/ D (gen t p) q = D t q.
  (* generated files do not change which packages are loaded *)
  Definition gen_keeps_locals : Prop := forall t p e, locals (gen t p) e = locals t e.
  Definition all_hashable : Prop := forall t p, H (D t p) <> None.

  Hypothesis HT : H_tokens.
  Hypothesis HI : H_injective.
  Hypothesis HL : locals_ok.
  Hypothesis Gidem : gen_idem.
  Hypothesis Gcomm : gen_comm.
  Hypothesis Glocal : gen_local.
  Hypothesis Gloc : gen_keeps_locals.
  Hypothesis Hhash : all_hashable.

  Definition plain_run (a : runargs) : Prop := r_all a = true /\ r_force a = false /\ r_fail a = None.

  Lemma fold_gen_locals : forall S t e, locals (fold_left gen S t) e = locals t e.
  Proof.
    induction S as [|p S IH]; intros t e; [reflexivity|].
    cbn [fold_left]. rewrite IH. apply Gloc.
  Qed.

  Lemma gen_fold_comm : forall S t q, gen (fold_left gen S t) q = fold_left gen S (gen t q).
  Proof.
    induction S as [|p S IH]; intros t q; [reflexivity|].
    cbn [fold_left]. rewrite IH. rewrite Gcomm. reflexivity.
  Qed.

  Lemma gen_absorbed : forall S t q, In q S -> gen (fold_left gen S t) q = fold_left gen S t.
  Proof.
    induction S as [|p S IH]; intros t q Hin; [contradiction|].
    cbn [fold_left]. destruct Hin as [E|Hin].
    - subst p. rewrite gen_fold_comm. rewrite Gidem. reflexivity.
    - apply IH. exact Hin.
  Qed.

  Lemma fold_absorbed : forall S' S t, incl S' S -> fold_left gen S' (fold_left gen S t) = fold_left gen S t.
  Proof.
    induction S' as [|q S' IH]; intros S t Hincl; [reflexivity|].
    cbn [fold_left]. rewrite gen_absorbed by (apply Hincl; left; reflexivity).
    apply IH. intros x Hx. apply Hincl. right. exact Hx.
  Qed.

  Lemma fold_gen_outside : forall S t p,
    (forall q, In q S -> ~ contains p q) -> D (fold_left gen S t) p = D t p.
  Proof.
    induction S as [|q S IH]; intros t p Hout; [reflexivity|].
    cbn [fold_left]. rewrite IH by (intros x Hx; apply Hout; right; exact Hx).
    destruct (Glocal t q p) as [Hc|E]; [|exact E].
    exfalso. apply (Hout q); [left; reflexivity|exact Hc].
  Qed.

  Lemma hsh_nonempty : forall t p, hsh t p <> [].
  Proof.
    intros t p. unfold hsh. destruct (H (D t p)) as [h|] eqn:E.
    - pose proof (HT _ _ E) as Htok. unfold token_ok in Htok. destruct h; [discriminate|discriminate].
    - exfalso. apply (Hhash t p). exact E.
  Qed.

  Lemma hsh_eq_D : forall t t' p, hsh t p = hsh t' p -> D t p = D t' p.
  Proof.
    intros t t' p E. unfold hsh in E.
    destruct (H (D t p)) as [h|] eqn:E1; [|exfalso; apply (Hhash t p); exact E1].
    destruct (H (D t' p)) as [h'|] eqn:E2; [|exfalso; apply (Hhash t' p); exact E2].
    subst h'. eapply HI; eassumption.
  Qed.

  Variable a : runargs.
  Hypothesis Ha : plain_run a.
  Variable loc : list (bytes * bool).
  Hypothesis Hdirect : existsb snd loc = true.
  Notation L := (map fst (sort_by fst loc)).

  (* the hashes taken from tree t; with [fixed_all] they do not read gengo.sum, so any [st_sum] gives this by conversion *)
  Definition cur (t : tree) : sum := current_sum fixed_all {| st_tree := t; st_sum := SumMissing |} loc.

  Definition chg (tprev t : tree) (p : bytes) : bool := negb (bytes_eqb (hsh tprev p) (hsh t p)).

  Lemma run_plain : forall s,
    locals (st_tree s) (r_entry a) = loc -> st_sum s <> SumUnreadable ->
    let pc := pkg_changed fixed_all a (previous_sum a s loc) (cur (st_tree s)) in
    run fixed_all a s
    = ({| st_tree := fold_left gen (filter pc L) (st_tree s); st_sum := SumFile (sumfile_bytes (cur (st_tree s))) |},
       (map (fun p => if pc p then EvExec p else EvSkip p) L, ENone)).
  Proof.
    intros s Hloc Hs. destruct Ha as [Hall [Hforce Hfail]].
    rewrite run_unfold. unfold run_loop, run_loc. rewrite Hloc.
    rewrite pkg_loop_plain by assumption. rewrite failed_plain, Hall.
    destruct s as [t [| |]]; try reflexivity. exfalso. apply Hs. reflexivity.
  Qed.

  (* a run that finds the file written for tree [tprev] *)
  Lemma run_after : forall tprev t,
    locals t (r_entry a) = loc ->
    run fixed_all a {| st_tree := t; st_sum := SumFile (sumfile_bytes (cur tprev)) |}
    = ({| st_tree := fold_left gen (filter (chg tprev t) L) t; st_sum := SumFile (sumfile_bytes (cur t)) |},
       (map (fun p => if chg tprev t p then EvExec p else EvSkip p) L, ENone)).
  Proof.
    intros tprev t Hloc. destruct Ha as [Hall [Hforce Hfail]].
    rewrite (run_plain {| st_tree := t; st_sum := SumFile (sumfile_bytes (cur tprev)) |} Hloc) by discriminate.
    cbn [st_tree st_sum]. set (pc := pkg_changed fixed_all a _ _).
    assert (Hpc : forall p, In p L -> pc p = chg tprev t p).
    { intros p Hin. unfold pc, pkg_changed. rewrite Hforce.
      unfold SumCache.previous_sum. rewrite Hall, Hdirect. cbn [andb st_sum fx_empty fixed_all].
      rewrite load_bytes_sum by (unfold cur; rewrite <- Hloc; apply current_sum_ok; assumption).
      unfold cur. rewrite !sum_sum_current_in by (apply sort_by_fst_In; exact Hin).
      rewrite !hash_of_fixed. cbn [st_tree]. rewrite (Order.is_nil_false _ _ (hsh_nonempty t p)). reflexivity. }
    rewrite (filter_ext_in pc (chg tprev t) L Hpc).
    rewrite (map_ext_in _ (fun p => if chg tprev t p then EvExec p else EvSkip p) L)
      by (intros p Hin; rewrite (Hpc p Hin); reflexivity).
    reflexivity.
  Qed.

  Lemma chg_false_iff : forall t t' p, chg t t' p = false <-> D t p = D t' p.
  Proof.
    intros t t' p. unfold chg. rewrite negb_false_iff, bytes_eqb_spec. split; [apply hsh_eq_D|].
    intros E. unfold hsh. rewrite E. reflexivity.
  Qed.

  Lemma filter_chg_same : forall t l, filter (chg t t) l = [].
  Proof.
    intros t. induction l as [|p l IH]; [reflexivity|].
    cbn [filter]. unfold chg at 1. rewrite bytes_eqb_refl. exact IH.
  Qed.

  (* The idea of [settles].  A run compares the tree t it finds with the tree tprev the recorded hashes were
     taken from and generates the packages whose directories differ.  A directory that did not differ is not
     touched by that: a generated package inside it would have a directory that did not differ either.  So what
     the next run finds changed is among what this run generated. *)
  Lemma chg_settles : forall tprev t p,
    chg tprev t p = false -> chg t (fold_left gen (filter (chg tprev t) L) t) p = false.
  Proof.
    intros tprev t p Hp. apply chg_false_iff in Hp. apply chg_false_iff. symmetry. apply fold_gen_outside.
    intros q Hq Hcont. apply filter_In in Hq. destruct Hq as [_ Hq].
    rewrite (proj2 (chg_false_iff tprev t q) (Hcont tprev t Hp)) in Hq. discriminate.
  Qed.

  (* Whatever tree the recorded hashes were taken from (an edit may lie in between): two runs reach a state that a
     third one leaves alone.  The first of the two generates what differs from the record, the second what the
     first changed by that (an outer directory changes when a nested package is regenerated), which by
     [chg_settles] the first has generated already. *)
  Theorem settles : forall tprev t,
    locals t (r_entry a) = loc ->
    let s1 := {| st_tree := t; st_sum := SumFile (sumfile_bytes (cur tprev)) |} in
    let s2 := fst (run fixed_all a s1) in
    let s3 := fst (run fixed_all a s2) in
    fst (run fixed_all a s3) = s3
    /\ executed (fst (snd (run fixed_all a s3))) = []
    /\ snd (snd (run fixed_all a s3)) = ENone.
  Proof.
    intros tprev t1 Hloc1. cbn zeta.
    rewrite (run_after tprev t1 Hloc1). cbn [fst].
    set (X2 := filter (chg tprev t1) L).
    set (t2 := fold_left gen X2 t1).
    assert (Hloc2 : locals t2 (r_entry a) = loc) by (unfold t2; rewrite fold_gen_locals; exact Hloc1).
    rewrite (run_after t1 t2 Hloc2). cbn [fst].
    set (X3 := filter (chg t1 t2) L).
    assert (H32 : incl X3 X2).
    { intros p Hp. apply filter_In in Hp. destruct Hp as [HpL Hc3]. apply filter_In. split; [exact HpL|].
      destruct (chg tprev t1 p) eqn:Hc2; [reflexivity|].
      pose proof (chg_settles tprev t1 p Hc2) as Hs. fold X2 t2 in Hs. congruence. }
    assert (Ht3 : fold_left gen X3 t2 = t2) by (unfold t2; apply fold_absorbed; exact H32).
    rewrite Ht3.
    rewrite (run_after t2 t2 Hloc2). cbn [fst snd].
    rewrite executed_plain, filter_chg_same. now repeat split.
  Qed.

  (* from any state with a writable gengo.sum (missing, damaged, stale): the first run executes whatever that file
     makes it execute and records the hashes of the tree it started from *)
  Theorem converges : forall s0,
    locals (st_tree s0) (r_entry a) = loc -> st_sum s0 <> SumUnreadable ->
    let s1 := fst (run fixed_all a s0) in
    let s2 := fst (run fixed_all a s1) in
    let s3 := fst (run fixed_all a s2) in
    fst (run fixed_all a s3) = s3
    /\ executed (fst (snd (run fixed_all a s3))) = []
    /\ snd (snd (run fixed_all a s3)) = ENone.
  Proof.
    intros s0 Hloc0 Hs0. cbn zeta. rewrite (run_plain s0 Hloc0 Hs0). cbn [fst].
    apply settles. rewrite fold_gen_locals. exact Hloc0.
  Qed.
End CacheFacts.

(* Execute does not look at its context: whenever the caller cancels it, the run is the ordinary run. *)
Lemma run_ctx_is_run :
  forall (tree content : Type) (H : content -> option bytes) (dirc : tree -> option bytes -> bytes -> content)
         (gen : tree -> bytes -> tree) (locals : tree -> list bytes -> list (bytes * bool))
         (fx : fixes) (c : ctxstate) (a : runargs) (st : state tree),
    run_ctx tree content H dirc gen locals fx c a st = run tree content H dirc gen locals fx a st.
Proof. reflexivity. Qed.
