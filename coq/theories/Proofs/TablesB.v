(* Tables, parts B and C.
   B: C12's tag extraction composed with C06's merge / IsGeneratorEnabled — the enabling rule stated on
      SOURCE COMMENT LINES.
   C: C12's Package.Doc composed with C16's Context.Doc / runtimedoc generator — what RuntimeDoc() returns, stated on
      the SOURCE comment groups of a layout.
   [tags_of_lines], DEFINED here (the tags C12 extracts from comment lines, as a tag map of C06), occurs in statements
   of Props/Tables.v, Props/C06.v and Props/C12.v. *)
Require Import Gengo.Base.Bytes Gengo.Base.Order Gengo.Model.Tables.
Require Gengo.Base.Assoc.
From Coq Require Import ZArith.
Require Gengo.Proofs.Dispatch Gengo.Proofs.Comments Gengo.Proofs.GenRuntimeDoc.

Definition tags_of_lines (lines : list bytes) : D.tags := tags_of_c12 (fst (Cm.extract_tags true [] lines)).

Lemma lookup_tag_lookup : forall k (m : Cm.tagmap), D.lookup k (tags_of_c12 m) = Cm.tag_lookup k m.
Proof. intros k m. symmetry. exact (Assoc.get_ext _ _ bytes_eqb_sym k m). Qed.

Lemma lookup_in : forall (m : D.tags) k, D.lookup k m <> None <-> In k (D.keys m).
Proof. intros m k. symmetry. exact (Assoc.get_keys _ Assoc.bytes_eqbP' m k). Qed.

Lemma tags_of_lines_lookup : forall lines k, D.lookup k (tags_of_lines lines) = line_value lines k.
Proof.
  intros lines k. unfold tags_of_lines, Cm.extract_tags. rewrite lookup_tag_lookup, Proofs.Comments.markers_default.
  exact (Proofs.Comments.extract_loop_lookup ms0 lines [] [] k).
Qed.

Lemma tags_of_lines_nodup : forall lines, NoDup (D.keys (tags_of_lines lines)).
Proof.
  intros lines. destruct (Proofs.Comments.extract_tags_spec [] lines) as (_ & _ & _ & Hnd & _). exact Hnd.
Qed.

Lemma spec_values_in : forall ms S k,
  map CS.tag_value (filter (fun l => CS.is_tag ms l && bytes_eqb (CS.tag_key l) k) S) <> []
  <-> In k (map CS.tag_key (filter (CS.is_tag ms) S)).
Proof.
  intros ms S k. induction S as [|l r IH]; cbn [filter map]; [split; [congruence|intros []]|].
  destruct (CS.is_tag ms l); cbn [andb map]; [|exact IH].
  destruct (bytes_eqbP (CS.tag_key l) k) as [E|E]; cbn [map In]; [split; [auto|discriminate]|].
  rewrite IH. split; [auto|]. intros [H|H]; [contradiction|exact H].
Qed.

Lemma tags_of_lines_keys : forall lines k, In k (D.keys (tags_of_lines lines)) <-> In k (CS.spec_keys ms0 lines).
Proof.
  intros lines k. rewrite <- lookup_in, tags_of_lines_lookup.
  unfold line_value, CS.spec_keys, CS.spec_values. rewrite <- spec_values_in.
  destruct (map CS.tag_value _); split; congruence.
Qed.

Lemma first_some_snoc : forall {A} (l : list (option A)) b,
  first_some (l ++ [b]) = Proofs.Dispatch.or_else (first_some l) b.
Proof.
  intros A l b. induction l as [|[a|] r IH]; cbn; [destruct b; reflexivity|reflexivity|exact IH].
Qed.

Lemma first_some_chain : forall {A} (a : option A) l b,
  first_some (a :: l ++ [b]) = Proofs.Dispatch.or_else a (Proofs.Dispatch.or_else (first_some l) b).
Proof. intros A a l b. exact (f_equal (Proofs.Dispatch.or_else a) (first_some_snoc l b)). Qed.

(* the package level: several files, the later file wins *)
Lemma pkg_tags_lookup : forall files k,
  (forall t, In t files -> NoDup (D.keys t)) ->
  D.lookup k (D.pkg_tags files) = first_some (map (D.lookup k) (rev files)).
Proof.
  intros files k. induction files as [|t r IH] using rev_ind; intros Hnd; [reflexivity|].
  rewrite Proofs.Dispatch.pkg_tags_lookup_snoc by apply Hnd, in_elt.
  rewrite rev_app_distr. cbn [rev app map first_some].
  rewrite IH by (intros t' Ht'; apply Hnd, in_or_app; left; exact Ht'). reflexivity.
Qed.

Lemma fold_merge_keys : forall files m k,
  In k (D.keys (fold_left D.merge_into files m)) <-> In k (D.keys m) \/ In k (flat_map (@D.keys (list bytes)) files).
Proof.
  induction files as [|t r IH]; intros m k; cbn [fold_left flat_map].
  - cbn. tauto.
  - rewrite IH, Proofs.Dispatch.merge_into_keys_in, in_app_iff. tauto.
Qed.

Lemma pkg_tags_keys : forall files k, In k (D.keys (D.pkg_tags files)) <-> In k (flat_map (@D.keys (list bytes)) files).
Proof.
  intros files k. unfold D.pkg_tags, D.merge. rewrite fold_merge_keys. cbn. tauto.
Qed.

Lemma flat_map_keys_lines : forall pkgdocs k,
  In k (flat_map (@D.keys (list bytes)) (map tags_of_lines pkgdocs)) <-> In k (flat_map (CS.spec_keys ms0) pkgdocs).
Proof.
  induction pkgdocs as [|ls r IH]; intros k; cbn [map flat_map]; [reflexivity|].
  rewrite !in_app_iff, IH, tags_of_lines_keys. reflexivity.
Qed.

(* a declaration that carries the tags [T] *)
Definition with_tags (T : D.tags) : D.tdef := D.mk_tdef 0 [] D.KNamed true T D.ANil [].

Lemma source_keys_in : forall G pkgdocs lines k,
  In k (D.keys (tags_of_lines lines) ++ D.keys (D.pkg_tags (map tags_of_lines pkgdocs)) ++ D.keys G)
  <-> In k (source_keys G pkgdocs lines).
Proof.
  intros G pkgdocs lines k. unfold source_keys.
  rewrite !in_app_iff, tags_of_lines_keys, pkg_tags_keys, flat_map_keys_lines. reflexivity.
Qed.

(* C06's closed form of IsGeneratorEnabled on three levels of tag maps, read on the lines the maps come from *)
Lemma eff_spec_source_rule : forall g G pkgdocs lines,
  Proofs.Dispatch.enabled_eff_spec g G (D.pkg_tags (map tags_of_lines pkgdocs)) (tags_of_lines lines)
  = source_rule g G pkgdocs lines.
Proof.
  intros g G pkgdocs lines. unfold Proofs.Dispatch.enabled_eff_spec, source_rule, source_lookup.
  rewrite first_some_chain, tags_of_lines_lookup, pkg_tags_lookup.
  2:{ intros t Ht. apply in_map_iff in Ht. destruct Ht as (ls & <- & _). apply tags_of_lines_nodup. }
  rewrite <- map_rev, map_map, (map_ext _ _ (fun ls => tags_of_lines_lookup ls _)).
  destruct (Proofs.Dispatch.or_else _ _); [reflexivity|].
  apply Order.existsb_ext_in. intros k. apply source_keys_in.
Qed.

Theorem enabled_lines_rule : forall g G pkgdocs lines,
  NoDup (D.keys G) ->
  enabled_from_lines g G (D.pkg_tags (map tags_of_lines pkgdocs)) lines = source_rule g G pkgdocs lines.
Proof.
  intros g G pkgdocs lines HG. rewrite <- eff_spec_source_rule.
  exact (Proofs.Dispatch.enabled_effective g G _ (with_tags (tags_of_lines lines)) _ HG (Proofs.Dispatch.merge_nodup _)
                              (tags_of_lines_nodup lines) (Permutation_refl _)).
Qed.

Lemma decl_tags_own : forall evs leads, CS.wf evs leads -> forall d, In d (CS.decls_of evs) ->
  decl_tags evs (Cm.p_file (Cm.d_pos d)) (Cm.p_line (Cm.d_pos d))
  = tags_of_lines (CS.doc_lines_above leads (Cm.p_file (Cm.d_pos d)) (Cm.p_line (Cm.d_pos d))).
Proof.
  intros evs leads WF d Hd. unfold decl_tags, tags_of_lines.
  rewrite (Proofs.Comments.doc_own evs leads WF d Hd). reflexivity.
Qed.

Lemma pkg_tags_from_source_eq : forall docs,
  pkg_tags_from_source docs = D.pkg_tags (map tags_of_lines (map Cm.split_nl docs)).
Proof. intros docs. unfold pkg_tags_from_source. rewrite map_map. reflexivity. Qed.

(* For every layout satisfying C12's well-formedness, every declaration d of it, every generator name, all global
   tags, all package doc texts: IsGeneratorEnabled on what Context.Doc returns at the declaration's line is the
   rule evaluated on the lines of the stand-alone comment group ending on the line above d, the lines of the
   package docs and the global tags. *)
Theorem enabled_from_source_rule : forall g G docs evs leads d,
  NoDup (D.keys G) -> CS.wf evs leads -> In d (CS.decls_of evs) ->
  enabled_from_source g G docs evs (Cm.p_file (Cm.d_pos d)) (Cm.p_line (Cm.d_pos d))
  = source_rule g G (map Cm.split_nl docs)
                (CS.doc_lines_above leads (Cm.p_file (Cm.d_pos d)) (Cm.p_line (Cm.d_pos d))).
Proof.
  intros g G docs evs leads d HG WF Hd. unfold enabled_from_source.
  rewrite (decl_tags_own evs leads WF d Hd), pkg_tags_from_source_eq.
  apply (enabled_lines_rule g G (map Cm.split_nl docs) _ HG).
Qed.

(* Context.Doc asks at the position of the NAME.  For every name of the declaration — under the negation of C12's
   known-finding class (no name on a continuation line) *)
Theorem enabled_from_source_rule_names : forall g G docs evs leads d l,
  NoDup (D.keys G) -> CS.wf evs leads -> CS.name_on_continuation_line evs = false ->
  In d (CS.decls_of evs) -> In l (Cm.d_names d) ->
  enabled_from_source g G docs evs (Cm.p_file (Cm.d_pos d)) l
  = source_rule g G (map Cm.split_nl docs)
                (CS.doc_lines_above leads (Cm.p_file (Cm.d_pos d)) (Cm.p_line (Cm.d_pos d))).
Proof.
  intros g G docs evs leads d l HG WF Hn Hd Hl.
  rewrite (Proofs.Comments.names_on_first_line evs Hn d l Hd Hl). apply enabled_from_source_rule; assumption.
Qed.

(* the side condition cannot be dropped: `// +gengo:x` / `F,` / `G int`: at G's line the tag is not seen *)
Definition r_doc : Cm.group := Cm.mk_group (Cm.mk_pos 0 3 2) 3 (bs "+gengo:x" ++ [Cm.c_nl]).
Definition r_fg : Cm.decl := Cm.mk_decl (Cm.mk_pos 0 4 2) [4%Z; 5%Z] (Some r_doc) None.
Definition r_events : list Cm.event := [Cm.EDecl r_fg; Cm.EGroup r_doc].

Lemma enabled_from_source_names_refuted :
  exists g G docs evs leads d l,
    NoDup (D.keys G) /\ CS.wf evs leads /\ In d (CS.decls_of evs) /\ In l (Cm.d_names d)
    /\ enabled_from_source g G docs evs (Cm.p_file (Cm.d_pos d)) l = false
    /\ source_rule g G (map Cm.split_nl docs)
                   (CS.doc_lines_above leads (Cm.p_file (Cm.d_pos d)) (Cm.p_line (Cm.d_pos d))) = true.
Proof.
  exists (bs "x"), [], [], r_events, [r_doc], r_fg, 5%Z.
  split; [constructor|]. split; [apply Proofs.Comments.wf_b_sound; vm_compute; reflexivity|].
  split; [left; reflexivity|]. split; [right; left; reflexivity|]. split; vm_compute; reflexivity.
Qed.

Lemma source_rule_decl_decides : forall g G pkgdocs decl v vs,
  CS.spec_values ms0 decl (D.gengo_prefix g) = v :: vs ->
  source_rule g G pkgdocs decl = negb (bytes_eqb (concat (v :: vs)) D.str_false).
Proof.
  intros g G pkgdocs decl v vs H. unfold source_rule, source_lookup, line_value. cbn [first_some]. rewrite H. reflexivity.
Qed.

Lemma source_rule_no_tag_anywhere : forall g G pkgdocs decl,
  (forall k, In k (source_keys G pkgdocs decl) ->
             k <> D.gengo_prefix g /\ D.has_prefix (D.gengo_prefix g ++ D.colon) k = false) ->
  source_rule g G pkgdocs decl = false.
Proof.
  intros g G pkgdocs decl H. rewrite <- eff_spec_source_rule. setoid_rewrite <- source_keys_in in H.
  unfold Proofs.Dispatch.enabled_eff_spec.
  (* gengo:<g> is a key of none of the three maps *)
  rewrite !(proj2 (Proofs.Dispatch.lookup_None_notin _ _))
    by (intros Hin; refine (proj1 (H _ _) eq_refl); rewrite !in_app_iff; auto).
  apply not_true_is_false. intros E. apply existsb_exists in E. destruct E as (k & Hin & Hp).
  rewrite (proj2 (H k Hin)) in Hp. discriminate.
Qed.

Lemma tdef_from_source_tags : forall dtext d,
  D.td_tags (tdef_from_source dtext d) = tags_of_lines (CS.spec_lines (dtext (D.td_id d))).
Proof.
  intros dtext d. unfold tdef_from_source, tags_of_lines. cbn [D.td_tags].
  rewrite Proofs.Comments.group_lines_spec. reflexivity.
Qed.

Lemma tdef_from_source_names : forall dtext defs,
  map D.td_name (filter D.td_pkgscope (map (tdef_from_source dtext) defs)) = map D.td_name (filter D.td_pkgscope defs).
Proof. intros dtext defs. rewrite filter_map_comm, map_map. reflexivity. Qed.

(* dispatch driven by the source: C06's exactly-once with the enabling rule on comment lines *)
Theorem exactly_once_from_source : forall g G ftexts dtext defs pi ns,
  NoDup (D.keys G) ->
  NoDup (map D.td_name (filter D.td_pkgscope defs)) ->
  let sdefs := map (tdef_from_source dtext) defs in
  let P := pkg_tags_from_source ftexts in
  Permutation pi sdefs ->
  Permutation ns (D.keys (D.type_table true pi)) ->
  (forall d, In d defs -> D.td_action d <> D.AErr) ->
  exists cs,
    D.do_generate g G P (D.type_table true pi) ns = Ok (cs, false)
    /\ NoDup cs
    /\ forall k d', In (k, d') cs <->
         exists d, In d defs /\ d' = tdef_from_source dtext d /\ D.td_pkgscope d = true
           /\ source_rule (D.g_name g) G (map Cm.split_nl ftexts) (CS.spec_lines (dtext (D.td_id d))) = true
           /\ ((k = D.CT /\ D.td_kind d = D.KNamed) \/ (k = D.CA /\ D.td_kind d = D.KAlias /\ D.g_alias g = true)).
Proof.
  intros g G ftexts dtext defs pi ns HG Hnd sdefs P Hpi Hns Hne.
  assert (Hnd' : NoDup (map D.td_name (filter D.td_pkgscope sdefs))).
  { unfold sdefs. rewrite tdef_from_source_names. exact Hnd. }
  assert (Htags : forall d, In d sdefs -> NoDup (D.keys (D.td_tags d))).
  { intros d Hd. apply in_map_iff in Hd. destruct Hd as (d0 & <- & _). rewrite tdef_from_source_tags. apply tags_of_lines_nodup. }
  assert (Hne' : forall d, In d sdefs -> D.td_action d <> D.AErr).
  { intros d Hd. apply in_map_iff in Hd. destruct Hd as (d0 & <- & Hd0). cbn. apply Hne. exact Hd0. }
  assert (HP : NoDup (D.keys P)) by apply Proofs.Dispatch.merge_nodup.
  destruct (Proofs.Dispatch.exactly_once g G P sdefs pi ns HG HP Htags Hnd' Hpi Hns Hne') as (cs & Hrun & Hcs & Hiff).
  exists cs. split; [exact Hrun|]. split; [exact Hcs|].
  assert (Hrule : forall d, Proofs.Dispatch.enabled_eff_spec (D.g_name g) G P (D.td_tags (tdef_from_source dtext d))
                            = source_rule (D.g_name g) G (map Cm.split_nl ftexts) (CS.spec_lines (dtext (D.td_id d)))).
  { intros d. rewrite tdef_from_source_tags. unfold P. rewrite pkg_tags_from_source_eq. apply eff_spec_source_rule. }
  intros k d'. rewrite Hiff. split.
  - intros (Hin & Hs & He & Hk). apply in_map_iff in Hin. destruct Hin as (d & <- & Hd).
    rewrite Hrule in He. exists d. auto 6.
  - intros (d & Hd & -> & Hs & He & Hk). rewrite <- Hrule in He. split; [exact (in_map _ _ _ Hd)|auto].
Qed.

(* the lines Package.Doc returns at a declaration's line = the non-tag lines (stripped) of the stand-alone
   comment group that ends on the line above *)
Lemma doc_lines_at_own : forall evs leads, CS.wf evs leads -> forall d, In d (CS.decls_of evs) ->
  doc_lines_at evs (Cm.p_file (Cm.d_pos d), Cm.p_line (Cm.d_pos d))
  = source_doc leads (Cm.p_file (Cm.d_pos d)) (Cm.p_line (Cm.d_pos d)).
Proof.
  intros evs leads WF d Hd. unfold doc_lines_at, source_doc. cbn [fst snd].
  rewrite (Proofs.Comments.doc_own evs leads WF d Hd).
  destruct (Proofs.Comments.extract_tags_spec
              [] (CS.doc_lines_above leads (Cm.p_file (Cm.d_pos d)) (Cm.p_line (Cm.d_pos d)))) as (Ho & _).
  exact Ho.
Qed.

Lemma doc_lines_at_name : forall evs leads, CS.wf evs leads -> CS.name_on_continuation_line evs = false ->
  forall d l, In d (CS.decls_of evs) -> In l (Cm.d_names d) ->
  doc_lines_at evs (Cm.p_file (Cm.d_pos d), l) = source_doc leads (Cm.p_file (Cm.d_pos d)) (Cm.p_line (Cm.d_pos d)).
Proof.
  intros evs leads WF Hn d l Hd Hl. rewrite (Proofs.Comments.names_on_first_line evs Hn d l Hd Hl). apply doc_lines_at_own; assumption.
Qed.

Section FromSource.
  Variable evs : list Cm.event.
  Variable G : D.tags.
  Variable docs : list bytes.
  Variable tpos : RD.name -> N * Z.
  Variable fpos : RD.name -> RD.name -> N * Z.

  Notation tyS := (ty_from_source evs G docs tpos fpos).
  Notation pkgS := (package_from_source evs G docs tpos fpos).
  Notation fieldS := (field_from_source evs fpos).

  Lemma pkgS_names : forall p, map RD.t_name (pkgS p) = map RD.t_name p.
  Proof. intros p. unfold package_from_source. rewrite map_map. reflexivity. Qed.

  Lemma has_expose_fieldS : forall tn fs, RD.has_expose (map (fieldS tn) fs) = RD.has_expose fs.
  Proof. intros tn fs. unfold RD.has_expose. induction fs as [|f r IH]; cbn; [reflexivity|]. rewrite IH. reflexivity. Qed.

  Lemma filter_listed_fieldS : forall tn fs,
    map RD.f_name (filter RD.listed (map (fieldS tn) fs)) = map RD.f_name (filter RD.listed fs).
  Proof. intros tn fs. rewrite filter_map_comm, map_map. reflexivity. Qed.

  (* which types are covered, in source terms: the enabling decision is B's *)
  Lemma covered_from_source : forall t,
    RD.covered (tyS t)
    = enabled_from_source (bs "runtimedoc") G docs evs (fst (tpos (RD.t_name t))) (snd (tpos (RD.t_name t)))
      && RD.t_exported t
      && match RD.t_kind t with
         | RD.TInterface => false
         | RD.TStruct fs => RD.has_expose fs
         | RD.TOther => true
         end.
  Proof.
    intros t. unfold RD.covered, ty_from_source. cbn [RD.t_enabled RD.t_exported RD.t_kind].
    destruct (RD.t_kind t) as [fs| |]; cbn [kind_from_source]; [rewrite has_expose_fieldS|..]; reflexivity.
  Qed.

  Lemma covered_from_source_rule : forall leads t d,
    NoDup (D.keys G) -> CS.wf evs leads -> In d (CS.decls_of evs) ->
    tpos (RD.t_name t) = (Cm.p_file (Cm.d_pos d), Cm.p_line (Cm.d_pos d)) ->
    RD.covered (tyS t)
    = source_rule (bs "runtimedoc") G (map Cm.split_nl docs)
                  (CS.doc_lines_above leads (Cm.p_file (Cm.d_pos d)) (Cm.p_line (Cm.d_pos d)))
      && RD.t_exported t
      && match RD.t_kind t with
         | RD.TInterface => false
         | RD.TStruct fs => RD.has_expose fs
         | RD.TOther => true
         end.
  Proof.
    intros leads t d HG WF Hd Hpos. rewrite covered_from_source, Hpos. cbn [fst snd].
    rewrite (enabled_from_source_rule (bs "runtimedoc") G docs evs leads d HG WF Hd). reflexivity.
  Qed.

  (* RuntimeDoc() of a covered type of a package given as a layout: the non-tag lines of the stand-alone comment
     group that ends on the line above the declaration, leading type name removed *)
  Theorem docs_from_source : forall files leads p t d v,
    CS.wf evs leads -> NoDup (map RD.t_name p) -> In t p ->
    In d (CS.decls_of evs) -> tpos (RD.t_name t) = (Cm.p_file (Cm.d_pos d), Cm.p_line (Cm.d_pos d)) ->
    RD.covered (tyS t) = true ->
    RD.has_embed_ref (pkgS p) (RD.t_name t) = false ->
    RD.run files (RD.gen true true (pkgS p)) v (RD.t_name t) []
    = Ok (Some (RD.doc_of (RD.t_name t) (source_doc leads (Cm.p_file (Cm.d_pos d)) (Cm.p_line (Cm.d_pos d))))).
  Proof.
    intros files leads p t d v WF Hnd Hin Hd Hpos Hcov Hemb.
    rewrite <- (doc_lines_at_own evs leads WF d Hd), <- Hpos.
    apply (Proofs.GenRuntimeDoc.run_types files (pkgS p) (tyS t) v);
      [rewrite pkgS_names; exact Hnd|apply in_map, Hin|exact Hcov|exact Hemb].
  Qed.

  (* RuntimeDoc(f) for a listed field: the field's own comment group — for the name the field object is
     positioned at, under the negation of C12's known-finding class *)
  Theorem field_docs_from_source : forall files leads p t fs f d l v rest,
    CS.wf evs leads -> CS.name_on_continuation_line evs = false ->
    NoDup (map RD.t_name p) -> In t p -> RD.covered (tyS t) = true ->
    RD.t_kind t = RD.TStruct fs -> NoDup (map RD.f_name (filter RD.listed fs)) -> In f fs -> RD.listed f = true ->
    In d (CS.decls_of evs) -> In l (Cm.d_names d) -> fpos (RD.t_name t) (RD.f_name f) = (Cm.p_file (Cm.d_pos d), l) ->
    RD.run files (RD.gen true true (pkgS p)) v (RD.t_name t) (RD.f_name f :: rest)
    = Ok (Some (RD.doc_of (RD.f_name f) (source_doc leads (Cm.p_file (Cm.d_pos d)) (Cm.p_line (Cm.d_pos d))))).
  Proof.
    intros files leads p t fs f d l v rest WF Hn Hnd Hin Hcov Hk Hfn Hf Hl Hd Hln Hpos.
    rewrite <- (doc_lines_at_name evs leads WF Hn d l Hd Hln), <- Hpos.
    apply (Proofs.GenRuntimeDoc.run_fields_in files (pkgS p) (tyS t) (map (fieldS (RD.t_name t)) fs) (fieldS (RD.t_name t) f) v rest).
    - rewrite pkgS_names. exact Hnd.
    - apply in_map, Hin.
    - exact Hcov.
    - cbn. rewrite Hk. reflexivity.
    - rewrite filter_listed_fieldS. exact Hfn.
    - apply in_map, Hf.
    - exact Hl.
  Qed.
End FromSource.
