(* C10 — generic lemmas: decimal round trip and the agreement of the two decimal printers, string order and
   sorting, association lists, option/res list helpers. *)
Require Import Gengo.Base.Bytes Gengo.Base.Order Gengo.Model.ValueLit.
Require Gengo.Model.TypeLit.
Require Gengo.Base.Assoc.
From Coq Require Import ZArith DecimalString DecimalZ DecimalPos.

Lemma to_of_string : forall s, to_string (of_string s) = s.
Proof. induction s as [|c s IH]; cbn; [reflexivity | now rewrite IH]. Qed.

Lemma of_to_string : forall b, of_string (to_string b) = b.
Proof. induction b as [|c b IH]; cbn; [reflexivity | now rewrite IH]. Qed.

Lemma to_int_not_nil : forall z, Z.to_int z <> Decimal.Pos Decimal.Nil /\ Z.to_int z <> Decimal.Neg Decimal.Nil.
Proof.
  intros z. split; destruct z as [|p|p]; try discriminate; intros [= H]; exact (Unsigned.to_uint_nonnil p H).
Qed.

Lemma parse_int_dec : forall z, parse_int (dec z) = Some z.
Proof.
  intros z. unfold parse_int, dec. rewrite to_of_string.
  destruct (to_int_not_nil z) as [H1 H2].
  rewrite NilZero.isi by assumption. cbn. now rewrite DecimalZ.of_to.
Qed.

Lemma dec_inj : forall a b, dec a = dec b -> a = b.
Proof.
  intros a b H. pose proof (parse_int_dec a) as Ha. rewrite H, parse_int_dec in Ha. now injection Ha.
Qed.

(* the first byte of a decimal is a digit or '-' — never a single quote *)
Lemma dec_head : forall z, exists c r, dec z = c :: r /\ c <> sq.
Proof.
  intros z. unfold dec.
  destruct z as [|p|p]; cbn.
  - eexists _, _. split; [reflexivity | intros H; discriminate].
  - unfold NilZero.string_of_uint.
    pose proof (Unsigned.to_uint_nonnil p) as Hn.
    destruct (Pos.to_uint p) eqn:E; [now elim Hn | ..];
      cbn; eexists _, _; (split; [reflexivity | intros H; discriminate]).
  - eexists _, _. split; [reflexivity | intros H; discriminate].
Qed.

(* The two decimal printers.  Model/TypeLit.v prints an array length by repeated division by ten ([TypeLit.dec], 40 digits of fuel), this
   model through the standard library's [Z.to_int].  Both write the little-endian digit sequence
   [Unsigned.to_lu n] most significant digit first: the first keeps the text [digits_text a] of the digits [a] already
   written, where the library's [revapp (to_lu n) a] keeps the digits. *)

Import Decimal.
Local Open Scope N_scope.

Definition digits_text (d : uint) : bytes := of_string (NilEmpty.string_of_uint d).

(* [add_digit r d] stands for r + 10 * (what d stands for), if r < 10 *)
Definition add_digit (r : N) (d : uint) : uint := Nat.iter (N.to_nat r) Little.succ (D0 d).

Lemma add_digit_spec : forall r d a, r < 10 ->
  revapp (add_digit r d) a = revapp d (add_digit r a) /\ digits_text (add_digit r a) = ascii_of_N (48 + r) :: digits_text a.
Proof.
  intros r d a H.
  assert (Hr : r = 0 \/ r = 1 \/ r = 2 \/ r = 3 \/ r = 4 \/ r = 5 \/ r = 6 \/ r = 7 \/ r = 8 \/ r = 9) by lia.
  repeat destruct Hr as [->|Hr]; try subst r; split; reflexivity.
Qed.

Lemma to_lu_add : forall r m, Unsigned.to_lu (r + m) = Nat.iter (N.to_nat r) Little.succ (Unsigned.to_lu m).
Proof.
  intros r m. rewrite Unsigned.Nadd_alt. induction (N.to_nat r) as [|k IH]; [reflexivity|].
  now rewrite !Unsigned.nat_iter_S, Unsigned.to_lu_succ, IH.
Qed.

Lemma to_lu_step : forall n,
  Unsigned.to_lu n = add_digit (n mod 10) (match n / 10 with 0 => Nil | q => Unsigned.to_lu q end).
Proof.
  intros n. rewrite (N.div_mod' n 10) at 1. rewrite N.add_comm, to_lu_add.
  destruct (n / 10); [reflexivity|]. now rewrite Unsigned.to_ldec_tenfold.
Qed.

Lemma dec_digits_lu : forall f n a,
  n < 10 ^ N.of_nat (S f) -> TypeLit.dec_digits (S f) n (digits_text a) = digits_text (revapp (Unsigned.to_lu n) a).
Proof.
  induction f as [|f IH]; intros n a Hn;
    change (TypeLit.dec_digits (S ?f) n ?acc)
      with (if n <? 10 then ascii_of_N (48 + n mod 10) :: acc
            else TypeLit.dec_digits f (n / 10) (ascii_of_N (48 + n mod 10) :: acc));
    assert (Hr : n mod 10 < 10) by (apply N.mod_lt; discriminate);
    rewrite to_lu_step;
    destruct (add_digit_spec (n mod 10) (match n / 10 with 0 => Nil | q => Unsigned.to_lu q end) a Hr) as [-> <-];
    destruct (N.ltb_spec n 10) as [Hlt|Hge].
  - now rewrite N.div_small.
  - change (10 ^ N.of_nat 1) with 10 in Hn. lia.
  - now rewrite N.div_small.
  - assert (Hq : 0 < n / 10) by (apply N.div_str_pos; lia).
    rewrite IH.
    + destruct (n / 10); [lia | reflexivity].
    + apply N.div_lt_upper_bound; [discriminate|]. rewrite <- N.pow_succ_r', <- Nat2N.inj_succ. exact Hn.
Qed.

Lemma dec_of_N : forall n, dec (Z.of_N n) = digits_text (rev (Unsigned.to_lu n)).
Proof.
  intros [|p]; [reflexivity|]. unfold dec. cbn.
  pose proof (Unsigned.to_uint_nonnil p) as Hn.
  now replace (NilZero.string_of_uint (Pos.to_uint p)) with (NilEmpty.string_of_uint (Pos.to_uint p))
    by (destruct (Pos.to_uint p); [now elim Hn | reflexivity ..]).
Qed.

Theorem dec_N_agree : forall n, n < 10 ^ 40 -> TypeLit.dec n = dec (Z.of_N n).
Proof. intros n Hn. rewrite dec_of_N. apply (dec_digits_lu 39 n Nil). exact Hn. Qed.

Corollary dec_nat_agree : forall n : nat, N.of_nat n < 10 ^ 40 -> TypeLit.dec (N.of_nat n) = dec_nat n.
Proof. intros n Hn. unfold dec_nat. rewrite <- nat_N_Z. apply dec_N_agree. exact Hn. Qed.

(* the agreement in the form Model/RenderStack.v's [ty_okb] asks it of every array length *)
Corollary dec_nat_agree_seq : forall b : nat, N.of_nat b <= 10 ^ 40 ->
  forallb (fun n => bytes_eqb (TypeLit.dec (N.of_nat n)) (dec_nat n)) (seq 0 b) = true.
Proof.
  intros b Hb. apply forallb_forall. intros n Hn. apply in_seq in Hn.
  apply bytes_eqb_spec, dec_nat_agree. lia.
Qed.

Local Close Scope N_scope.

(* sort.Strings: the model's order and insertion sort are those of Base/Order.v *)

Lemma bytes_leb_eq : forall a b, bytes_leb a b = Order.bytes_leb a b.
Proof.
  induction a as [|x a IH]; destruct b as [|y b]; cbn; try reflexivity. rewrite IH.
  destruct (N.ltb_spec (N_of_ascii x) (N_of_ascii y)), (N.ltb_spec (N_of_ascii y) (N_of_ascii x)),
           (N.eqb_spec (N_of_ascii x) (N_of_ascii y)); try reflexivity; lia.
Qed.

Lemma insert_eq : forall x l, insert x l = insert_by (fun s => s) Order.bytes_leb x l.
Proof. intros x l. induction l as [|y r IH]; cbn; [reflexivity|]. now rewrite bytes_leb_eq, IH. Qed.

Lemma isort_eq : forall l, isort l = sort_by (fun s => s) Order.bytes_leb l.
Proof. unfold isort, sort_by. induction l as [|x r IH]; cbn; [reflexivity|]. now rewrite insert_eq, IH. Qed.

Lemma insert_perm : forall x l, Permutation (x :: l) (insert x l).
Proof. intros x l. rewrite insert_eq. apply insert_by_perm. Qed.

Lemma bytes_leb_refl : forall a, bytes_leb a a = true.
Proof. intros a. rewrite bytes_leb_eq. apply Order.bytes_leb_refl. Qed.

Lemma isort_perm : forall l, Permutation l (isort l).
Proof. intros l. rewrite isort_eq. apply sort_by_perm. Qed.

Lemma isort_perm_eq : forall l1 l2, Permutation l1 l2 -> isort l1 = isort l2.
Proof. intros l1 l2 HP. rewrite !isort_eq. now apply sort_bytes_perm_eq. Qed.

Lemma insert_comm : forall x y l, x <> y -> insert x (insert y l) = insert y (insert x l).
Proof.
  intros x y l Hne.
  assert (T : bytes_leb x y = negb (bytes_leb y x)).
  { destruct (bytes_leb x y) eqn:A, (bytes_leb y x) eqn:B; try reflexivity; rewrite bytes_leb_eq in A, B.
    - elim Hne. now apply Order.bytes_leb_antisym.
    - destruct (Order.bytes_leb_total x y); congruence. }
  induction l as [|z r IH]; cbn.
  - rewrite T. now destruct (bytes_leb y x).
  - destruct (bytes_leb y z) eqn:Eyz, (bytes_leb x z) eqn:Exz; cbn; rewrite ?Exz, ?Eyz.
    + rewrite T. now destruct (bytes_leb y x).
    + destruct (bytes_leb x y) eqn:Exy; [|reflexivity]. rewrite bytes_leb_eq in *.
      now rewrite (Order.bytes_leb_trans _ _ _ Exy Eyz) in Exz.
    + destruct (bytes_leb y x) eqn:Eyx; [|reflexivity]. rewrite bytes_leb_eq in *.
      now rewrite (Order.bytes_leb_trans _ _ _ Eyx Exz) in Eyz.
    + now rewrite IH.
Qed.

(* [assoc] is Base/Assoc.v's [get] on byte-string keys; [assoc_last], where the last entry wins, is [get] on the reversed list *)
Lemma assoc_eq {A} : forall k (l : list (bytes * A)), assoc k l = Assoc.get bytes_eqb k l.
Proof. apply Assoc.get_unfold. intros k [|[k' v] r]; reflexivity. Qed.

Lemma assoc_last_eq {A} : forall k (l : list (bytes * A)), assoc_last k l = Assoc.get bytes_eqb k (List.rev l).
Proof. apply Assoc.get_last_unfold. intros k [|[k' v] r]; reflexivity. Qed.

Lemma assoc_notin {A} : forall k (l : list (bytes * A)), ~ In k (map fst l) -> assoc k l = None.
Proof. intros k l. rewrite assoc_eq. apply Assoc.get_None, bytes_eqbP. Qed.

Lemma assoc_in {A} : forall k (v : A) l, NoDup (map fst l) -> In (k, v) l -> assoc k l = Some v.
Proof. intros k v l. rewrite assoc_eq. apply Assoc.get_In, bytes_eqbP. Qed.

Lemma assoc_app {A} : forall k (p q : list (bytes * A)),
  assoc k (p ++ q) = match assoc k p with Some v => Some v | None => assoc k q end.
Proof. intros k p q. rewrite !assoc_eq. apply Assoc.get_app. Qed.

Lemma assoc_last_notin {A} : forall k (l : list (bytes * A)), ~ In k (map fst l) -> assoc_last k l = None.
Proof. intros k l H. rewrite assoc_last_eq. apply (Assoc.get_None _ bytes_eqbP). now rewrite map_rev, <- in_rev. Qed.

Lemma assoc_last_in {A} : forall k (v : A) l, NoDup (map fst l) -> In (k, v) l -> assoc_last k l = Some v.
Proof.
  intros k v l Hnd Hin. rewrite assoc_last_eq, (Assoc.get_rev _ bytes_eqbP) by exact Hnd. now apply (Assoc.get_In _ bytes_eqbP).
Qed.

Lemma mapr_all_some {A B C} (f : A -> res B) (g : B -> option C) (P : A -> C -> Prop) : forall l,
  Forall (fun x => exists y z, f x = Ok y /\ g y = Some z /\ P x z) l ->
  exists ys zs, mapr f l = Ok ys /\ all_some (map g ys) = Some zs /\ Forall2 P l zs.
Proof.
  induction l as [|x l IH]; intros H.
  - exists [], []. split; [reflexivity|]. split; [reflexivity | constructor].
  - apply Forall_cons_iff in H. destruct H as [(y & z & Hy & Hz & HP) Hr].
    destruct (IH Hr) as (ys & zs & Hys & Hzs & HF).
    exists (y :: ys), (z :: zs). cbn. fold (mapr f). rewrite Hy, Hys, Hz, Hzs.
    split; [reflexivity|]. split; [reflexivity | now constructor].
Qed.

Lemma all_some_map_Some {A} : forall l : list A, all_some (map Some l) = Some l.
Proof. induction l as [|x l IH]; cbn; [reflexivity | now rewrite IH]. Qed.

Lemma all_some_Some {A} : forall (l : list (option A)) ys, all_some l = Some ys -> l = map Some ys.
Proof.
  induction l as [|[x|] l IH]; cbn; intros ys H; try discriminate.
  - now injection H as <-.
  - destruct (all_some l) as [xs|]; [|discriminate]. injection H as <-. cbn. now rewrite <- IH.
Qed.

Lemma mapr_Forall2 {A B} (f : A -> res B) (P : A -> B -> Prop) : forall l,
  Forall (fun x => exists y, f x = Ok y /\ P x y) l ->
  exists ys, mapr f l = Ok ys /\ Forall2 P l ys.
Proof.
  intros l H. destruct (mapr_all_some f Some P l) as (ys & zs & H1 & H2 & H3).
  - eapply Forall_impl; [|exact H]. intros x (y & ? & ?). now exists y, y.
  - rewrite all_some_map_Some in H2. injection H2 as <-. now exists ys.
Qed.

Lemma mapr_ok_Forall2 {A B} (f : A -> res B) : forall l ys,
  mapr f l = Ok ys -> Forall2 (fun x y => f x = Ok y) l ys.
Proof.
  induction l as [|x l IH]; cbn; fold (mapr f); intros ys H.
  - injection H as <-. constructor.
  - destruct (f x) as [y| |] eqn:Ey; try discriminate.
    destruct (mapr f l) as [ys'| |] eqn:Eys; try discriminate.
    injection H as <-. constructor; [exact Ey | now apply IH].
Qed.

Lemma mapr_not_fuel {A B} (f : A -> res B) : forall l, mapr f l <> OutOfFuel.
Proof.
  induction l as [|x l IH]; cbn; fold (mapr f); [discriminate|].
  destruct (f x); try discriminate. destruct (mapr f l); discriminate.
Qed.

Lemma mapr_perm {A B} (f : A -> res B) : forall l1 l2, Permutation l1 l2 ->
  match mapr f l1, mapr f l2 with
  | Ok r1, Ok r2 => Permutation r1 r2
  | Panic, Panic => True
  | _, _ => False
  end.
Proof.
  intros l1 l2 HP. induction HP as [|x l l' HP IH|x y l|l l' l'' HP1 IH1 HP2 IH2].
  - cbn. constructor.
  - cbn. fold (mapr f). destruct (f x); auto.
    destruct (mapr f l), (mapr f l'); try contradiction; auto.
  - cbn. fold (mapr f). destruct (f x), (f y); auto; destruct (mapr f l); auto. apply perm_swap.
  - destruct (mapr f l) eqn:E1, (mapr f l') eqn:E2, (mapr f l'') eqn:E3; try contradiction; auto.
    etransitivity; eassumption.
Qed.

Lemma all_some_Forall2 {A B} (f : A -> option B) (P : A -> B -> Prop) : forall l,
  Forall (fun x => exists y, f x = Some y /\ P x y) l ->
  exists ys, all_some (map f l) = Some ys /\ Forall2 P l ys.
Proof.
  induction l as [|x l IH]; intros H.
  - exists []. split; [reflexivity | constructor].
  - apply Forall_cons_iff in H. destruct H as [(y & Hy & HP) Hr]. destruct (IH Hr) as (ys & Hys & HF).
    exists (y :: ys). cbn. rewrite Hy, Hys. split; [reflexivity | now constructor].
Qed.

(* [map f l1 = map Some r1], so the permutation reaches [r1] through [Permutation_map_inv] *)
Lemma all_some_perm {A B} (f : A -> option B) : forall l1 l2 r1, Permutation l1 l2 ->
  all_some (map f l1) = Some r1 -> exists r2, all_some (map f l2) = Some r2 /\ Permutation r1 r2.
Proof.
  intros l1 l2 r1 HP H. apply (Permutation_map f), Permutation_sym in HP.
  rewrite (all_some_Some _ _ H) in HP. apply Permutation_map_inv in HP. destruct HP as (r2 & E & HP).
  exists r2. now rewrite E, all_some_map_Some.
Qed.

Lemma NoDup_map_inj_on {A B} (f : A -> B) : forall l,
  (forall a b, In a l -> In b l -> f a = f b -> a = b) -> NoDup l -> NoDup (map f l).
Proof.
  induction l as [|x l IH]; intros Hinj Hnd; cbn; [constructor|].
  apply NoDup_cons_iff in Hnd. destruct Hnd as [Hni Hnd']. constructor.
  - intros Hin. apply in_map_iff in Hin. destruct Hin as (y & Hy & Hin).
    assert (y = x) by (apply Hinj; [now right | now left | exact Hy]). subst y. contradiction.
  - apply IH; [|assumption]. intros a b Ha Hb. apply Hinj; now right.
Qed.

(* Model/ValueLit.v's [names_nodupb] is Base/Order.v's [nodup_bytes], the same fixpoint *)
Lemma names_nodupb_true : forall l : list bytes, NoDup l -> names_nodupb l = true.
Proof. intros l. exact (proj2 (nodup_bytes_NoDup l)). Qed.

Lemma Forall2_len {A B} (P : A -> B -> Prop) : forall l1 l2, Forall2 P l1 l2 -> length l1 = length l2.
Proof. intros l1 l2 H. induction H; cbn; congruence. Qed.
